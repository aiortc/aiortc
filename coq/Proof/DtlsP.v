(* Lemmas about Model/Dtls.v (property C04): the peer identity policy and its insensitivity to order,
   unsupported entries and ASCII case; the SRTP key slicing of the two roles; what _recv_next hands
   over; start() as a gate in front of everything that sends or delivers. *)
From Coq Require Import ZArith List Bool Lia Permutation.
From AV Require Import Lib.Bytes Lib.BytesP Gen.Dtls Model.Dtls.
Import ListNotations.
Local Open Scope Z_scope.

Lemma str_mem_In s l : str_mem s l = true <-> In s l.
Proof.
  unfold str_mem. rewrite existsb_exists. split.
  - intros [x [Hin Heq]]. apply bytes_eqb_eq in Heq. subst. exact Hin.
  - intros Hin. exists s. split; [exact Hin | apply bytes_eqb_refl].
Qed.

(* the algorithm of a fingerprint is supported (after lower-casing) *)
Definition supported (a : str) : Prop := In (str_lower a) dtls_X509_DIGEST_ALGORITHMS.
Definition supportedb (a : str) : bool := str_mem (str_lower a) dtls_X509_DIGEST_ALGORITHMS.
(* the value of a fingerprint equals the peer certificate digest (after upper-casing) *)
Definition matches (digest : str -> str) (f : fingerprint) : Prop :=
  str_upper (snd f) = digest (str_lower (fst f)).
Definition matchesb (digest : str -> str) (f : fingerprint) : bool :=
  bytes_eqb (str_upper (snd f)) (digest (str_lower (fst f))).

Lemma supportedb_iff a : supportedb a = true <-> supported a.
Proof. apply str_mem_In. Qed.
Lemma matchesb_iff d f : matchesb d f = true <-> matches d f.
Proof. apply bytes_eqb_eq. Qed.

(* number of supported fingerprints, number of supported and matching ones *)
Fixpoint nsup (fps : list fingerprint) : Z :=
  match fps with
  | [] => 0
  | f :: r => (if supportedb (fst f) then 1 else 0) + nsup r
  end.
Fixpoint nval (d : str -> str) (fps : list fingerprint) : Z :=
  match fps with
  | [] => 0
  | f :: r => (if supportedb (fst f) && matchesb d f then 1 else 0) + nval d r
  end.

Lemma count_spec d fps : forall s v,
  count_fingerprints d fps s v = (s + nsup fps, v + nval d fps).
Proof.
  induction fps as [|[a x] r IH]; intros s v; cbn [count_fingerprints nsup nval fst snd].
  - f_equal; lia.
  - unfold supportedb, matchesb. cbn [fst snd].
    destruct (str_mem (str_lower a) dtls_X509_DIGEST_ALGORITHMS) eqn:Hs.
    + destruct (bytes_eqb (str_upper x) (d (str_lower a))) eqn:Hm; rewrite IH; cbn [andb]; f_equal; lia.
    + rewrite IH. cbn [andb]. f_equal; lia.
Qed.

Lemma nval_le_nsup d fps : 0 <= nval d fps <= nsup fps.
Proof.
  induction fps as [|f r IH]; cbn [nsup nval]; [lia|].
  destruct (supportedb (fst f)); destruct (matchesb d f); cbn [andb]; lia.
Qed.

Lemma nsup_pos_iff fps : nsup fps <> 0 <-> Exists (fun f => supported (fst f)) fps.
Proof.
  induction fps as [|f r IH]; cbn [nsup]; [rewrite Exists_nil; lia|].
  pose proof (nval_le_nsup (fun _ => []) r) as Hr.
  rewrite Exists_cons, <- IH, <- supportedb_iff. destruct (supportedb (fst f)).
  - split; [now left | lia].
  - split; [now right | now intros [H|H]].
Qed.

Lemma nval_eq_iff d fps :
  nval d fps = nsup fps <-> Forall (fun f => supported (fst f) -> matches d f) fps.
Proof.
  induction fps as [|f r IH]; cbn [nsup nval]; [intuition constructor|].
  pose proof (nval_le_nsup d r) as Hr.
  rewrite Forall_cons_iff, <- IH, <- supportedb_iff, <- matchesb_iff.
  destruct (supportedb (fst f)), (matchesb d f); cbn [andb]; intuition (lia || discriminate).
Qed.

Lemma validate_counts d fps :
  validate_identity d fps = true <-> nsup fps <> 0 /\ nval d fps = nsup fps.
Proof.
  unfold validate_identity. rewrite count_spec. rewrite !Z.add_0_l.
  rewrite negb_true_iff, orb_false_iff, negb_false_iff, Z.eqb_neq, Z.eqb_eq. reflexivity.
Qed.

Lemma identity_policy d fps :
  validate_identity d fps = true <->
  (exists f, In f fps /\ supported (fst f)) /\
  (forall f, In f fps -> supported (fst f) -> matches d f).
Proof. rewrite validate_counts, nsup_pos_iff, nval_eq_iff, Exists_exists, Forall_forall. reflexivity. Qed.

(* the verdict depends only on which supported fingerprints are present *)
Lemma identity_same_supported d fps fps' :
  (forall f, supported (fst f) -> (In f fps <-> In f fps')) ->
  validate_identity d fps = validate_identity d fps'.
Proof.
  intros H. apply eq_true_iff_eq. rewrite !identity_policy.
  split; intros [[f [Hf Hs]] Hall];
    (split; [exists f; split; [apply (H f Hs), Hf | exact Hs]
            | intros g Hg Hgs; apply Hall; [apply (H g Hgs), Hg | exact Hgs]]).
Qed.

Lemma identity_permutation d fps fps' :
  Permutation fps fps' -> validate_identity d fps = validate_identity d fps'.
Proof.
  intros HP. apply identity_same_supported. intros f _.
  split; apply Permutation_in; [exact HP | apply Permutation_sym; exact HP].
Qed.

Lemma identity_unsupported_ignored d fps :
  validate_identity d (filter (fun f => supportedb (fst f)) fps) = validate_identity d fps.
Proof. apply identity_same_supported. intros f Hs. rewrite filter_In, supportedb_iff. tauto. Qed.

Lemma identity_unsupported_insert d pre f post :
  ~ supported (fst f) ->
  validate_identity d (pre ++ f :: post) = validate_identity d (pre ++ post).
Proof.
  intros Hn. apply identity_same_supported. intros g Hg. rewrite !in_app_iff. cbn [In].
  assert (f <> g) by (intros ->; contradiction). tauto.
Qed.

(* two characters equal up to ASCII case *)
Definition char_ci (x y : Z) : Prop :=
  x = y \/ (97 <= x <= 122 /\ y = x - 32) \/ (97 <= y <= 122 /\ x = y - 32).
Definition ci_eq (a b : str) : Prop := Forall2 char_ci a b.
Definition fp_ci (f g : fingerprint) : Prop := ci_eq (fst f) (fst g) /\ ci_eq (snd f) (snd g).

Definition ascii (s : str) : Prop := Forall (fun c => 0 <= c < 128) s.

Lemma ci_eq_refl a : ci_eq a a.
Proof. induction a; constructor; [left; reflexivity | assumption]. Qed.
Lemma ci_eq_sym a b : ci_eq a b -> ci_eq b a.
Proof.
  induction 1 as [|x y a b Hxy _ IH]; constructor; [|exact IH].
  destruct Hxy as [H | [H | H]]; [left; auto | right; right; exact H | right; left; exact H].
Qed.

(* upper() and lower() on one ASCII character *)
Definition up1 (c : Z) : Z := if (97 <=? c) && (c <=? 122) then c - 32 else c.
Definition lo1 (c : Z) : Z := if (65 <=? c) && (c <=? 90) then c + 32 else c.

Lemma up1_spec x : up1 x = x - 32 /\ 97 <= x <= 122 \/ up1 x = x /\ ~ 97 <= x <= 122.
Proof. unfold up1. destruct (Z.leb_spec 97 x), (Z.leb_spec x 122); cbn [andb]; lia. Qed.
Lemma lo1_spec x : lo1 x = x + 32 /\ 65 <= x <= 90 \/ lo1 x = x /\ ~ 65 <= x <= 90.
Proof. unfold lo1. destruct (Z.leb_spec 65 x), (Z.leb_spec x 90); cbn [andb]; lia. Qed.

Lemma up1_ci x y : up1 x = up1 y <-> char_ci x y.
Proof.
  unfold char_ci. destruct (up1_spec x) as [[-> Hx]|[-> Hx]], (up1_spec y) as [[-> Hy]|[-> Hy]].
  - split; [left|]; lia.
  - split; [right; left|]; lia.
  - split; [right; right|]; lia.
  - split; [left|]; lia.
Qed.
Lemma lo1_ci x y : lo1 x = lo1 y <-> char_ci x y.
Proof.
  unfold char_ci. destruct (lo1_spec x) as [[-> Hx]|[-> Hx]], (lo1_spec y) as [[-> Hy]|[-> Hy]].
  - split; [left|]; lia.
  - split; [right; right|]; lia.
  - split; [right; left|]; lia.
  - split; [left|]; lia.
Qed.

Lemma special_none_below c t :
  forallb (fun kv => 128 <=? fst kv) t = true -> c < 128 -> special c t = None.
Proof.
  induction t as [|[k v] t IH]; intros Hall Hc; cbn [special]; [reflexivity|].
  cbn [forallb fst] in Hall. apply andb_true_iff in Hall. destruct Hall as [Hk Ht].
  apply Z.leb_le in Hk. destruct (Z.eqb c k) eqn:E; [apply Z.eqb_eq in E; lia|].
  apply IH; assumption.
Qed.

Lemma upper_special_high : forallb (fun kv => 128 <=? fst kv) dtls_UPPER_SPECIAL = true.
Proof. vm_compute. reflexivity. Qed.
Lemma lower_special_high : forallb (fun kv => 128 <=? fst kv) dtls_LOWER_SPECIAL = true.
Proof. vm_compute. reflexivity. Qed.

Lemma upper_char_ascii c : c < 128 -> upper_char c = [up1 c].
Proof.
  intros Hc. unfold upper_char, up1. destruct ((97 <=? c) && (c <=? 122)); [reflexivity|].
  rewrite (special_none_below c _ upper_special_high Hc). reflexivity.
Qed.
Lemma lower_char_ascii c : c < 128 -> lower_char c = [lo1 c].
Proof.
  intros Hc. unfold lower_char, lo1. destruct ((65 <=? c) && (c <=? 90)); [reflexivity|].
  rewrite (special_none_below c _ lower_special_high Hc). reflexivity.
Qed.

(* str.upper() and str.lower() are `flat_map` of a character map that, on ASCII, is one of the two above *)
Section CaseMap.
  Variables (cmap : Z -> list Z) (c1 : Z -> Z).
  Hypothesis cmap_ascii : forall c, c < 128 -> cmap c = [c1 c].
  Hypothesis c1_ci : forall x y, c1 x = c1 y <-> char_ci x y.

  Lemma ci_eq_map a b : ci_eq a b -> flat_map cmap a = flat_map cmap b.
  Proof.
    induction 1 as [|x y a b Hxy _ IH]; cbn [flat_map]; [reflexivity|]. rewrite IH. f_equal.
    destruct Hxy as [-> | Hxy]; [reflexivity|].
    assert (x < 128 /\ y < 128) as [Hx Hy] by lia.
    rewrite (cmap_ascii x Hx), (cmap_ascii y Hy). f_equal. apply c1_ci. right. exact Hxy.
  Qed.

  Lemma map_eq_ci a b : ascii a -> ascii b -> (flat_map cmap a = flat_map cmap b <-> ci_eq a b).
  Proof.
    intros Ha Hb. split; [|apply ci_eq_map]. revert b Hb.
    induction Ha as [|x a Hx _ IH]; intros b Hb; destruct Hb as [|y b Hy Hb]; cbn [flat_map];
      rewrite ?(cmap_ascii x), ?(cmap_ascii y) by lia; intros H; try discriminate; [constructor|].
    injection H as H1 H2. constructor; [apply c1_ci, H1 | exact (IH b Hb H2)].
  Qed.
End CaseMap.

Lemma ci_eq_upper a b : ci_eq a b -> str_upper a = str_upper b.
Proof. exact (ci_eq_map upper_char up1 upper_char_ascii up1_ci a b). Qed.
Lemma ci_eq_lower a b : ci_eq a b -> str_lower a = str_lower b.
Proof. exact (ci_eq_map lower_char lo1 lower_char_ascii lo1_ci a b). Qed.
Lemma upper_eq_ci a b : ascii a -> ascii b -> (str_upper a = str_upper b <-> ci_eq a b).
Proof. exact (map_eq_ci upper_char up1 upper_char_ascii up1_ci a b). Qed.
Lemma lower_eq_ci a b : ascii a -> ascii b -> (str_lower a = str_lower b <-> ci_eq a b).
Proof. exact (map_eq_ci lower_char lo1 lower_char_ascii lo1_ci a b). Qed.

Lemma identity_case_insensitive d fps fps' :
  Forall2 fp_ci fps fps' -> validate_identity d fps = validate_identity d fps'.
Proof.
  intros H. unfold validate_identity.
  assert (forall s v, count_fingerprints d fps s v = count_fingerprints d fps' s v) as E.
  { induction H as [|[a x] [a' x'] r r' [Ha Hx] _ IH]; intros s v; [reflexivity|].
    cbn [fst snd] in Ha, Hx. cbn [count_fingerprints].
    rewrite (ci_eq_lower a a' Ha), (ci_eq_upper x x' Hx).
    destruct (str_mem _ dtls_X509_DIGEST_ALGORITHMS); [|apply IH].
    destruct (bytes_eqb _ _); apply IH. }
  rewrite E. reflexivity.
Qed.

(* the supported names are ASCII and already lower case (checked on the generated table) *)
Definition asciib (s : str) : bool := forallb (fun c => (0 <=? c) && (c <? 128)) s.
Lemma asciib_ok s : asciib s = true -> ascii s.
Proof.
  unfold asciib, ascii. rewrite forallb_forall, Forall_forall. intros H c Hc.
  specialize (H c Hc). apply andb_true_iff in H. destruct H as [H1 H2].
  apply Z.leb_le in H1. apply Z.ltb_lt in H2. lia.
Qed.

Lemma algorithms_normal :
  forallb (fun n => asciib n && bytes_eqb (str_lower n) n) dtls_X509_DIGEST_ALGORITHMS = true.
Proof. vm_compute. reflexivity. Qed.

Lemma algorithm_normal n : In n dtls_X509_DIGEST_ALGORITHMS -> ascii n /\ str_lower n = n.
Proof.
  intros Hin. pose proof algorithms_normal as H. rewrite forallb_forall in H.
  specialize (H n Hin). apply andb_true_iff in H. destruct H as [H1 H2].
  split; [apply asciib_ok; exact H1 | apply bytes_eqb_eq; exact H2].
Qed.

Lemma supported_ascii a : ascii a ->
  (supported a <-> exists n, In n dtls_X509_DIGEST_ALGORITHMS /\ ci_eq a n).
Proof.
  intros Ha. unfold supported. split.
  - intros Hin. exists (str_lower a). split; [exact Hin|].
    destruct (algorithm_normal _ Hin) as [Hn Hl].
    apply (lower_eq_ci a (str_lower a) Ha Hn). symmetry. exact Hl.
  - intros [n [Hin Hci]]. destruct (algorithm_normal _ Hin) as [Hn Hl].
    rewrite (ci_eq_lower a n Hci), Hl. exact Hin.
Qed.

(* The policy for ASCII fingerprints in terms of plain case-insensitive equality.
   The digest oracle returns upper-case ASCII text (hex pairs and colons), which
   is what certificate_digest produces. *)
Lemma identity_policy_ascii d fps :
  Forall (fun f => ascii (fst f) /\ ascii (snd f)) fps ->
  (forall n, In n dtls_X509_DIGEST_ALGORITHMS -> ascii (d n) /\ str_upper (d n) = d n) ->
  (validate_identity d fps = true <->
   (exists f n, In f fps /\ In n dtls_X509_DIGEST_ALGORITHMS /\ ci_eq (fst f) n) /\
   (forall f n, In f fps -> In n dtls_X509_DIGEST_ALGORITHMS -> ci_eq (fst f) n -> ci_eq (snd f) (d n))).
Proof.
  intros Hfps Hd. rewrite Forall_forall in Hfps. rewrite identity_policy.
  (* for a supported algorithm `n` and a fingerprint whose algorithm is `n` up to case, matching is
     equality of the value with the digest up to case *)
  assert (Hm : forall g n, In g fps -> In n dtls_X509_DIGEST_ALGORITHMS -> ci_eq (fst g) n ->
                           (matches d g <-> ci_eq (snd g) (d n))).
  { intros g n Hg Hn Hc. destruct (Hfps g Hg) as [_ Hv]. destruct (Hd n Hn) as [Hdn Hdu].
    destruct (algorithm_normal n Hn) as [_ Hl]. unfold matches.
    rewrite (ci_eq_lower _ _ Hc), Hl. rewrite <- Hdu at 1. apply (upper_eq_ci _ _ Hv Hdn). }
  split.
  - intros [[f [Hf Hs]] Hall]. split.
    + destruct (Hfps f Hf) as [Ha _]. apply (supported_ascii _ Ha) in Hs. destruct Hs as [n [Hn Hc]].
      exists f, n. auto.
    + intros g n Hg Hn Hc. apply (Hm g n Hg Hn Hc). apply (Hall g Hg).
      apply (supported_ascii _ (proj1 (Hfps g Hg))). exists n. auto.
  - intros [[f [n [Hf [Hn Hc]]]] Hall]. split.
    + exists f. split; [exact Hf|]. apply (supported_ascii _ (proj1 (Hfps f Hf))). exists n. auto.
    + intros g Hg Hsg. apply (supported_ascii _ (proj1 (Hfps g Hg))) in Hsg. destruct Hsg as [m [Hm' Hcm]].
      apply (Hm g m Hg Hm' Hcm). exact (Hall g m Hg Hm' Hcm).
Qed.

Lemma slice_Z (l pre mid post : bytes) a b :
  l = pre ++ mid ++ post -> a = len pre -> b = len pre + len mid -> slice l (Z.to_nat a) (Z.to_nat b) = mid.
Proof. intros -> -> ->. unfold len. rewrite <- Nat2Z.inj_add, !Nat2Z.id. apply slice_app_mid. Qed.

(* client_key ++ server_key ++ client_salt ++ server_salt *)
Lemma get_key_and_salt_0 k s ck sk cs ss :
  len ck = k -> len sk = k -> len cs = s -> len ss = s ->
  get_key_and_salt k s (ck ++ sk ++ cs ++ ss) 0 = ck ++ cs.
Proof.
  intros H1 H2 H3 H4. unfold get_key_and_salt. cbv zeta. f_equal.
  - apply (slice_Z _ [] ck (sk ++ cs ++ ss)); [reflexivity | cbn [len length Z.of_nat]; lia..].
  - apply (slice_Z _ (ck ++ sk) cs ss); [now rewrite <- app_assoc | rewrite ?len_app; lia..].
Qed.

Lemma get_key_and_salt_1 k s ck sk cs ss :
  len ck = k -> len sk = k -> len cs = s -> len ss = s ->
  get_key_and_salt k s (ck ++ sk ++ cs ++ ss) 1 = sk ++ ss.
Proof.
  intros H1 H2 H3 H4. unfold get_key_and_salt. cbv zeta. f_equal.
  - apply (slice_Z _ ck sk (cs ++ ss)); [reflexivity | lia..].
  - apply (slice_Z _ (ck ++ sk ++ cs) ss []); [now rewrite app_nil_r, <- !app_assoc | rewrite ?len_app; lia..].
Qed.

Lemma split_len (l : bytes) a b :
  0 <= a -> 0 <= b -> len l = a + b -> exists x y, l = x ++ y /\ len x = a /\ len y = b.
Proof.
  unfold len. intros Ha Hb H. exists (firstn (Z.to_nat a) l), (skipn (Z.to_nat a) l).
  rewrite firstn_skipn, firstn_length, skipn_length. repeat split; lia.
Qed.

Lemma split4 (m : bytes) k s :
  0 <= k -> 0 <= s -> len m = (k + s) * 2 ->
  exists ck sk cs ss, m = ck ++ sk ++ cs ++ ss /\ len ck = k /\ len sk = k /\ len cs = s /\ len ss = s.
Proof.
  intros Hk Hs Hm.
  destruct (split_len m k (k + (s + s))) as (ck & r1 & -> & H1 & Hr1); [lia..|].
  destruct (split_len r1 k (s + s)) as (sk & r2 & -> & H2 & Hr2); [lia..|].
  destruct (split_len r2 s s) as (cs & ss & -> & H3 & H4); [lia..|].
  exists ck, sk, cs, ss. auto.
Qed.

(* the mirror-image property of _setup_srtp *)
Definition keys_mirror_at (k s : Z) (m : bytes) : Prop :=
  exists ck sk cs ss,
    m = ck ++ sk ++ cs ++ ss /\ len ck = k /\ len sk = k /\ len cs = s /\ len ss = s /\
    setup_keys RClient k s m = (ck ++ cs, sk ++ ss) /\
    setup_keys RServer k s m = (sk ++ ss, ck ++ cs).

Lemma keys_mirror k s m : 0 <= k -> 0 <= s -> len m = (k + s) * 2 -> keys_mirror_at k s m.
Proof.
  intros Hk Hs Hm. destruct (split4 m k s Hk Hs Hm) as [ck [sk [cs [ss [E [H1 [H2 [H3 H4]]]]]]]].
  exists ck, sk, cs, ss. repeat (split; [assumption|]). subst m. unfold setup_keys.
  rewrite get_key_and_salt_0, get_key_and_salt_1 by assumption. split; reflexivity.
Qed.

(* consequences in the form of the property text *)
Lemma keys_mirror_consequences k s m :
  keys_mirror_at k s m ->
  fst (setup_keys RClient k s m) = snd (setup_keys RServer k s m) /\
  fst (setup_keys RServer k s m) = snd (setup_keys RClient k s m) /\
  len (fst (setup_keys RClient k s m)) = k + s /\
  len (fst (setup_keys RServer k s m)) = k + s.
Proof.
  intros [ck [sk [cs [ss [E [H1 [H2 [H3 [H4 [Hc Hsv]]]]]]]]]]. rewrite Hc, Hsv. cbn [fst snd].
  rewrite !len_app. repeat split; lia.
Qed.

Lemma profiles_nonneg :
  forallb (fun p => (0 <=? snd (fst p)) && (0 <=? snd p)) dtls_SRTP_PROFILES = true.
Proof. vm_compute. reflexivity. Qed.

Lemma keys_mirror_table :
  Forall (fun p => forall m, len m = (snd (fst p) + snd p) * 2 -> keys_mirror_at (snd (fst p)) (snd p) m)
         dtls_SRTP_PROFILES.
Proof.
  apply Forall_forall. intros p Hin m Hm. pose proof profiles_nonneg as H.
  rewrite forallb_forall in H. specialize (H p Hin). apply andb_true_iff in H. destruct H as [H1 H2].
  apply Z.leb_le in H1. apply Z.leb_le in H2. apply keys_mirror; assumption.
Qed.

Lemma get_key_and_salt_ok k s m idx : bytes_ok m -> bytes_ok (get_key_and_salt k s m idx).
Proof. intros H. unfold get_key_and_salt. apply bytes_ok_app. split; apply bytes_ok_slice; exact H. Qed.

(* What _recv_next can do with a datagram: whatever it hands over was produced by a successful
   decryption / authentication of exactly this datagram, application data only passes the state
   guard, and no exception other than ConnectionError leaves it -- the empty datagram included. *)
Lemma recv_next_spec guard t g :
  match recv_next guard t g with
  | RxCrash => False
  | RxConnErr | RxOk RxNone => True
  | RxOk (RxData d) => dg_ssl g = SslData d /\ d <> [] /\ t_receiver t = true /\
                       (guard = true -> t_state t = CONNECTED)
  | RxOk (RxRtp p) => dg_unprotect g = Some p /\ is_rtcp (dg_data g) = false /\ t_rx_key t <> None
  | RxOk (RxRtcp p) => dg_unprotect g = Some p /\ is_rtcp (dg_data g) = true /\ t_rx_key t <> None
  end.
Proof.
  unfold recv_next. destruct (u8 (dg_data g) 0) as [fb|]; [|exact I].
  destruct ((19 <? fb) && (fb <? 64)).
  - destruct (dg_bio g && negb (dg_send_ok g)); [exact I|].
    destruct (dg_ssl g) as [d| |]; try exact I.
    destruct d as [|b d]; [exact I|]. destruct (t_receiver t); [|exact I]. cbn [nonempty andb].
    destruct guard; cbn [negb orb]; [|repeat split; discriminate].
    destruct (t_state t); cbn [state_eqb]; repeat split; discriminate.
  - destruct (t_rx_key t) as [k|]; [|rewrite andb_false_r; exact I].
    destruct ((127 <? fb) && (fb <? 192)); [|exact I]. cbn [andb is_some].
    destruct (dg_unprotect g) as [p|]; [|exact I].
    destruct (is_rtcp (dg_data g)); repeat split; discriminate.
Qed.

Lemma recv_next_sound guard t g o :
  recv_next guard t g = RxOk o ->
  match o with
  | RxNone => True
  | RxData d => dg_ssl g = SslData d /\ d <> [] /\ t_receiver t = true
  | RxRtp p => dg_unprotect g = Some p /\ is_rtcp (dg_data g) = false /\ t_rx_key t <> None
  | RxRtcp p => dg_unprotect g = Some p /\ is_rtcp (dg_data g) = true /\ t_rx_key t <> None
  end.
Proof. intros H. pose proof (recv_next_spec guard t g) as S. rewrite H in S. destruct o; tauto. Qed.

Lemma recv_next_never_crashes guard t g : recv_next guard t g <> RxCrash.
Proof. intros H. pose proof (recv_next_spec guard t g) as S. rewrite H in S. exact S. Qed.

(* with the state guard nothing is handed over while the handshake is driven *)
Lemma recv_next_connecting_silent t g o :
  t_state t = CONNECTING -> t_rx_key t = None -> recv_next true t g = RxOk o -> o = RxNone.
Proof.
  intros Hs Hk H. pose proof (recv_next_spec true t g) as S. rewrite H in S.
  destruct o as [|d|p|p]; [reflexivity| | |]; exfalso.
  - destruct S as (_ & _ & _ & S). rewrite Hs in S. discriminate (S eq_refl).
  - now destruct S as (_ & _ & S).
  - now destruct S as (_ & _ & S).
Qed.

Lemma step_unauthenticated_dropped t g :
  t_pump t = true ->
  dg_data g <> [] ->
  dg_unprotect g = None -> dg_ssl g = SslError ->
  (dg_bio g = true -> dg_send_ok g = true) ->
  step true t (OpDgram g) = (t, ORx RxNone).
Proof.
  intros Hp Hd Hu Hs Hw. cbn [step]. rewrite Hp. unfold recv_next. rewrite Hu, Hs.
  destruct (dg_data g) as [|fb rest]; [contradiction|]. cbn [u8 nth_error].
  assert (dg_bio g && negb (dg_send_ok g) = false) as Ew.
  { destruct (dg_bio g); [rewrite Hw by reflexivity|]; reflexivity. }
  rewrite Ew. destruct ((19 <? fb) && (fb <? 64)); [reflexivity|].
  destruct ((127 <? fb) && (fb <? 192) && is_some (t_rx_key t)); reflexivity.
Qed.

Lemma ltb_between lo hi x : lo < x < hi -> (lo <? x) && (x <? hi) = true.
Proof. intros H. apply andb_true_iff. split; apply Z.ltb_lt; lia. Qed.

Lemma step_data_delivered t data d :
  t_pump t = true -> t_state t = CONNECTED -> t_receiver t = true ->
  (exists fb rest, data = fb :: rest /\ 19 < fb < 64) -> d <> [] ->
  forall bio unp, step true t (OpDgram (mkDgram data (SslData d) bio true unp)) = (t, ORx (RxData d)).
Proof.
  intros Hp Hs Hr [fb [rest [E Hfb]]] Hd bio unp. subst data. cbn [step]. rewrite Hp.
  unfold recv_next. cbn [dg_data dg_ssl dg_bio dg_send_ok u8 nth_error negb].
  rewrite (ltb_between 19 64 fb Hfb), andb_false_r, Hr, Hs. destruct d; [contradiction|]. reflexivity.
Qed.

Lemma step_srtp_delivered t data p :
  t_pump t = true -> t_rx_key t <> None ->
  (exists fb rest, data = fb :: rest /\ 127 < fb < 192) ->
  forall sslr bio sok,
  step true t (OpDgram (mkDgram data sslr bio sok (Some p))) =
  (t, ORx (if is_rtcp data then RxRtcp p else RxRtp p)).
Proof.
  intros Hp Hk [fb [rest [E Hfb]]] sslr bio sok. subst data. cbn [step]. rewrite Hp.
  unfold recv_next. cbn [dg_data dg_unprotect u8 nth_error].
  replace ((19 <? fb) && (fb <? 64)) with false
    by (symmetry; apply andb_false_iff; right; apply Z.ltb_ge; lia).
  rewrite (ltb_between 127 192 fb Hfb).
  destruct (t_rx_key t); [|contradiction]. cbn [is_some andb].
  destruct (is_rtcp (fb :: rest)); reflexivity.
Qed.

Definition res_tr (r : start_res) : tr :=
  match r with StartCrash t _ | StartPending t _ | StartRet t _ => t end.
Definition res_outs (r : start_res) : list rx_out :=
  match r with StartCrash _ o | StartPending _ o | StartRet _ o => o end.

Definition keys_installed (t : tr) : bool := is_some (t_tx_key t) || is_some (t_rx_key t).

(* the three stages *)
Definition handshake_ok (guard : bool) (t : tr) (i : start_in) : bool :=
  match fst (do_handshake guard (connecting t i false) (si_script i)) with
  | HsEncrypted => true
  | _ => false
  end.
Definition identity_ok (digest : str -> str) (i : start_in) : bool := validate_identity digest (si_fps i).
Definition srtp_ok (t : tr) (i : start_in) : bool := is_some (find_profile (t_profiles t) (si_selected i)).

Definition fresh_like (t : tr) : Prop :=
  t_state t = NEW /\ t_tx_key t = None /\ t_rx_key t = None /\ t_pump t = false.

Lemma fresh_is_fresh r ps rc : fresh_like (fresh r ps rc).
Proof. repeat split. Qed.

(* a transport that sends nothing and processes nothing *)
Definition down (t : tr) : Prop := t_state t <> CONNECTED /\ t_pump t = false.

(* Everything start() can do on a fresh transport, whether it returned, raised or is still waiting:
   what it handed over is what the handshake loop handed over; if all three stages succeeded it
   returned the connected transport with the keys of the selected profile, and otherwise the
   transport is down, without keys, and FAILED if start() returned. *)
Lemma start_spec guard digest t i :
  fresh_like t ->
  let r := start guard digest t i in
  (res_outs r = [] \/ res_outs r = snd (do_handshake guard (connecting t i false) (si_script i))) /\
  if handshake_ok guard t i && identity_ok digest i && srtp_ok t i
  then exists p, find_profile (t_profiles t) (si_selected i) = Some p /\
       r = StartRet (mkTr CONNECTED true (start_role t i) (t_profiles t) (t_receiver t)
                          (Some (fst (setup_keys (start_role t i) (p_key p) (p_salt p) (si_material i))))
                          (Some (snd (setup_keys (start_role t i) (p_key p) (p_salt p) (si_material i))))
                          (Some (p_name p)) true) (res_outs r)
  else down (res_tr r) /\ keys_installed (res_tr r) = false /\
       match r with StartRet t1 _ => t_state t1 = FAILED | _ => True end.
Proof.
  intros (Hst & Htx & Hrx & Hp). unfold start, handshake_ok, identity_ok, srtp_ok, down, keys_installed.
  rewrite Hst. cbn [state_eqb negb t_profiles t_role t_receiver connecting].
  (* one case for each way through start(); an empty fingerprint list fails the identity check too *)
  destruct (si_fps i) as [|f fps] eqn:Ef; [rewrite andb_false_r | rewrite <- Ef].
  2: destruct (do_handshake _ _ _) as [[] outs].
  2: destruct (validate_identity _ _), (find_profile _ _) as [p|].
  all: cbn [fst snd andb negb is_some res_tr res_outs set_state connecting t_state t_pump t_tx_key t_rx_key].
  all: rewrite ?Hst, ?Htx, ?Hrx, ?Hp.
  (* all three stages succeeded *)
  2: { split; [now destruct (setup_keys _ _ _ _); right|]. exists p. now destruct (setup_keys _ _ _ _). }
  all: repeat split; auto; discriminate.
Qed.

Lemma start_decision_spec guard digest t i t1 outs :
  fresh_like t -> start guard digest t i = StartRet t1 outs ->
  (t_state t1, keys_installed t1, t_pump t1) =
  start_decision (handshake_ok guard t i) (identity_ok digest i) (srtp_ok t i).
Proof.
  intros Hf H. pose proof (start_spec guard digest t i Hf) as [_ S]. rewrite H in S. unfold start_decision.
  destruct (handshake_ok guard t i && identity_ok digest i && srtp_ok t i).
  - destruct S as (p & _ & S). now inversion S.
  - destruct S as ((_ & Hp) & Hk & Hs). cbn [res_tr] in *. now rewrite Hs, Hk, Hp.
Qed.

Lemma start_only_if guard digest t i :
  fresh_like t ->
  let r := start guard digest t i in
  t_state (res_tr r) = CONNECTED \/ keys_installed (res_tr r) = true \/ t_pump (res_tr r) = true ->
  (exists outs, r = StartRet (res_tr r) outs) /\
  handshake_ok guard t i = true /\ identity_ok digest i = true /\ srtp_ok t i = true.
Proof.
  intros Hf r Hor. pose proof (start_spec guard digest t i Hf) as [_ S]. fold r in S.
  destruct (handshake_ok guard t i && identity_ok digest i && srtp_ok t i) eqn:E.
  - apply andb_true_iff in E as [E E3]. apply andb_true_iff in E as [E1 E2].
    destruct S as (p & _ & S). rewrite S. cbn [res_tr]. eauto.
  - destruct S as ((Hs & Hp) & Hk & _). rewrite Hk, Hp in Hor. intuition discriminate.
Qed.

Lemma do_handshake_silent t script :
  t_state t = CONNECTING -> t_rx_key t = None ->
  Forall (fun o => o = RxNone) (snd (do_handshake true t script)).
Proof.
  intros Hs Hk. induction script as [|h rest IH]; cbn [do_handshake snd]; [constructor|].
  destruct h as [| | bio sok e]; cbn [snd]; try constructor.
  destruct (bio && negb sok); cbn [snd]; [constructor|].
  destruct e as [|g]; cbn [snd]; [constructor|].
  destruct (recv_next true t g) as [o| |] eqn:Er; cbn [snd]; try constructor.
  destruct (do_handshake true t rest) as [r outs]. cbn [snd] in *. constructor; [|exact IH].
  eapply recv_next_connecting_silent; eassumption.
Qed.

Lemma start_silent digest t i :
  fresh_like t -> Forall (fun o => o = RxNone) (res_outs (start true digest t i)).
Proof.
  intros Hf. destruct (start_spec true digest t i Hf) as [[-> | ->] _]; [constructor|].
  apply do_handshake_silent; [reflexivity | apply Hf].
Qed.

(* outputs that hand nothing to anybody and send nothing *)
Definition quiet (x : out) : Prop := x = OConnErr \/ x = OIgnored.

Lemma step_down t o : down t -> quiet (snd (step true t o)) /\ fst (step true t o) = t.
Proof.
  intros [Hs Hp]. assert (state_eqb (t_state t) CONNECTED = false) as E by (destruct (t_state t); auto; congruence).
  destruct o; cbn [step]; rewrite ?E, ?Hp; cbn [negb fst snd]; unfold quiet; auto.
Qed.

Lemma run_down ops : forall t, down t ->
  fst (run true t ops) = t /\ Forall quiet (snd (run true t ops)).
Proof.
  induction ops as [|o ops IH]; intros t Hd; cbn [run]; [split; [reflexivity | constructor]|].
  destruct (step_down t o Hd) as [Hq He].
  destruct (step true t o) as [t1 x]. cbn [fst snd] in *. subst t1.
  destruct (IH t Hd) as [IH1 IH2]. destruct (run true t ops) as [t2 xs]. cbn [fst snd] in *.
  split; [exact IH1 | constructor; assumption].
Qed.

Lemma send_rtp_guard t data p s : t_state t <> CONNECTED -> step true t (OpSendRtp data p s) = (t, OConnErr).
Proof. intros H. cbn [step]. destruct (t_state t); try reflexivity. congruence. Qed.
Lemma send_data_guard t data b s : t_state t <> CONNECTED -> step true t (OpSendData data b s) = (t, OConnErr).
Proof. intros H. cbn [step]. destruct (t_state t); try reflexivity. congruence. Qed.

Lemma start_failed_down digest t i :
  fresh_like t ->
  handshake_ok true t i && identity_ok digest i && srtp_ok t i = false ->
  down (res_tr (start true digest t i)).
Proof. intros Hf Hno. pose proof (start_spec true digest t i Hf) as [_ S]. rewrite Hno in S. apply S. Qed.

Lemma start_failed_state digest t i t1 outs :
  fresh_like t -> start true digest t i = StartRet t1 outs ->
  handshake_ok true t i && identity_ok digest i && srtp_ok t i = false ->
  t_state t1 = FAILED.
Proof.
  intros Hf Hs Hno. pose proof (start_spec true digest t i Hf) as [_ S]. rewrite Hno, Hs in S. apply S.
Qed.

Lemma delivery_implies_validated digest t i ops :
  fresh_like t ->
  let r := start true digest t i in
  (exists x, In x (snd (run true (res_tr r) ops)) /\ ~ quiet x) ->
  handshake_ok true t i = true /\ identity_ok digest i = true /\ srtp_ok t i = true.
Proof.
  intros Hf r [x [Hin Hnq]].
  destruct (handshake_ok true t i && identity_ok digest i && srtp_ok t i) eqn:E.
  - apply andb_true_iff in E. destruct E as [E E3]. apply andb_true_iff in E. destruct E as [E1 E2]. auto.
  - exfalso. pose proof (start_failed_down digest t i Hf E) as Hd.
    destruct (run_down ops _ Hd) as [_ Hq]. rewrite Forall_forall in Hq. apply Hnq. apply Hq. exact Hin.
Qed.

Lemma start_connected_keys guard digest t i t1 outs :
  fresh_like t -> start guard digest t i = StartRet t1 outs -> t_state t1 = CONNECTED ->
  exists p, find_profile (t_profiles t) (si_selected i) = Some p /\
            t_tx_key t1 = Some (fst (setup_keys (start_role t i) (p_key p) (p_salt p) (si_material i))) /\
            t_rx_key t1 = Some (snd (setup_keys (start_role t i) (p_key p) (p_salt p) (si_material i))) /\
            t_profile t1 = Some (p_name p).
Proof.
  intros Hf H Hc. pose proof (start_spec guard digest t i Hf) as [_ S]. rewrite H in S.
  destruct (handshake_ok guard t i && identity_ok digest i && srtp_ok t i).
  - destruct S as (p & Hp & S). exists p. split; [exact Hp|]. now inversion S.
  - rewrite (proj2 (proj2 S)) in Hc. discriminate.
Qed.

Lemma find_profile_some ps sel p : find_profile ps sel = Some p -> In p ps /\ sel = Some (p_name p).
Proof.
  induction ps as [|q ps IH]; cbn [find_profile In]; [discriminate|].
  destruct sel as [n|]; [|intros H; destruct (IH H); auto].
  destruct (bytes_eqb (p_name q) n) eqn:E; [|intros H; destruct (IH H); auto].
  intros H. inversion H; subst. apply bytes_eqb_eq in E. subst. auto.
Qed.

Lemma both_connected_mirror gA gB dA dB tA tB iA iB tA1 tB1 oA oB :
  fresh_like tA -> fresh_like tB ->
  start gA dA tA iA = StartRet tA1 oA -> start gB dB tB iB = StartRet tB1 oB ->
  t_state tA1 = CONNECTED -> t_state tB1 = CONNECTED ->
  start_role tA iA = RServer -> start_role tB iB = RClient ->
  si_selected iA = si_selected iB -> si_material iA = si_material iB ->
  (forall pa pb, In pa (t_profiles tA) -> In pb (t_profiles tB) -> p_name pa = p_name pb ->
                 p_key pa = p_key pb /\ p_salt pa = p_salt pb) ->
  t_tx_key tA1 = t_rx_key tB1 /\ t_rx_key tA1 = t_tx_key tB1 /\ t_profile tA1 = t_profile tB1.
Proof.
  intros HfA HfB HA HB HcA HcB HrA HrB Hsel Hmat Hsame.
  destruct (start_connected_keys _ _ _ _ _ _ HfA HA HcA) as [pa [Fa [TxA [RxA PA]]]].
  destruct (start_connected_keys _ _ _ _ _ _ HfB HB HcB) as [pb [Fb [TxB [RxB PB]]]].
  apply find_profile_some in Fa as [Ia Fa]. apply find_profile_some in Fb as [Ib Fb].
  assert (p_name pa = p_name pb) as En by congruence.
  destruct (Hsame pa pb Ia Ib En) as [Ek Es].
  rewrite TxA, RxA, TxB, RxB, PA, PB, HrA, HrB, Ek, Es, Hmat, En. cbn [setup_keys fst snd]. auto.
Qed.
