(* The UNREPAIRED aiortc code with its two defects (DESIGN.md section 7, item 18):
   `add_old` / `report_old` transcribe rtcrtpreceiver.py as it was before the fix commits
   (transit difference with unbounded integers; highest_sequence = max_seq).  Everything else
   is shared with Model/Stats.v.  The refutations are the C18_*_refuted_before_fix theorems of
   Props/C18.v; their witnesses were replayed on the unrepaired implementation
   (corpus/C18.jsonl, cases 1-6). *)
From Coq Require Import ZArith List Bool Lia.
From AV Require Import Lib.Bytes Gen.Utils Gen.RtpConst Model.Stats Proof.StatsP Proof.StatsRunP.
Import ListNotations.
Local Open Scope Z_scope.

Definition ev_okb (e : ev) : bool :=
  match e with Rtp seq _ _ => (0 <=? seq) && (seq <? 65536) | _ => true end.

Lemma ev_okb_ok l : forallb ev_okb l = true -> Forall ev_ok l.
Proof.
  induction l as [|e l IH]; cbn [forallb]; intros H; [constructor|].
  apply andb_true_iff in H. destruct H as [H1 H2]. constructor; [|exact (IH H2)].
  destruct e; cbn in *; try exact I. lia.
Qed.

Definition add_old (s : stats) (seq ts arrival : Z) : result stats :=
  let in_order := match max_seq s with None => true | Some m => uint16_gt seq m end in
  let received := packets_received s + 1 in
  let base := match base_seq s with None => Some seq | Some b => Some b end in
  if in_order then
    let cyc := match max_seq s with
               | Some m => if Z.ltb seq m then cycles s + Z.shiftl 1 16 else cycles s
               | None => cycles s
               end in
    if neq_opt ts (last_timestamp s) && Z.ltb 1 received then
      match last_arrival s, last_timestamp s with
      | Some la, Some lt =>
          let diff := Z.abs ((arrival - la) - (ts - lt)) in
          Ok (mkStats base (Some seq) cyc received
                      (jitter_q4 s + (diff - Z.shiftr (jitter_q4 s + 8) 4))
                      (Some arrival) (Some ts) (expected_prior s) (received_prior s))
      | _, _ => Crash
      end
    else
      Ok (mkStats base (Some seq) cyc received (jitter_q4 s)
                  (Some arrival) (Some ts) (expected_prior s) (received_prior s))
  else
    Ok (mkStats base (max_seq s) (cycles s) received (jitter_q4 s)
                (last_arrival s) (last_timestamp s) (expected_prior s) (received_prior s)).

Definition report_old (S rs : Z) (r : recv) (now : Z) : recv * out :=
  match stream r with
  | None => (r, ONoReport)
  | Some s =>
      let '(l, d) := lsr_dlsr r now in
      match fraction_lost s with
      | Ok (fl, s1) =>
          let r1 := mkRecv (Some s1) (lsr r) (lsr_time r) in
          match packets_lost s1, max_seq s1 with
          | Ok pl, Some m =>
              let i := mkInfo S fl pl m (jitter s1) l d in
              (r1, OReport i (rr_bytes rs i))
          | _, _ => (r1, OReportCrash)
          end
      | _ => (r, OReportCrash)
      end
  end.

Definition step_old (S rs : Z) (r : recv) (e : ev) : recv * out :=
  match e with
  | Rtp seq ts arrival =>
      match add_old (match stream r with None => init | Some s => s end) seq ts arrival with
      | Ok s' => (mkRecv (Some s') (lsr r) (lsr_time r), ONone)
      | _ => (r, ORtpCrash)
      end
  | Report now => report_old S rs r now
  | _ => step S rs r e
  end.

Fixpoint run_old (S rs : Z) (r : recv) (evs : list ev) : recv * list out :=
  match evs with
  | [] => (r, [])
  | e :: evs' =>
      let '(r1, o) := step_old S rs r e in
      let '(r2, os) := run_old S rs r1 evs' in
      (r2, o :: os)
  end.

(* an arrival clock jumping by 2^40 between packets: the witness of the jitter field overflow *)
Fixpoint jumpy (n : nat) (i : Z) : list ev :=
  match n with
  | O => []
  | S n' => Rtp i i ((i mod 2) * 1099511627776) :: jumpy n' (i + 1)
  end.
