(* Codec negotiation between two peers that share the same capability table (C03):
   offered = filter_preferred(table, prefs_a); answered = filter_preferred(find_common(table, offered), prefs_b);
   applied by the offerer = filter_preferred(find_common(table, answered), prefs_a); none of them is empty
   and none of the calls fails when the table passes Nego.tables_ok and the preferences are compatible. *)
From Coq Require Import ZArith List Bool Lia.
From AV Require Import Model.Nego Proof.NegoP.
Import ListNotations.
Local Open Scope Z_scope.

Lemma forallb_combine_seq : forall T (f : nat * T -> bool) (l : list T) s,
  forallb f (combine (seq s (length l)) l) = true -> forall i x, nth_error l i = Some x -> f ((s + i)%nat, x) = true.
Proof.
  induction l as [|a l IH]; intros s H i x Hi; [destruct i; discriminate|].
  cbn [length seq combine forallb] in H. apply andb_true_iff in H. destruct H as [H1 H2].
  destruct i as [|i]; cbn [nth_error] in Hi.
  - injection Hi as <-. rewrite Nat.add_0_r. exact H1.
  - rewrite Nat.add_succ_r. apply (IH (Datatypes.S s) H2 i x Hi).
Qed.

Lemma nodup_z_NoDup : forall l, nodup_z l = true -> NoDup l.
Proof.
  induction l as [|a l IH]; intro H; [constructor|]. cbn [nodup_z] in H. apply andb_true_iff in H. destruct H as [H1 H2].
  constructor; [|apply IH; exact H2]. intro Hin. apply existsb_Z_In in Hin. rewrite Hin in H1. discriminate.
Qed.

Lemma filter_all : forall T (f : T -> bool) l, (forall x, In x l -> f x = true) -> filter f l = l.
Proof.
  induction l as [|a l IH]; intro H; cbn [filter]; [reflexivity|].
  rewrite (H a (or_introl eq_refl)), IH; [reflexivity|]. intros x Hx. apply H. right. exact Hx.
Qed.

Lemma adapt_self : forall c, adapt c c = c.
Proof.
  intro c. unfold adapt. rewrite filter_all by (intros x Hx; apply existsb_fb_In; exact Hx).
  destruct (dynamic_pt (c_pt c)); destruct c; reflexivity.
Qed.

Lemma rtx_follow_cons : forall prev x l, rtx_follow_ok prev (x :: l) = true ->
  rtx_follow_ok (Some x) l = true /\
  (is_rtx x = true -> exists b, prev = Some b /\ is_rtx b = false /\
                                pget (c_params x) key_apt = Some (PInt (c_pt b)) /\ c_clock x = c_clock b).
Proof.
  intros prev x l H. cbn [rtx_follow_ok] in H. apply andb_true_iff in H. destruct H as [Hx H].
  split; [exact H|]. intro Ex. rewrite Ex in Hx.
  destruct prev as [b|]; [|discriminate]. destruct (pget (c_params x) key_apt) as [[apt|?|]|]; try discriminate.
  apply andb_true_iff in Hx. destruct Hx as [Hx Hclk]. apply andb_true_iff in Hx. destruct Hx as [Hb Hpt].
  apply negb_true_iff in Hb. apply Z.eqb_eq in Hpt. apply Z.eqb_eq in Hclk. subst apt. exists b. auto.
Qed.

Definition real (c : codec) : Prop := is_rtx c = false.

Lemma rtx_follow_head : forall prev l, rtx_follow_ok prev l = true -> (forall b, prev = Some b -> is_rtx b = true) ->
  match l with c :: _ => real c | [] => True end.
Proof.
  intros prev [|c l] H Hp; [exact I|]. apply rtx_follow_cons in H. destruct H as [_ Hc].
  unfold real. destruct (is_rtx c); [|reflexivity]. destruct (Hc eq_refl) as [b [Eb [Rb _]]]. rewrite (Hp b Eb) in Rb. discriminate.
Qed.

Definition cap_of (c : codec) : cap := mkCap (c_kind c) (c_name c) (c_clock c) (c_channels c) (c_params c).

Lemma compat_rtx_real : forall x c, is_rtx x = true -> real c -> is_codec_compatible x c = Ok false.
Proof.
  intros x c Hx Hc. unfold is_codec_compatible, mime_eqb.
  destruct (str_eqb (lower (c_name x)) (lower (c_name c))) eqn:E.
  - apply str_eqb_eq in E. unfold real, is_rtx in *. rewrite E in Hx. congruence.
  - rewrite andb_false_r. reflexivity.
Qed.

Lemma find_pref_exists : forall codecs p c, In c codecs -> cap_matches c p = true -> exists c', find_pref codecs p = Some c'.
Proof.
  induction codecs as [|x l IH]; intros p c Hin Hm; [destruct Hin|]. cbn [find_pref].
  destruct (cap_matches x p) eqn:E; [eexists; reflexivity|].
  destruct Hin as [->|Hin]; [congruence | eapply IH; eauto].
Qed.

Lemma caps_of_real : forall l added p, In p (caps_of l added) -> cap_is_rtx p = false ->
  exists c, In c l /\ real c /\ p = cap_of c.
Proof.
  induction l as [|c l IH]; intros added p Hin Hp; cbn [caps_of] in Hin; [destruct Hin|].
  assert (Hl : forall a, In p (caps_of l a) -> exists x, In x (c :: l) /\ real x /\ p = cap_of x).
  { intros a Ha. destruct (IH _ _ Ha Hp) as [x [Q1 Q2]]. exists x. split; [right; exact Q1 | exact Q2]. }
  destruct (is_rtx c) eqn:Ec; cbn [negb] in Hin.
  - destruct added; cbn [negb] in Hin; [eauto|]. destruct Hin as [<-|Hin]; [|eauto].
    unfold cap_is_rtx in Hp. cbn [k_name] in Hp. unfold is_rtx in Ec. congruence.
  - destruct Hin as [<-|Hin]; [|eauto]. exists c. split; [left; reflexivity|]. split; [exact Ec | reflexivity].
Qed.

Lemma find_rtx_total : forall rtxs pt, (forall r, In r rtxs -> exists v, pget (c_params r) key_apt = Some v) ->
  exists o, find_rtx rtxs pt = Ok o.
Proof.
  induction rtxs as [|r rtxs IH]; intros pt H; cbn [find_rtx]; [eexists; reflexivity|].
  destruct (H r (or_introl eq_refl)) as [v Hv]. rewrite Hv. destruct (pval_eqb v (PInt pt)); [eexists; reflexivity|].
  apply IH. intros x Hx. apply H. right. exact Hx.
Qed.

Lemma fpc_loop_total : forall codecs en prefs,
  (forall r, In r codecs -> is_rtx r = true -> exists v, pget (c_params r) key_apt = Some v) ->
  exists res, fpc_loop codecs (filter is_rtx codecs) en prefs = Ok res /\
              forall p c, In p prefs -> cap_is_rtx p = false -> find_pref codecs p = Some c -> In c res.
Proof.
  intros codecs en prefs Hapt. induction prefs as [|p ps IH]; cbn [fpc_loop].
  - eexists. split; [reflexivity|]. intros p c [].
  - destruct IH as [rest [E IH]]. destruct (cap_is_rtx p) eqn:Ep.
    + exists rest. split; [exact E|]. intros q c [<-|Hq] Hr Hf; [congruence | eapply IH; eauto].
    + destruct (find_pref codecs p) as [c|] eqn:Ef.
      * assert (G : exists o, (if en then find_rtx (filter is_rtx codecs) (c_pt c) else Ok None) = Ok o).
        { destruct en; [|eexists; reflexivity]. apply find_rtx_total. intros r Hr. apply filter_In in Hr. destruct Hr. auto. }
        destruct G as [o Eo]. rewrite Eo, E. cbn [bind]. eexists. split; [reflexivity|].
        intros q c' [<-|Hq] Hr Hf; [left; congruence|].
        right. apply in_or_app. right. eapply IH; eauto.
      * exists rest. split; [exact E|]. intros q c [<-|Hq] Hr Hf; [congruence | eapply IH; eauto].
Qed.

Section Table.
  Variable table : list codec.
  Let nonrtx := filter (fun c => negb (is_rtx c)) table.

  Hypothesis H_nonempty : nonrtx <> [].
  Hypothesis H_compat : forall i j ci cj, nth_error nonrtx i = Some ci -> nth_error nonrtx j = Some cj ->
                                        is_codec_compatible cj ci = Ok (Nat.eqb j i).
  Hypothesis H_follow : rtx_follow_ok None table = true.
  Hypothesis H_pts : NoDup (map c_pt table).
  Hypothesis H_cap : forall i j ci cj, nth_error nonrtx i = Some ci -> nth_error nonrtx j = Some cj ->
                                     cap_matches ci (cap_of cj) = Nat.eqb i j.

  Lemma real_in_nonrtx : forall c, In c table -> real c -> In c nonrtx.
  Proof. intros c Hin Hr. apply filter_In. split; [exact Hin|]. unfold real in Hr. rewrite Hr. reflexivity. Qed.

  Lemma nonrtx_in : forall c, In c nonrtx -> In c table /\ real c.
  Proof. intros c H. apply filter_In in H. destruct H as [H1 H2]. split; [exact H1|]. unfold real. destruct (is_rtx c); [discriminate | reflexivity]. Qed.

  Lemma table_pt_inj : forall a b, In a table -> In b table -> c_pt a = c_pt b -> a = b.
  Proof.
    intros a b Ha Hb E. apply In_nth_error in Ha. apply In_nth_error in Hb. destruct Ha as [i Hi]. destruct Hb as [j Hj].
    assert (Eij : i = j).
    { apply (proj1 (NoDup_nth_error (map c_pt table)) H_pts).
      - rewrite map_length. apply nth_error_Some. congruence.
      - rewrite !nth_error_map, Hi, Hj. cbn. congruence. }
    subst j. congruence.
  Qed.

  Lemma compat_table : forall x c, In x table -> In c table -> real c ->
    exists b, is_codec_compatible x c = Ok b /\ (b = true <-> x = c).
  Proof.
    intros x c Hx Hc Rc. destruct (is_rtx x) eqn:Ex.
    - exists false. split; [exact (compat_rtx_real x c Ex Rc)|]. split; [discriminate | intros ->; congruence].
    - apply (real_in_nonrtx _ Hx), In_nth_error in Ex. apply (real_in_nonrtx _ Hc), In_nth_error in Rc.
      destruct Ex as [j Hj]. destruct Rc as [i Hi].
      exists (Nat.eqb j i). split; [exact (H_compat i j c x Hi Hj)|]. rewrite Nat.eqb_eq. split.
      + intros ->. congruence.
      + intros ->. pose proof (H_compat i j c c Hi Hj) as E. rewrite (H_compat i i c c Hi Hi), Nat.eqb_refl in E.
        injection E as E. symmetry in E. apply Nat.eqb_eq in E. exact E.
  Qed.

  Lemma first_compat_table_gen : forall l c, incl l table -> In c table -> real c -> In c l -> first_compat l c = Ok (Some c).
  Proof.
    induction l as [|x l IH]; intros c Hl Hc Rc Hin; [destruct Hin|]. cbn [first_compat].
    destruct (compat_table x c (Hl x (or_introl eq_refl)) Hc Rc) as [b [E Hb]]. rewrite E. cbn [bind]. destruct b.
    - rewrite (proj1 Hb eq_refl). reflexivity.
    - apply IH; auto.
      + intros y Hy. apply Hl. right. exact Hy.
      + destruct Hin as [Hin|Hin]; [|exact Hin]. apply Hb in Hin. discriminate.
  Qed.

  Lemma first_compat_table : forall c, In c table -> real c -> first_compat table c = Ok (Some c).
  Proof. intros c Hc Rc. apply first_compat_table_gen; auto. apply incl_refl. Qed.

  (* the shape of every codec list the two peers exchange *)
  Inductive oshape : list codec -> Prop :=
  | os_nil : oshape []
  | os_one : forall c rest, real c -> In c table -> oshape rest -> oshape (c :: rest)
  | os_two : forall c r rest, real c -> In c table -> is_rtx r = true -> In r table ->
                              pget (c_params r) key_apt = Some (PInt (c_pt c)) -> c_clock r = c_clock c ->
                              oshape rest -> oshape (c :: r :: rest).

  Lemma oshape_in : forall O, oshape O -> forall x, In x O -> In x table.
  Proof.
    induction 1; intros x Hx.
    - destruct Hx.
    - destruct Hx as [<-|Hx]; auto.
    - destruct Hx as [<-|[<-|Hx]]; auto.
  Qed.

  Lemma oshape_rtx : forall O, oshape O -> forall r, In r O -> is_rtx r = true ->
    exists b, In b table /\ pget (c_params r) key_apt = Some (PInt (c_pt b)) /\ c_clock r = c_clock b.
  Proof.
    induction 1 as [|c rest Rc Hc Hr IH|c r0 rest Rc Hc Hr0 Hr0t Hapt Hclk Hr IH]; intros r Hr' Hx.
    - destruct Hr'.
    - destruct Hr' as [<-|Hr']; [unfold real in Rc; congruence | auto].
    - destruct Hr' as [<-|[<-|Hr']]; [unfold real in Rc; congruence | exists c; auto | auto].
  Qed.

  Lemma oshape_head_real : forall O c, oshape O -> In c O -> exists c', In c' O /\ real c'.
  Proof. intros O c H Hin. inversion H; subst; [destruct Hin | exists c0; split; [left; reflexivity | assumption] ..]. Qed.

  Lemma fcc_loop_self : forall O, oshape O -> forall base, fcc_loop table O base = Ok O.
  Proof.
    induction 1 as [|c rest Rc Hc Hr IH|c r rest Rc Hc Hrx Hrt Hapt Hclk Hr IH]; intro base; cbn [fcc_loop].
    - reflexivity.
    - unfold real in Rc. rewrite Rc. rewrite (first_compat_table c Hc Rc). cbn [bind]. rewrite adapt_self, IH. reflexivity.
    - unfold real in Rc. rewrite Rc. rewrite (first_compat_table c Hc Rc). cbn [bind]. rewrite adapt_self.
      cbn [fcc_loop]. rewrite Hrx, Hapt. cbn [base_get]. rewrite Z.eqb_refl. rewrite IH. cbn [bind].
      rewrite Hclk, Z.eqb_refl. reflexivity.
  Qed.

  Lemma find_common_self : forall O, oshape O -> find_common_codecs table O = Ok O.
  Proof. intros O H. apply fcc_loop_self. exact H. Qed.

  (* the table itself has that shape. A list that passes rtx_follow_ok has it when it starts with a real codec,
     and has it with the real codec in front that rtx_follow_ok was told precedes it *)
  Lemma follow_oshape : forall l prev, incl l table -> rtx_follow_ok prev l = true ->
    (match l with c :: _ => real c | [] => True end -> oshape l) /\
    (forall b, prev = Some b -> real b -> In b table -> oshape (b :: l)).
  Proof.
    induction l as [|x l IH]; intros prev Hl Hf.
    - split; intros; repeat constructor; assumption.
    - apply rtx_follow_cons in Hf. destruct Hf as [Hf Hx].
      assert (Hxt : In x table) by (apply Hl; left; reflexivity).
      destruct (IH (Some x) (fun y Hy => Hl y (or_intror Hy)) Hf) as [IH1 IH2]. split.
      + intro Rx. exact (IH2 x eq_refl Rx Hxt).
      + intros b -> Rb Hb. destruct (is_rtx x) eqn:Ex.
        * destruct (Hx eq_refl) as [b' [Eb [_ [Hapt Hclk]]]]. injection Eb as <-. apply os_two; auto. apply IH1.
          apply (rtx_follow_head (Some x) l Hf). intros x' Ex'. injection Ex' as <-. exact Ex.
        * apply os_one; auto.
  Qed.

  Lemma table_oshape : oshape table.
  Proof.
    apply (follow_oshape table None (incl_refl table) H_follow). apply (rtx_follow_head None table H_follow). discriminate.
  Qed.

  Lemma blocks_oshape : forall O prefs res, oshape O -> pref_blocks O prefs res -> oshape res.
  Proof.
    intros O prefs res HO H. induction H as [|p ps res Hb IH|p ps c res Hp Hin Hm Hb IH|p ps c r res Hp Hin Hm Hr Hrx Hapt Hb IH].
    - constructor.
    - exact IH.
    - apply os_one; [exact (cap_matches_not_rtx _ _ Hm Hp) | exact (oshape_in _ HO c Hin) | exact IH].
    - pose proof (oshape_in _ HO c Hin) as Hct.
      (* the base of r in O is c: payload types are distinct on the table *)
      destruct (oshape_rtx _ HO r Hr Hrx) as [b [Hbt [Hb' Hclk]]]. rewrite Hapt in Hb'. injection Hb' as Hb'.
      rewrite <- (table_pt_inj c b Hct Hbt Hb') in Hclk.
      apply os_two; [exact (cap_matches_not_rtx _ _ Hm Hp) | exact Hct | exact Hrx | exact (oshape_in _ HO r Hr) | exact Hapt
                    | exact Hclk | exact IH].
  Qed.

  Definition supports (O : list codec) (p : cap) : Prop := exists c, In c O /\ cap_matches c p = true.

  Lemma supports_nonempty : forall O p, supports O p -> O <> [].
  Proof. intros O p [c [Hc _]] ->. destruct Hc. Qed.

  (* an empty preference list filters nothing: then p need not be one of prefs *)
  Lemma filter_preferred_total : forall O prefs, oshape O ->
    exists res, filter_preferred_codecs O prefs = Ok res /\ oshape res /\
                forall p, (prefs <> [] -> In p prefs) -> cap_is_rtx p = false -> supports O p -> supports res p.
  Proof.
    intros O prefs HO. destruct prefs as [|q qs].
    - exists O. split; [reflexivity|]. split; [exact HO|]. intros p _ _ Hs. exact Hs.
    - destruct (fpc_loop_total O (existsb cap_is_rtx (q :: qs)) (q :: qs)) as [res [E C]].
      { intros r Hr Hx. destruct (oshape_rtx _ HO r Hr Hx) as [b [_ [Hb _]]]. eexists. exact Hb. }
      exists res. split; [exact E|]. split.
      + eapply blocks_oshape; [exact HO|]. apply (filter_preferred_blocks O (q :: qs) res); [discriminate | exact E].
      + intros p Hp Hr [c [Hc Hm]]. destruct (find_pref_exists O p c Hc Hm) as [c' Ef].
        exists c'. split; [apply (C p c' (Hp ltac:(discriminate)) Hr Ef)|]. apply find_pref_some in Ef. tauto.
  Qed.

  Lemma cap_matches_self : forall c, In c table -> real c -> cap_matches c (cap_of c) = true.
  Proof.
    intros c Hc Rc. pose proof (real_in_nonrtx _ Hc Rc) as N. apply In_nth_error in N. destruct N as [i Hi].
    rewrite (H_cap i i c c Hi Hi). apply Nat.eqb_refl.
  Qed.

  Definition drawn (prefs : list cap) : Prop := forall p, In p prefs -> In p (caps_of table false).
  Definition has_real (prefs : list cap) : Prop := prefs <> [] -> exists p, In p prefs /\ cap_is_rtx p = false.
  Definition compatible (pa pb : list cap) : Prop :=
    pa = [] \/ pb = [] \/ exists p, In p pa /\ In p pb /\ cap_is_rtx p = false.

  Lemma drawn_pref_found : forall O p, oshape O -> drawn [p] -> cap_is_rtx p = false ->
    exists c, In c table /\ real c /\ p = cap_of c /\ (In c O -> exists c', find_pref O p = Some c').
  Proof.
    intros O p HO Hd Hp. destruct (caps_of_real _ _ _ (Hd p (or_introl eq_refl)) Hp) as [c [Hc [Rc ->]]].
    exists c. repeat split; auto. intro Hin. eapply find_pref_exists; [exact Hin | apply cap_matches_self; auto].
  Qed.

  Lemma drawn_supports : forall prefs p, drawn prefs -> In p prefs -> cap_is_rtx p = false -> supports table p.
  Proof.
    intros prefs p Hd Hin Hp. destruct (caps_of_real _ _ _ (Hd p Hin) Hp) as [c [Hc [Rc ->]]].
    exists c. split; [exact Hc | exact (cap_matches_self c Hc Rc)].
  Qed.

  Lemma common_pref : forall pa pb, drawn pa -> drawn pb -> has_real pa -> has_real pb -> compatible pa pb ->
    exists p, cap_is_rtx p = false /\ supports table p /\ (pa <> [] -> In p pa) /\ (pb <> [] -> In p pb).
  Proof.
    intros pa pb Da Db Ra Rb Hc.
    assert (Hone : forall ps, drawn ps -> has_real ps -> ps <> [] ->
                   exists p, cap_is_rtx p = false /\ supports table p /\ In p ps).
    { intros ps Dp Rp Hne. destruct (Rp Hne) as [p [Hin Hr]]. exists p. eauto using drawn_supports. }
    destruct pa as [|a pa]; [destruct pb as [|b pb]|].
    - assert (Hc' : exists c, In c nonrtx) by (destruct nonrtx; [contradiction | eexists; left; reflexivity]).
      destruct Hc' as [c Hc']. apply nonrtx_in in Hc'. destruct Hc' as [Hct Rc].
      exists (cap_of c). split; [exact Rc|]. split; [exists c; split; [exact Hct | exact (cap_matches_self c Hct Rc)]|].
      split; intro; contradiction.
    - destruct (Hone _ Db Rb ltac:(discriminate)) as [p [Hr [Hs Hin]]]. exists p. repeat split; auto. contradiction.
    - destruct Hc as [Hc|[->|[p [Pa [Pb Hr]]]]]; [discriminate| |].
      + destruct (Hone _ Da Ra ltac:(discriminate)) as [p [Hr [Hs Hin]]]. exists p. repeat split; auto. contradiction.
      + exists p. eauto 6 using drawn_supports.
  Qed.

  (* the whole three-step negotiation of one section: each step keeps supporting the common preference *)
  Theorem nego_ok : forall pa pb, drawn pa -> drawn pb -> has_real pa -> has_real pb -> compatible pa pb ->
    exists O N M,
      filter_preferred_codecs table pa = Ok O /\
      find_common_codecs table O = Ok O /\ filter_preferred_codecs O pb = Ok N /\ N <> [] /\
      find_common_codecs table N = Ok N /\ filter_preferred_codecs N pa = Ok M /\ M <> [].
  Proof.
    intros pa pb Da Db Ra Rb Hc. destruct (common_pref pa pb Da Db Ra Rb Hc) as [p [Hr [S0 [Ia Ib]]]].
    destruct (filter_preferred_total table pa table_oshape) as [O [EO [HO SO]]].
    destruct (filter_preferred_total O pb HO) as [N [EN [HN SN]]].
    destruct (filter_preferred_total N pa HN) as [M [EM [HM SM]]].
    pose proof (SN p Ib Hr (SO p Ia Hr S0)) as S2.
    exists O, N, M. split; [exact EO|]. split; [exact (find_common_self O HO)|]. split; [exact EN|].
    split; [exact (supports_nonempty N p S2)|]. split; [exact (find_common_self N HN)|]. split; [exact EM|].
    exact (supports_nonempty M p (SM p Ia Hr S2)).
  Qed.
End Table.

(* the hypotheses of the section follow from the executable check Nego.tables_ok *)
Lemma forallb_pairs : forall T (f : nat * T -> nat * T -> bool) (l : list T),
  forallb (fun ic => forallb (f ic) (combine (seq 0 (length l)) l)) (combine (seq 0 (length l)) l) = true ->
  forall i j ci cj, nth_error l i = Some ci -> nth_error l j = Some cj -> f (i, ci) (j, cj) = true.
Proof.
  intros T f l H i j ci cj Hi Hj. pose proof (forallb_combine_seq _ _ l 0 H i ci Hi) as R. cbv beta in R.
  exact (forallb_combine_seq _ _ l 0 R j cj Hj).
Qed.

Lemma kind_table_ok_facts : forall kind cs xs, kind_table_ok kind cs xs = true ->
  let nonrtx := filter (fun c => negb (is_rtx c)) cs in
  nonrtx <> [] /\
  (forall i j ci cj, nth_error nonrtx i = Some ci -> nth_error nonrtx j = Some cj -> is_codec_compatible cj ci = Ok (Nat.eqb j i)) /\
  rtx_follow_ok None cs = true /\ NoDup (map c_pt cs) /\
  (forall i j ci cj, nth_error nonrtx i = Some ci -> nth_error nonrtx j = Some cj -> cap_matches ci (cap_of cj) = Nat.eqb i j).
Proof.
  intros kind cs xs H nonrtx. unfold kind_table_ok in H. fold nonrtx in H.
  apply andb_prop in H as [[[[[[[[H1 H2]%andb_prop H3]%andb_prop H4]%andb_prop _]%andb_prop _]%andb_prop H7]%andb_prop _]%andb_prop _].
  split; [|split; [|split; [|split]]].
  - intro E. rewrite E in H1. discriminate.
  - intros i j ci cj Hi Hj. pose proof (forallb_pairs _ _ nonrtx H2 i j ci cj Hi Hj) as R. cbn [fst snd] in R.
    destruct (is_codec_compatible cj ci) as [b| | |]; try discriminate. apply eqb_prop in R. congruence.
  - exact H3.
  - apply nodup_z_NoDup. exact H4.
  - intros i j ci cj Hi Hj. apply eqb_prop. exact (forallb_pairs _ _ nonrtx H7 i j ci cj Hi Hj).
Qed.

Lemma tables_ok_kind : forall T k, tables_ok T = true -> exists k' xs, kind_table_ok k' (CODECS T k) xs = true.
Proof.
  intros T k H. unfold tables_ok in H. apply andb_true_iff in H. destruct H as [H0 H1]. unfold CODECS.
  destruct (k =? 0); [exists 0, (exts_audio T); exact H0 | exists 1, (exts_video T); exact H1].
Qed.

Theorem nego_ok_tables : forall T k pa pb, tables_ok T = true ->
  drawn (CODECS T k) pa -> drawn (CODECS T k) pb -> has_real pa -> has_real pb -> compatible pa pb ->
  exists O N M,
    filter_preferred_codecs (CODECS T k) pa = Ok O /\
    find_common_codecs (CODECS T k) O = Ok O /\ filter_preferred_codecs O pb = Ok N /\ N <> [] /\
    find_common_codecs (CODECS T k) N = Ok N /\ filter_preferred_codecs N pa = Ok M /\ M <> [].
Proof.
  intros T k pa pb HT Da Db Ra Rb Hc. destruct (tables_ok_kind T k HT) as [k' [xs Hx]].
  destruct (kind_table_ok_facts _ _ _ Hx) as [F1 [F2 [F3 [F4 F5]]]].
  exact (nego_ok (CODECS T k) F1 F2 F3 F4 F5 pa pb Da Db Ra Rb Hc).
Qed.

(* createOffer's codec step succeeds whatever the preferences are *)
Lemma offer_codecs_total : forall T trs, tables_ok T = true -> exists trs0, offer_codecs T trs = Ok trs0.
Proof.
  intros T trs HT. induction trs as [|t ts [ts' E']]; cbn [offer_codecs]; [eexists; reflexivity|].
  destruct (tables_ok_kind T (t_kind t) HT) as [k' [xs Hx]]. destruct (kind_table_ok_facts _ _ _ Hx) as [_ [F2 [F3 [F4 _]]]].
  destruct (filter_preferred_total _ F4 _ (t_preferred t) (table_oshape _ F3)) as [O [E _]].
  rewrite E, E'. cbn [bind]. eexists. reflexivity.
Qed.
