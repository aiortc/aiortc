(* Lemmas about Model/SctpWire.v, part 1: basic facts, encode_params /
   decode_params round trip, the list readers, RE-CONFIG parameter round trips.

   The range predicates in_u8 / in_u16 / in_u32 and the *_okb conjunctions are
   boolean; once they are unfolded `lia` reads their arithmetic (ZifyBool), so a
   hypothesis H of that kind is unfolded in place rather than taken apart.  A
   conjunct b that is not arithmetic (bytes_okb, params_okb, forallb ...) is
   recovered by `destruct b eqn:E; [|lia]`: were b false, H would be. *)
From Coq Require Import ZArith List Bool Lia ZifyBool.
From AV Require Import Lib.Bytes Lib.BytesP Gen.SctpConst Model.Crc32c Model.SctpWire.
Import ListNotations.
Local Open Scope Z_scope.

Ltac Zify.zify_post_hook ::= Z.to_euclidean_division_equations.

Lemma in_u8_iff x : in_u8 x = true <-> 0 <= x < 256.
Proof. unfold in_u8. lia. Qed.
Lemma in_u16_iff x : in_u16 x = true <-> 0 <= x < 65536.
Proof. unfold in_u16. lia. Qed.
Lemma in_u32_iff x : in_u32 x = true <-> 0 <= x < 4294967296.
Proof. unfold in_u32. lia. Qed.

Lemma padl_eq l : padl l = (- l) mod 4.
Proof. unfold padl. destruct (l mod 4 =? 0) eqn:E; cbn [negb]; lia. Qed.
Lemma padl_range l : 0 <= padl l < 4.
Proof. rewrite padl_eq. lia. Qed.
Lemma padl_aligned l : (l + padl l) mod 4 = 0.
Proof. rewrite padl_eq. lia. Qed.
Lemma padl_add4 l : padl (l + 4) = padl l.
Proof. rewrite !padl_eq. lia. Qed.
Lemma padl_0 l : l mod 4 = 0 -> padl l = 0.
Proof. rewrite padl_eq. lia. Qed.

Lemma zpad_length n : length (zpad n) = Z.to_nat n.
Proof. apply repeat_length. Qed.
Lemma zpad_ok n : bytes_ok (zpad n).
Proof. apply bytes_ok_zeros. Qed.

Lemma len_length (l : bytes) : len l = Z.of_nat (length l).
Proof. reflexivity. Qed.

Lemma be8_small n : 0 <= n < 256 -> be8 n = [n].
Proof. intros H. unfold be8. now rewrite Z.mod_small. Qed.

Lemma slice_app_r pre l a b : slice (pre ++ l) (length pre + a) (length pre + b) = slice l a b.
Proof.
  unfold slice. rewrite skipn_app, skipn_all2 by lia. cbn [app].
  f_equal; [lia|f_equal; lia].
Qed.
Lemma slice_mid pre mid post a b :
  a = length pre -> b = (a + length mid)%nat -> slice (pre ++ mid ++ post) a b = mid.
Proof. intros -> ->. apply slice_app_mid. Qed.
Lemma slice_0_app a b : slice (a ++ b) 0 (length a) = a.
Proof. apply (slice_app_mid [] a b). Qed.
Lemma from_app_r pre l a : from (pre ++ l) (length pre + a) = from l a.
Proof. unfold from. rewrite skipn_app, skipn_all2 by lia. cbn [app]. f_equal. lia. Qed.
Lemma from_length l a : length (from l a) = (length l - a)%nat.
Proof. apply skipn_length. Qed.
Lemma from_ok l a : bytes_ok l -> bytes_ok (from l a).
Proof. apply bytes_ok_skipn. Qed.

Lemma nonempty_len b : nonempty b = (0 <? len b).
Proof. destruct b; reflexivity. Qed.

Lemma u16_cons2 a b l i : u16 (a :: b :: l) (S (S i)) = u16 l i.
Proof. reflexivity. Qed.
Lemma u8_cons a l i : u8 (a :: l) (S i) = u8 l i.
Proof. reflexivity. Qed.

Lemma u8_read l i : bytes_ok l -> (i < length l)%nat -> exists v, u8 l i = Some v /\ 0 <= v < 256.
Proof. intros Hok H. destruct (u8_some l i H) as [v E]. eauto using u8_range. Qed.
Lemma u16_read l i : bytes_ok l -> (i + 2 <= length l)%nat -> exists v, u16 l i = Some v /\ 0 <= v < 65536.
Proof. intros Hok H. destruct (u16_some l i H) as [v E]. eauto using u16_range. Qed.
Lemma u32_read l i : bytes_ok l -> (i + 4 <= length l)%nat -> exists v, u32 l i = Some v /\ 0 <= v < 4294967296.
Proof. intros Hok H. destruct (u32_some l i H) as [v E]. eauto using u32_range. Qed.
Lemma u32le_some l i : (i + 4 <= length l)%nat -> exists v, u32le l i = Some v.
Proof.
  intros H. unfold u32le.
  destruct (u8_some l i) as [a ->]; [lia|]. destruct (u8_some l (1 + i)) as [b ->]; [lia|].
  destruct (u8_some l (2 + i)) as [c ->]; [lia|]. destruct (u8_some l (3 + i)) as [d ->]; [lia|]. eauto.
Qed.

Lemma bytes_ok_app_i a b : bytes_ok a -> bytes_ok b -> bytes_ok (a ++ b).
Proof. intros. now apply bytes_ok_app. Qed.
Lemma flat_map_ok {T} (f : T -> bytes) l : (forall x, bytes_ok (f x)) -> bytes_ok (flat_map f l).
Proof. intros H. induction l as [|x l IH]; [constructor|]. now apply bytes_ok_app_i. Qed.
Lemma pair_bytes_ok p : bytes_ok (pair_bytes p).
Proof. apply bytes_ok_app_i; apply be16_ok. Qed.
Lemma bytes_okb_true l : bytes_okb l = true -> bytes_ok l.
Proof. apply bytes_okb_ok. Qed.

Create HintDb bytes discriminated.
#[export] Hint Resolve bytes_ok_app_i be8_ok be16_ok be32_ok le32_ok zpad_ok pair_bytes_ok flat_map_ok
  bytes_ok_nil bytes_okb_true bytes_ok_slice from_ok : bytes.

Lemma fold_left_app_flat {T} (f : T -> bytes) l : forall init,
  fold_left (fun d x => d ++ f x) l init = init ++ flat_map f l.
Proof.
  induction l as [|x l IH]; intros init; cbn [fold_left flat_map]; [now rewrite app_nil_r|].
  now rewrite IH, app_assoc.
Qed.

Lemma flat_map_length_const {T} (f : T -> bytes) n l :
  (forall x, length (f x) = n) -> length (flat_map f l) = (n * length l)%nat.
Proof.
  intros H. induction l as [|x l IH]; [cbn; lia|]. cbn [flat_map length]. rewrite app_length, H, IH. lia.
Qed.

Lemma pair_bytes_length p : length (pair_bytes p) = 4%nat.
Proof. reflexivity. Qed.

Lemma encode_fold rest : forall p st,
  fst (fold_left encode_params_step rest (encode_params_step st p)) =
  fst st ++ snd st ++ encode_params (p :: rest).
Proof.
  induction rest as [|q rest IH]; intros p st; unfold encode_params; cbn [fold_left].
  - cbn. now rewrite <- app_assoc.
  - rewrite !IH. cbn. now rewrite <- !app_assoc.
Qed.

Lemma encode_params_cons p rest :
  encode_params (p :: rest) =
  be16 (fst p) ++ be16 (len (snd p) + 4) ++ snd p ++
  match rest with [] => [] | _ => zpad (padl (len (snd p) + 4)) ++ encode_params rest end.
Proof.
  destruct rest as [|q rest]; [cbn; now rewrite !app_nil_r|].
  unfold encode_params at 1. cbn [fold_left]. rewrite encode_fold. cbn [encode_params_step fst snd app]. now rewrite <- !app_assoc.
Qed.

Lemma param_okb_iff p :
  param_okb p = true <-> 0 <= fst p < 65536 /\ len (snd p) + 4 < 65536 /\ bytes_ok (snd p).
Proof.
  unfold param_okb, in_u16. pose proof (len_nonneg (snd p)). rewrite <- bytes_okb_ok.
  destruct (bytes_okb (snd p)); [lia|]. rewrite andb_false_r. intuition discriminate.
Qed.

Lemma encode_params_ok ps : params_okb ps = true -> bytes_ok (encode_params ps).
Proof.
  induction ps as [|p rest IH]; intros H; [constructor|].
  apply andb_true_iff in H. destruct H as [Hp Hr]. apply param_okb_iff in Hp. specialize (IH Hr).
  rewrite encode_params_cons. destruct rest; intuition auto 6 with bytes.
Qed.

Lemma encode_params_count ps : (4 * length ps <= length (encode_params ps))%nat.
Proof.
  induction ps as [|p rest IH]; [cbn; lia|]. rewrite encode_params_cons.
  destruct rest; rewrite !app_length, !length_be16 in *; cbn [length] in *; lia.
Qed.

Lemma encode_params_nil_inv ps : encode_params ps = [] -> ps = [].
Proof. intros H. pose proof (encode_params_count ps) as G. rewrite H in G. destruct ps; [reflexivity|cbn [length] in G; lia]. Qed.

Lemma decode_shift fuel : forall pre b k,
  decode_params_loop fuel (pre ++ b) (length pre + k) = decode_params_loop fuel b k.
Proof.
  induction fuel as [|f IH]; intros pre b k; [reflexivity|].
  cbn [decode_params_loop]. rewrite <- !Nat.add_assoc, !u16_app_r, len_app, Nat2Z.inj_add. fold (len pre).
  replace (len pre + Z.of_nat k <=? len pre + len b - 4) with (Z.of_nat k <=? len b - 4) by lia.
  destruct (u16 b (k + 2)) as [pl|]; [|reflexivity].
  replace (len pre + Z.of_nat k + pl >? len pre + len b) with (Z.of_nat k + pl >? len b) by lia.
  now rewrite <- !Nat.add_assoc, IH, !slice_app_r.
Qed.

Lemma decode_past_end fuel body pos :
  len body - 4 < Z.of_nat pos -> decode_params_loop (S fuel) body pos = Ok [].
Proof. intros H. cbn [decode_params_loop]. destruct (Z.of_nat pos <=? len body - 4) eqn:E; [lia|reflexivity]. Qed.

Lemma decode_encode_loop ps : forall fuel,
  params_okb ps = true -> (length ps < fuel)%nat ->
  decode_params_loop fuel (encode_params ps) 0 = Ok ps.
Proof.
  induction ps as [|[t v] rest IH]; intros [|f] Hok Hf; cbn [length] in Hf; try lia; [reflexivity|].
  apply andb_true_iff in Hok. destruct Hok as [Hp Hr]. apply param_okb_iff in Hp. cbn [fst snd] in Hp.
  rewrite encode_params_cons. cbn [fst snd]. set (tail := match rest with [] => [] | _ => _ end).
  set (hdr := be16 t ++ be16 (len v + 4)). pose proof (len_nonneg v) as Hv. pose proof (len_nonneg tail) as Ht.
  assert (L : len (be16 t ++ be16 (len v + 4) ++ v ++ tail) = 4 + len v + len tail).
  { unfold len. rewrite !app_length. cbn [length be16]. lia. }
  cbn [decode_params_loop]. rewrite L, u16_be16, (u16_at (be16 t)) by lia.
  replace (slice _ (0 + 4) _) with v by (symmetry; apply (slice_mid hdr); [reflexivity|unfold len; lia]).
  destruct (Z.of_nat 0 <=? _) eqn:E1; [|lia]. destruct (_ || _) eqn:E2; [lia|].
  pose proof (padl_range (len v + 4)) as Hpad.
  (* the last parameter is not padded: the loop ends because fewer than 4 bytes are left;
     before another parameter the padded one is a prefix, and the loop goes on behind it *)
  destruct rest as [|q rest]; subst tail.
  - destruct f as [|f]; [lia|]. rewrite decode_past_end by (rewrite L; cbn [len length Z.of_nat]; lia). reflexivity.
  - replace (0 + _)%nat with (length (hdr ++ v ++ zpad (padl (len v + 4))) + 0)%nat
      by (rewrite !app_length, zpad_length; unfold len, hdr in *; cbn [length be16 app]; lia).
    change (be16 t ++ be16 (len v + 4) ++ ?x) with (hdr ++ x).
    rewrite (app_assoc v), (app_assoc hdr), decode_shift, IH by (assumption || lia). reflexivity.
Qed.

Lemma decode_encode_params ps :
  params_okb ps = true -> decode_params (encode_params ps) = Ok ps.
Proof.
  intros H. apply decode_encode_loop; [exact H|]. pose proof (encode_params_count ps). lia.
Qed.

Lemma pair_okb_iff p : pair_okb p = true <-> 0 <= fst p < 65536 /\ 0 <= snd p < 65536.
Proof. unfold pair_okb, in_u16. lia. Qed.

Lemma read_pairs_shift n : forall pre b k,
  read_pairs (pre ++ b) (length pre + k) n = read_pairs b k n.
Proof.
  induction n as [|n IH]; intros pre b k; [reflexivity|].
  cbn [read_pairs]. now rewrite <- !Nat.add_assoc, !u16_app_r, IH.
Qed.

Lemma read_pairs_flat l : forall post,
  forallb pair_okb l = true ->
  read_pairs (flat_map pair_bytes l ++ post) 0 (length l) = Some l.
Proof.
  induction l as [|[a b] l IH]; intros post H; [reflexivity|].
  apply andb_true_iff in H. destruct H as [Hp Hl]. apply pair_okb_iff in Hp.
  cbn [flat_map length read_pairs fst snd] in *. change (pair_bytes (a, b)) with (be16 a ++ be16 b). rewrite <- !app_assoc.
  rewrite u16_be16, (u16_at (be16 a)) by lia.
  rewrite (app_assoc (be16 a)), (read_pairs_shift _ (be16 a ++ be16 b) _ 0), IH by exact Hl. reflexivity.
Qed.

Lemma read_u32s_shift n : forall pre b k,
  read_u32s (pre ++ b) (length pre + k) n = read_u32s b k n.
Proof.
  induction n as [|n IH]; intros pre b k; [reflexivity|].
  cbn [read_u32s]. now rewrite <- !Nat.add_assoc, !u32_app_r, IH.
Qed.

Lemma read_u32s_flat l : forall post,
  forallb in_u32 l = true ->
  read_u32s (flat_map be32 l ++ post) 0 (length l) = Some l.
Proof.
  induction l as [|a l IH]; intros post H; [reflexivity|].
  apply andb_true_iff in H. destruct H as [Ha Hl]. apply in_u32_iff in Ha.
  cbn [flat_map length read_u32s]. rewrite <- app_assoc, u32_be32 by lia.
  now rewrite (read_u32s_shift _ (be32 a) _ 0), IH.
Qed.

Lemma read_u16s_shift n : forall pre b k,
  read_u16s (pre ++ b) (length pre + k) n = read_u16s b k n.
Proof.
  induction n as [|n IH]; intros pre b k; [reflexivity|].
  cbn [read_u16s]. now rewrite <- !Nat.add_assoc, !u16_app_r, IH.
Qed.

Lemma read_u16s_flat l : forall post,
  forallb in_u16 l = true ->
  read_u16s (flat_map be16 l ++ post) 0 (length l) = Some l.
Proof.
  induction l as [|a l IH]; intros post H; [reflexivity|].
  apply andb_true_iff in H. destruct H as [Ha Hl]. apply in_u16_iff in Ha.
  cbn [flat_map length read_u16s]. rewrite <- app_assoc, u16_be16 by lia.
  now rewrite (read_u16s_shift _ (be16 a) _ 0), IH.
Qed.

Lemma fwd_loop_read_pairs fuel : forall body pos n,
  length body = (pos + 4 * n)%nat -> (n < fuel)%nat ->
  fwd_streams_loop fuel body pos =
  match read_pairs body pos n with Some l => Ok l | None => Crash end.
Proof.
  induction fuel as [|f IH]; intros body pos n Hl Hf; [lia|].
  cbn [fwd_streams_loop]. unfold len. destruct n as [|n]; cbn [read_pairs].
  - destruct (Z.of_nat pos <? Z.of_nat (length body)) eqn:E; [lia|reflexivity].
  - destruct (Z.of_nat pos <? Z.of_nat (length body)) eqn:E; [|lia].
    destruct (u16 body pos); [|reflexivity]. destruct (u16 body (pos + 2)); [|reflexivity].
    rewrite (IH body (pos + 4)%nat n) by lia. now destruct (read_pairs body (pos + 4) n).
Qed.

Lemma rparam_roundtrip p :
  rparam_okb p = true ->
  reconfig_param_parse (rparam_type p) (rparam_bytes p) = Some (Ok p) /\ bytes_ok (rparam_bytes p).
Proof.
  destruct p as [a b c streams|a n|a r]; cbn [rparam_okb rparam_type rparam_bytes]; unfold in_u32, in_u16; intros H.
  - apply andb_true_iff in H. destruct H as [H Hs]. rewrite fold_left_app_flat.
    split; [|auto 6 with bytes]. cbn [reconfig_param_parse Z.eqb Pos.eqb]. unfold reset_out_parse.
    set (body := (be32 a ++ be32 b ++ be32 c) ++ flat_map be16 streams).
    assert (L : len body = 12 + Z.of_nat (length streams) * 2).
    { subst body. unfold len. rewrite !app_length, !length_be32, (flat_map_length_const _ 2); [lia|reflexivity]. }
    assert (R1 : u32 body 0 = Some a) by (apply u32_be32; lia).
    assert (R2 : u32 body 4 = Some b) by (apply (u32_at (be32 a)); lia).
    assert (R3 : u32 body 8 = Some c) by (apply (u32_at (be32 a ++ be32 b)); lia).
    assert (R4 : read_u16s body 12 (length streams) = Some streams).
    { subst body. rewrite (read_u16s_shift _ (be32 a ++ be32 b ++ be32 c) _ 0), <- (app_nil_r (flat_map _ _)).
      now apply read_u16s_flat. }
    rewrite L, R1, R2, R3. destruct (_ || _) eqn:E; [lia|].
    replace (Z.to_nat _) with (length streams) by lia. now rewrite R4.
  - split; [|auto 6 with bytes]. cbn [reconfig_param_parse Z.eqb Pos.eqb]. unfold add_out_parse.
    change (len _ <? 8) with false. cbv iota.
    assert (R3 : u16 (be32 a ++ be16 n ++ be16 0) 6 = Some 0) by (apply (u16_at (be32 a ++ be16 n) 0 []); lia).
    now rewrite u32_be32, (u16_at (be32 a)), R3 by lia.
  - split; [|auto 6 with bytes]. cbn [reconfig_param_parse Z.eqb Pos.eqb]. unfold reset_response_parse.
    change (len _ <? 8) with false. cbv iota.
    assert (R2 : u32 (be32 a ++ be32 r) 4 = Some r) by (apply (u32_at (be32 a) r []); lia).
    now rewrite u32_be32, R2 by lia.
Qed.
