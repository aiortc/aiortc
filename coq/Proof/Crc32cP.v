(* Lemmas about Model/Crc32c.v: the LFSR step is GF(2)-linear and injective,
   backward reconstruction of a run ending in the zero state, and from these:
   a non-zero error pattern confined to <= 32 consecutive input bits always
   changes the CRC. *)
From Coq Require Import ZArith List Bool Lia.
From AV Require Import Lib.Bytes Lib.BytesP Model.Crc32c.
Import ListNotations.
Local Open Scope Z_scope.

Lemma xor_bits_length a b : length (xor_bits a b) = Nat.min (length a) (length b).
Proof.
  revert b. induction a as [|x a IH]; intros [|y b]; cbn [xor_bits length Nat.min]; auto.
Qed.

Lemma xor_bits_app a1 a2 b1 b2 :
  length a1 = length b1 -> xor_bits (a1 ++ a2) (b1 ++ b2) = xor_bits a1 b1 ++ xor_bits a2 b2.
Proof.
  revert b1. induction a1 as [|x a1 IH]; intros [|y b1] H; cbn [length] in H; try discriminate.
  - reflexivity.
  - cbn [app xor_bits]. f_equal. apply IH. lia.
Qed.

Lemma xor_bits_false_r a n : (length a <= n)%nat -> xor_bits a (repeat false n) = a.
Proof.
  revert n. induction a as [|x a IH]; intros n H.
  - destruct n; reflexivity.
  - destruct n as [|n]; cbn [length] in H; [lia|]. cbn [repeat xor_bits]. rewrite xorb_false_r. f_equal.
    apply IH. lia.
Qed.

Lemma xor_bits_self a : xor_bits a a = repeat false (length a).
Proof. induction a as [|x a IH]; cbn [xor_bits length repeat]; [reflexivity|]. rewrite xorb_nilpotent. now f_equal. Qed.

Lemma xor_bits_interchange a b c d :
  xor_bits (xor_bits a b) (xor_bits c d) = xor_bits (xor_bits a c) (xor_bits b d).
Proof.
  revert b c d. induction a as [|x a IH]; intros [|y b] [|z c] [|w d]; cbn [xor_bits]; try reflexivity.
  f_equal; [|apply IH]. destruct x, y, z, w; reflexivity.
Qed.

Lemma xor_bits_cancel_r a : forall b c,
  length a = length c -> length b = length c -> xor_bits a c = xor_bits b c -> a = b.
Proof.
  induction a as [|x a IH]; intros [|y b] [|z c] Ha Hb H; try discriminate; [reflexivity|].
  injection H as H1 H2. injection Ha as Ha. injection Hb as Hb. f_equal; [|exact (IH b c Ha Hb H2)].
  now destruct x, y, z.
Qed.

Lemma xor_bits_comm a : forall b, xor_bits a b = xor_bits b a.
Proof. induction a as [|x a IH]; intros [|y b]; cbn [xor_bits]; try reflexivity. now rewrite IH, xorb_comm. Qed.

Lemma xor_bits_false_l a n : (length a <= n)%nat -> xor_bits (repeat false n) a = a.
Proof. rewrite xor_bits_comm. apply xor_bits_false_r. Qed.

Lemma xor_bits_eq_false a b :
  length a = length b -> xor_bits a b = repeat false (length a) -> a = b.
Proof.
  intros Hl H. apply (xor_bits_cancel_r a b b Hl eq_refl). now rewrite xor_bits_self, <- Hl.
Qed.

Lemma scale_length fb l : length (scale fb l) = length l.
Proof. unfold scale. apply map_length. Qed.
Lemma scale_false l : scale false l = repeat false (length l).
Proof. unfold scale. induction l as [|x l IH]; cbn [map length repeat andb]; [reflexivity|now f_equal]. Qed.
Lemma scale_xorb x y l : scale (xorb x y) l = xor_bits (scale x l) (scale y l).
Proof.
  unfold scale. induction l as [|p l IH]; cbn [map xor_bits]; [reflexivity|]. rewrite IH. f_equal.
  destruct x, y, p; reflexivity.
Qed.
Lemma scale_app fb a b : scale fb (a ++ b) = scale fb a ++ scale fb b.
Proof. unfold scale. apply map_app. Qed.

Definition poly31 : bits := removelast poly.

Lemma poly_split : poly = poly31 ++ [true].
Proof. reflexivity. Qed.
Lemma poly31_length : length poly31 = 31%nat.
Proof. reflexivity. Qed.

(* shape of one step: the last bit of the new state is the feedback bit, because the
   coefficient of the polynomial at that end is 1 *)
Lemma step_shape s0 rest b :
  length rest = 31%nat ->
  step (s0 :: rest) b = xor_bits rest (scale (xorb s0 b) poly31) ++ [xorb s0 b].
Proof.
  intros H. unfold step. rewrite poly_split, scale_app.
  rewrite xor_bits_app by (rewrite scale_length, poly31_length; exact H).
  f_equal. cbn [scale map xor_bits]. now rewrite andb_true_r, xorb_false_l.
Qed.

Lemma step_length s b : length s = 32%nat -> length (step s b) = 32%nat.
Proof.
  intros H. destruct s as [|s0 rest]; [discriminate|]. cbn [length] in H.
  rewrite step_shape by lia. rewrite app_length, xor_bits_length, scale_length, poly31_length.
  cbn [length]. lia.
Qed.

Lemma step_last s b :
  length s = 32%nat -> last (step s b) false = xorb (hd false s) b.
Proof.
  intros H. destruct s as [|s0 rest]; [discriminate|]. cbn [length] in H.
  rewrite step_shape by lia. now rewrite last_last.
Qed.

Lemma step_linear s t a b :
  length s = 32%nat -> length t = 32%nat ->
  step (xor_bits s t) (xorb a b) = xor_bits (step s a) (step t b).
Proof.
  intros Hs Ht. destruct s as [|s0 s]; [discriminate|]. destruct t as [|t0 t]; [discriminate|].
  cbn [length] in Hs, Ht. cbn [xor_bits].
  rewrite !step_shape by (rewrite ?xor_bits_length; lia).
  rewrite xor_bits_app by (rewrite !xor_bits_length, !scale_length, poly31_length; lia).
  replace (xorb (xorb s0 t0) (xorb a b)) with (xorb (xorb s0 a) (xorb t0 b))
    by (destruct s0, t0, a, b; reflexivity).
  rewrite scale_xorb, xor_bits_interchange. reflexivity.
Qed.

Lemma step_injective s t b :
  length s = 32%nat -> length t = 32%nat -> step s b = step t b -> s = t.
Proof.
  intros Hs Ht. destruct s as [|s0 s]; [discriminate|]. destruct t as [|t0 t]; [discriminate|].
  cbn [length] in Hs, Ht. rewrite !step_shape by lia. intros H.
  apply app_inj_tail in H. destruct H as [H1 H2].
  assert (s0 = t0) as -> by (destruct s0, t0, b; cbn in H2; congruence).
  f_equal. apply xor_bits_cancel_r with (c := scale (xorb t0 b) poly31); [| |exact H1];
    rewrite scale_length, poly31_length; lia.
Qed.

Lemma step_zero : step zeros32 false = zeros32.
Proof. reflexivity. Qed.

Lemma run_app s a b : run s (a ++ b) = run (run s a) b.
Proof. unfold run. apply fold_left_app. Qed.
Lemma run_cons s b l : run s (b :: l) = run (step s b) l.
Proof. reflexivity. Qed.
Lemma run_length s l : length s = 32%nat -> length (run s l) = 32%nat.
Proof. revert s. induction l as [|b l IH]; intros s H; [exact H|]. rewrite run_cons. apply IH, step_length, H. Qed.

Lemma run_linear x : forall y s t,
  length s = 32%nat -> length t = 32%nat -> length x = length y ->
  run (xor_bits s t) (xor_bits x y) = xor_bits (run s x) (run t y).
Proof.
  induction x as [|a x IH]; intros [|b y] s t Hs Ht Hl; cbn [length] in Hl; try discriminate.
  - reflexivity.
  - cbn [xor_bits]. rewrite !run_cons, step_linear by assumption.
    apply IH; [now apply step_length|now apply step_length|lia].
Qed.

Lemma run_zeros_false n : run zeros32 (repeat false n) = zeros32.
Proof. induction n as [|n IH]; [reflexivity|]. cbn [repeat]. rewrite run_cons, step_zero. exact IH. Qed.

Lemma run_false_zero_inv n : forall s,
  length s = 32%nat -> run s (repeat false n) = zeros32 -> s = zeros32.
Proof.
  induction n as [|n IH]; intros s Hs H; [exact H|].
  cbn [repeat] in H. rewrite run_cons in H. apply IH in H; [|now apply step_length].
  apply (step_injective s zeros32 false Hs eq_refl). now rewrite step_zero.
Qed.

Lemma run_zero_inv input : forall s,
  length s = 32%nat -> (length input <= 32)%nat -> run s input = zeros32 ->
  s = input ++ repeat false (32 - length input).
Proof.
  induction input as [|b bs IH]; intros s Hs Hl H.
  - exact H.
  - cbn [length] in Hl. rewrite run_cons in H.
    apply IH in H; [|now apply step_length|lia].
    destruct s as [|s0 rest]; [discriminate|]. cbn [length] in Hs.
    rewrite step_shape in H by lia.
    replace (32 - length bs)%nat with (S (31 - length bs)) in H by lia.
    cbn [repeat] in H. rewrite repeat_cons, app_assoc in H.
    apply app_inj_tail in H. destruct H as [H1 H2].
    rewrite H2, scale_false, xor_bits_false_r in H1 by (rewrite poly31_length; lia).
    assert (s0 = b) as -> by (destruct s0, b; cbn in H2; congruence).
    cbn [length app]. replace (32 - S (length bs))%nat with (31 - length bs)%nat by lia.
    now rewrite H1.
Qed.

Definition burst_bits (e : bits) : Prop :=
  exists k w m, e = repeat false k ++ w ++ repeat false m /\ (length w <= 32)%nat /\ In true w.

Lemma burst_bits_nonzero_syndrome e : burst_bits e -> run zeros32 e <> zeros32.
Proof.
  intros (k & w & m & -> & Hw & Hin) H.
  rewrite !run_app, run_zeros_false in H.
  apply run_false_zero_inv in H; [|now apply run_length].
  apply run_zero_inv in H; [|reflexivity|exact Hw].
  assert (Hall : forall x, In x (w ++ repeat false (32 - length w)) -> x = false).
  { rewrite <- H. intros x Hx. apply repeat_spec in Hx. exact Hx. }
  specialize (Hall true (in_or_app _ _ _ (or_introl Hin))). discriminate.
Qed.

Lemma map_negb_inj (a b : bits) : map negb a = map negb b -> a = b.
Proof.
  revert b. induction a as [|x a IH]; intros [|y b] H; cbn [map] in H; try discriminate; auto.
  injection H as H1 H2. f_equal; [destruct x, y; cbn in H1; congruence|now apply IH].
Qed.

(* an error pattern e goes undetected only if the register, started at zero, is driven back
   to zero by e alone: by linearity the CRC of x + e is that of x plus the syndrome of e *)
Lemma crc32c_bits_undetected x e :
  length x = length e -> crc32c_bits (xor_bits x e) = crc32c_bits x -> run zeros32 e = zeros32.
Proof.
  intros Hl H. unfold crc32c_bits in H. apply map_negb_inj in H.
  change ones32 with (xor_bits ones32 zeros32) in H at 1.
  rewrite run_linear in H by (reflexivity || assumption).
  assert (L : length (run ones32 x) = 32%nat) by now apply run_length.
  assert (L2 : length (run zeros32 e) = 32%nat) by now apply run_length.
  set (a := run ones32 x) in *. set (d := run zeros32 e) in *.
  rewrite <- (xor_bits_false_r a 32) in H at 2 by lia.
  rewrite (xor_bits_comm a d), (xor_bits_comm a (repeat false 32)) in H.
  apply xor_bits_cancel_r in H; [exact H|lia|rewrite L; reflexivity].
Qed.

Lemma crc32c_bits_burst x e :
  length x = length e -> burst_bits e -> crc32c_bits (xor_bits x e) <> crc32c_bits x.
Proof.
  intros Hl Hb H. exact (burst_bits_nonzero_syndrome e Hb (crc32c_bits_undetected x e Hl H)).
Qed.

Lemma z_bits_length n z : length (z_bits n z) = n.
Proof. revert z. induction n as [|n IH]; intros z; cbn [z_bits length]; [reflexivity|now rewrite IH]. Qed.

Lemma bits_z_range l : 0 <= bits_z l < 2 ^ Z.of_nat (length l).
Proof.
  induction l as [|b l IH]; cbn [bits_z length]; [cbn; lia|].
  rewrite Nat2Z.inj_succ, Z.pow_succ_r by lia. destruct b; cbn [Z.b2z]; lia.
Qed.

Lemma bits_z_inj a : forall b, length a = length b -> bits_z a = bits_z b -> a = b.
Proof.
  induction a as [|x a IH]; intros [|y b] Hl H; cbn [length] in Hl; try discriminate; auto.
  cbn [bits_z] in H.
  assert (x = y) as -> by (destruct x, y; cbn [Z.b2z] in H; auto; exfalso; lia).
  f_equal. apply IH; [lia|]. lia.
Qed.

Lemma crc32c_range data : 0 <= crc32c data < 4294967296.
Proof.
  unfold crc32c. pose proof (bits_z_range (crc32c_bits (bytes_bits data))) as H.
  replace (length (crc32c_bits (bytes_bits data))) with 32%nat in H; [exact H|].
  unfold crc32c_bits. rewrite map_length, run_length; reflexivity.
Qed.

Lemma z_bits_lxor n : forall a b, z_bits n (Z.lxor a b) = xor_bits (z_bits n a) (z_bits n b).
Proof.
  induction n as [|n IH]; intros a b; cbn [z_bits xor_bits]; [reflexivity|].
  f_equal.
  - rewrite <- !Z.bit0_odd. apply Z.lxor_spec.
  - rewrite <- IH. f_equal.
    rewrite <- !(Z.shiftr_div_pow2 _ 1) by lia. apply Z.shiftr_lxor.
Qed.

Fixpoint xor_bytes (a b : bytes) : bytes :=
  match a, b with
  | x :: a', y :: b' => Z.lxor x y :: xor_bytes a' b'
  | _, _ => []
  end.

Lemma xor_bytes_length a b : length (xor_bytes a b) = Nat.min (length a) (length b).
Proof. revert b. induction a as [|x a IH]; intros [|y b]; cbn [xor_bytes length Nat.min]; auto. Qed.

Lemma xor_bytes_app a1 a2 b1 b2 :
  length a1 = length b1 -> xor_bytes (a1 ++ a2) (b1 ++ b2) = xor_bytes a1 b1 ++ xor_bytes a2 b2.
Proof.
  revert b1. induction a1 as [|x a1 IH]; intros [|y b1] H; cbn [length] in H; try discriminate.
  - reflexivity.
  - cbn [app xor_bytes]. f_equal. apply IH. lia.
Qed.

Lemma xor_bytes_firstn n : forall a b, firstn n (xor_bytes a b) = xor_bytes (firstn n a) (firstn n b).
Proof.
  induction n as [|n IH]; intros a b; [reflexivity|].
  destruct a as [|x a]; [reflexivity|]. destruct b as [|y b]; [destruct (firstn (S n) (x :: a)); reflexivity|].
  cbn [xor_bytes firstn]. f_equal. apply IH.
Qed.

Lemma xor_bytes_skipn n : forall a b, skipn n (xor_bytes a b) = xor_bytes (skipn n a) (skipn n b).
Proof.
  induction n as [|n IH]; intros a b; [reflexivity|].
  destruct a as [|x a]; [reflexivity|]. destruct b as [|y b]; [destruct (skipn (S n) (x :: a)); reflexivity|].
  cbn [xor_bytes skipn]. apply IH.
Qed.

Lemma xor_bytes_zeros_r a n : (length a <= n)%nat -> xor_bytes a (zeros n) = a.
Proof.
  revert n. induction a as [|x a IH]; intros n H.
  - destruct n; reflexivity.
  - destruct n as [|n]; cbn [length] in H; [lia|]. unfold zeros. cbn [repeat xor_bytes].
    rewrite Z.lxor_0_r. f_equal. apply IH. lia.
Qed.

Lemma byte_bits_length b : length (byte_bits b) = 8%nat.
Proof. apply z_bits_length. Qed.

Lemma bytes_bits_length l : length (bytes_bits l) = (8 * length l)%nat.
Proof.
  unfold bytes_bits. induction l as [|x l IH]; [reflexivity|].
  cbn [flat_map length]. rewrite app_length, byte_bits_length, IH. lia.
Qed.

Lemma bytes_bits_app a b : bytes_bits (a ++ b) = bytes_bits a ++ bytes_bits b.
Proof. unfold bytes_bits. apply flat_map_app. Qed.

Lemma bytes_bits_xor a : forall b,
  length a = length b -> bytes_bits (xor_bytes a b) = xor_bits (bytes_bits a) (bytes_bits b).
Proof.
  induction a as [|x a IH]; intros [|y b] H; cbn [length] in H; try discriminate.
  - reflexivity.
  - cbn [xor_bytes]. unfold bytes_bits in *. cbn [flat_map].
    rewrite xor_bits_app by (now rewrite !byte_bits_length).
    rewrite IH by lia. f_equal. apply z_bits_lxor.
Qed.

Lemma bytes_bits_zeros n : bytes_bits (zeros n) = repeat false (8 * n).
Proof.
  induction n as [|n IH]; [reflexivity|].
  unfold zeros in *. cbn [repeat]. unfold bytes_bits in *. cbn [flat_map]. rewrite IH.
  replace (8 * S n)%nat with (8 + 8 * n)%nat by lia. reflexivity.
Qed.

Definition burst (e : bytes) : Prop := burst_bits (bytes_bits e).

Lemma crc32c_burst x e :
  length x = length e -> burst e -> crc32c (xor_bytes x e) <> crc32c x.
Proof.
  intros Hl Hb H. unfold crc32c in H.
  apply bits_z_inj in H.
  - rewrite bytes_bits_xor in H by exact Hl.
    revert H. apply crc32c_bits_burst; [|exact Hb].
    rewrite !bytes_bits_length. lia.
  - unfold crc32c_bits. rewrite !map_length, !run_length; reflexivity.
Qed.
