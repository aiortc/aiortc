(* Proofs about Model/Rbe.v (property C15): nothing raises even when the clock
   goes backwards or jumps (arrival times come from the wall clock), for any
   payload sizes: structural invariant only. *)
From Coq Require Import ZArith List Bool Lia.
From AV Require Import Lib.Sx Lib.Bytes Model.RateCounter Model.Aimd Model.Rbe
  Proof.RateCounterP Proof.AimdP.
Import ListNotations.
Local Open Scope Z_scope.

Definition RS (s : rbe) : Prop := Struct 1000 (incoming s) /\ AInv0 (control s).

Lemma rbe_add_total s a : RS s -> exists s' o, rbe_add s a = Ok (s', o) /\ RS s'.
Proof.
  intros (HS & HA). unfold rbe_add.
  destruct (rate_struct 1000 (incoming s) (a_time a) HS) as (r1 & x & -> & S1).
  assert (H2 : exists r2 ii,
            (match x with
             | Some _ => (r1, true)
             | None => if incoming_init s then (reset r1, false) else (r1, incoming_init s)
             end) = (r2, ii) /\ Struct 1000 r2).
  { destruct x; [eauto|]. destruct (incoming_init s); eauto using Struct_reset. }
  destruct H2 as (r2 & ii & -> & S2).
  destruct (add_struct 1000 r2 (a_size a) (a_time a) S2) as (r3 & -> & S3).
  destruct (match last_update s with
            | Some lu => (feedback_interval <? a_time a - lu) || is_over (a_verdict a)
            | None => true
            end).
  - destruct (rate_struct 1000 r3 (a_time a) S3) as (r4 & et & -> & S4).
    destruct (update_spec (control s) (a_verdict a) et (a_time a) (a_fl a) HA) as (c' & r & -> & HA' & _).
    destruct r; eexists; eexists; (split; [reflexivity|]); split; assumption.
  - eexists; eexists; split; [reflexivity|]. split; assumption.
Qed.

Theorem rbe_never_raises_any_clock : forall l, exists s outs, Rbe.run rbe_init l = (s, outs, 0).
Proof.
  intros l. assert (H0 : RS rbe_init) by (split; [apply Struct_init; lia|apply AInv0_init]).
  revert H0. generalize rbe_init.
  induction l as [|a l IH]; intros s HS; cbn [Rbe.run]; [eauto|].
  destruct (rbe_add_total s a HS) as (s1 & o & -> & S1).
  destruct (IH s1 S1) as (s2 & outs & ->). eauto.
Qed.
