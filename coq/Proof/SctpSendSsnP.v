(* C17: the sender's stream sequence counters.  Two sender states that differ only in the
   origin of the SSN counters of a set P of streams (by any delta e, mod 2^16) fragment any list
   of messages on those streams into the same chunks, except that every ordered chunk carries
   its SSN shifted by e: TSNs, flags, payloads, the wrap of the counter are all unaffected.
   With Proof/SctpSsnShiftP.v (the receiver delivers the same messages when every SSN is
   shifted) the behaviour of an ordered stream does not depend on where its SSNs start. *)
From Coq Require Import ZArith List Bool Lia ZifyBool.
From AV Require Import Lib.Bytes Gen.Utils Gen.SctpConst Model.SctpRecv Model.SctpSend Proof.SerialP
  Proof.SctpOrderSP Proof.SctpSsnShiftP.
Import ListNotations.
Local Open Scope Z_scope.

Ltac Zify.zify_post_hook ::= Z.to_euclidean_division_equations.

Section SendSsn.
Variable e : Z.
Variable P : Z -> Prop.

(* only ordered chunks carry a meaningful SSN *)
Definition shco (c : chunk) : chunk := if unordered c then c else shc e c.

Definition rel (s1 s2 : sstate) : Prop :=
  local_tsn s2 = local_tsn s1 /\
  forall st, P st -> in16 (seq_get (stream_seq s1) st) /\
                     seq_get (stream_seq s2) st = sh16 e (seq_get (stream_seq s1) st).

Lemma frag_loop_shc st pp un : forall n data t sq b,
  map (shc e) (frag_loop n data t st sq un pp b) = frag_loop n data t st (sh16 e sq) un pp b.
Proof. induction n as [|n IH]; intros data t sq b; cbn [frag_loop map]; [reflexivity|]. now rewrite IH. Qed.

Lemma frag_loop_shco st pp un : forall n data t sq b,
  map shco (frag_loop n data t st sq un pp b) = frag_loop n data t st (if un then sq else sh16 e sq) un pp b.
Proof.
  induction n as [|n IH]; intros data t sq b; cbn [frag_loop map]; [reflexivity|].
  rewrite IH. destruct un; reflexivity.
Qed.

Lemma send_msg_rel s1 s2 m : rel s1 s2 -> P (o_sid m) ->
  rel (fst (send_msg s1 m)) (fst (send_msg s2 m)) /\
  snd (send_msg s2 m) = map shco (snd (send_msg s1 m)).
Proof.
  intros [Ht Hs] Hm. unfold send_msg. cbn [fst snd local_tsn stream_seq]. rewrite Ht.
  destruct (o_ordered m) eqn:Eo; cbn [negb].
  - destruct (Hs _ Hm) as [Hi Hq]. rewrite Hq. split; [|now rewrite frag_loop_shco].
    split; [reflexivity|]. intros st Hst. cbn [fst snd local_tsn stream_seq].
    destruct (Z.eq_dec st (o_sid m)) as [->|Hne].
    + rewrite !seq_get_set_same. split; [apply uint16_add_range|apply sh16_add].
    + rewrite !seq_get_set_other by exact Hne. now apply Hs.
  - split; [split; [reflexivity|exact Hs]|]. now rewrite frag_loop_shco.
Qed.

Theorem send_msgs_ssn_shift : forall ms s1 s2, rel s1 s2 -> Forall (fun m => P (o_sid m)) ms ->
  send_msgs s2 ms = map (map shco) (send_msgs s1 ms).
Proof.
  induction ms as [|m ms IH]; intros s1 s2 R Hms; cbn [send_msgs map]; [reflexivity|].
  inversion Hms as [|? ? Hm Hms']; subst.
  destruct (send_msg_rel s1 s2 m R Hm) as [R1 E1].
  rewrite (surjective_pairing (send_msg s1 m)), (surjective_pairing (send_msg s2 m)).
  cbn [map]. rewrite E1. f_equal. now apply IH.
Qed.

(* an all-ordered message list: exactly the receiver theorem's shift of every chunk *)
Lemma shco_ordered_only : forall ms s, Forall (fun m => o_ordered m = true) ms ->
  map (map shco) (send_msgs s ms) = map (map (shc e)) (send_msgs s ms).
Proof.
  induction ms as [|m ms IH]; intros s Ho; cbn [send_msgs map]; [reflexivity|].
  inversion Ho as [|? ? Hm Ho']; subst.
  rewrite (surjective_pairing (send_msg s m)). cbn [map]. f_equal; [|now apply IH].
  unfold send_msg. cbn [snd]. rewrite Hm. cbn [negb]. now rewrite frag_loop_shco, frag_loop_shc.
Qed.
End SendSsn.

(* the network: any arrival list over the chunks sent (loss, duplication, reordering), given as
   positions in the list of chunks sent *)
Definition pick (cs : list chunk) (idxs : list nat) : list chunk :=
  flat_map (fun i => match nth_error cs i with Some c => [c] | None => [] end) idxs.

Lemma pick_map (f : chunk -> chunk) cs : forall idxs, pick (map f cs) idxs = map f (pick cs idxs).
Proof.
  induction idxs as [|i idxs IH]; cbn [pick flat_map map]; [reflexivity|].
  fold (pick (map f cs) idxs). fold (pick cs idxs). rewrite IH, map_app. f_equal.
  rewrite nth_error_map. destruct (nth_error cs i); reflexivity.
Qed.

Lemma pick_in cs : forall idxs c, In c (pick cs idxs) -> In c cs.
Proof.
  induction idxs as [|i idxs IH]; intros c H; cbn [pick flat_map] in H; [destruct H|].
  apply in_app_or in H as [H|H]; [|now apply IH].
  destruct (nth_error cs i) eqn:E; [|destruct H]. destruct H as [<-|[]]. eapply nth_error_In; eauto.
Qed.

Lemma send_msgs_ok e ids : forall ms s1 s2, rel e (fun st => In st ids) s1 s2 ->
  Forall (fun m => In (o_sid m) ids /\ o_ordered m = true) ms ->
  forall c, In c (concat (send_msgs s1 ms)) -> cok c /\ In (sid c) ids.
Proof.
  induction ms as [|m ms IH]; intros s1 s2 R Hms c Hc; cbn [send_msgs concat] in Hc; [destruct Hc|].
  inversion Hms as [|? ? [Hm Ho] Hms']; subst.
  rewrite (surjective_pairing (send_msg s1 m)) in Hc. cbn [concat] in Hc.
  apply in_app_or in Hc as [Hc|Hc].
  - unfold send_msg in Hc. cbn [snd] in Hc. rewrite Ho in Hc. apply In_nth_error in Hc as (i & Hc).
    apply SctpSendP.frag_loop_nth in Hc as (_ & E2 & E1 & _).
    unfold cok. rewrite E1, E2. destruct R as [_ Hs]. split; [exact (proj1 (Hs _ Hm))|exact Hm].
  - destruct (send_msg_rel e _ s1 s2 m R Hm) as [R1 _]. eapply IH; eauto.
Qed.

(* Two senders whose SSN counters differ by e on the streams `ids`, the same ordered messages: the
   fragmentation differs by the shift of every SSN.  With the same network behaviour (the same
   positions arrive in the same order) and two receivers whose streams expect x resp. x + e: the
   same messages are delivered and the same SACKs sent at every step. *)
Theorem sender_ssn_origin : forall e ids ms s1 s2 base x idxs,
  rel e (fun st => In st ids) s1 s2 ->
  Forall (fun m => In (o_sid m) ids /\ o_ordered m = true) ms -> in16 x ->
  send_msgs s2 ms = map (map (shc e)) (send_msgs s1 ms) /\
  snd (rrun (rinit_ssn base (sh16 e x) ids) (map EvData (pick (concat (send_msgs s2 ms)) idxs))) =
  snd (rrun (rinit_ssn base x ids) (map EvData (pick (concat (send_msgs s1 ms)) idxs))).
Proof.
  intros e ids ms s1 s2 base x idxs R Hms Hx.
  assert (E : send_msgs s2 ms = map (map (shc e)) (send_msgs s1 ms)).
  { rewrite (send_msgs_ssn_shift e _ ms s1 s2 R), (shco_ordered_only e ms s1); [reflexivity| |];
      (eapply Forall_impl; [|exact Hms]); cbv beta; intros m [H1 H2]; assumption. }
  split; [exact E|].
  rewrite E, <- concat_map, pick_map, map_map.
  change (fun c => EvData (shc e c)) with (fun c => shev e (EvData c)). rewrite <- (map_map EvData (shev e)).
  rewrite (ssn_origin_independent e base x ids _ Hx); [reflexivity|].
  apply Forall_forall. intros ev Hev. apply in_map_iff in Hev as (c & <- & Hc).
  apply pick_in in Hc. cbn [ev_ok]. exact (send_msgs_ok e ids ms s1 s2 R Hms c Hc).
Qed.
