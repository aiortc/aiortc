(* Proofs about Model/Close.v (property C19), part 2: the invariant of the repaired
   model (fx = true) and its preservation by every step. *)
From Coq Require Import ZArith List Bool Arith Lia.
From AV Require Import Lib.Sx Model.Close Proof.CloseP.
Import ListNotations.

Definition tquiet (t : tstate) : Prop := t = TNone \/ t = TExited.
Definition rquiet (r : receiver) : Prop := tquiet (r_rtcp r) /\ r_dec r = false /\ r_eos r = true.
Definition squiet (s : sender) : Prop := tquiet (s_rtp s) /\ tquiet (s_rtcp s).
Definition scquiet (s : sctp) : Prop := sc_stopped s = true /\ sc_timers s = false /\ sc_chans s = 0.
Definition iquiet (tp : transport) : Prop :=
  i_state tp = IClosed /\ i_mon tp <> MWaiting /\ i_consent tp = false /\ i_cclosed tp = true /\
  i_candend tp = true.

Definition comp_ok (x : trx) : Prop :=
  unstarted_ok x /\
  (s_started (t_s x) = true -> s_rtp (t_s x) <> TNone /\ s_rtcp (t_s x) <> TNone) /\
  (r_started (t_r x) = true -> r_rtcp (t_r x) <> TNone) /\
  s_rtp (t_s x) <> TFailed /\ s_rtcp (t_s x) <> TFailed /\ r_rtcp (t_r x) <> TFailed /\
  (r_started (t_r x) = true -> r_dec (t_r x) = false -> r_eos (t_r x) = true).

Definition cancelled (t : tstate) : Prop := t = TCancelling \/ t = TExited.

Definition recv_pc (s : sub) (r : receiver) : Prop :=
  match s with
  | SIdle => True
  | SDone => r_started r = false /\ r_eos r = true
  | SWaitStarted => r_started r = true /\ r_dec r = false /\ r_eos r = true
  | SWaitExited => cancelled (r_rtcp r) /\ r_dec r = false /\ r_eos r = true
  | _ => False
  end.
Definition send_pc (s : sub) (sd : sender) : Prop :=
  match s with
  | SIdle => True
  | SDone => s_started sd = false
  | SWaitStarted => s_started sd = true
  | SCancel1 => cancelled (s_rtp sd) /\ started_set (s_rtcp sd) = true
  | SWaitExited => cancelled (s_rtp sd) /\ cancelled (s_rtcp sd)
  | _ => False
  end.
Definition ice_pc (s : sub) (tp : transport) : Prop :=
  match s with
  | SIdle => True
  | SDone | SIceClosing => i_state tp = IClosed
  | SWaitMon => i_state tp = IClosed /\ i_mon tp <> MNone
  | _ => False
  end.
Definition dtls_pc (s : sub) : Prop := match s with SIdle | SDone | SNeedCancel => True | _ => False end.
Definition sctp_pc (s : sub) (sc : sctp) : Prop :=
  match s with SIdle => True | SDone => scquiet sc | _ => False end.

Definition op_valid (c : cfg) (o : op) : Prop :=
  match o with
  | ORecvStop i | OSendStop i => nth_error (c_trx c) i <> None
  | OSctpStop => c_sctp c <> None
  | ODtlsStop t | OIceStop t => nth_error (c_tps c) t <> None
  end.

Definition pc_ok (c : cfg) (o : op) (s : sub) : Prop :=
  op_valid c o /\
  match o with
  | ORecvStop i => forall x, nth_error (c_trx c) i = Some x -> recv_pc s (t_r x)
  | OSendStop i => forall x, nth_error (c_trx c) i = Some x -> send_pc s (t_s x)
  | OSctpStop => forall sc, c_sctp c = Some sc -> sctp_pc s sc
  | ODtlsStop t => dtls_pc s
  | OIceStop t => forall tp, nth_error (c_tps c) t = Some tp -> ice_pc s tp
  end.

Definition main_ok (c : cfg) : Prop :=
  match c_main c with
  | Some (_, o :: todo, s) => pc_ok c o s /\ Forall (op_valid c) todo
  | Some (_, [], s) => s = SIdle
  | None => True
  end.

Definition fut_ok (c : cfg) : Prop :=
  match c_main c with
  | Some _ => c_closed c = FPending
  | None => c_closed c <> FPending
  end.

(* a closed ICE transport: the connection has been shut down, or close() is doing it right now *)
Definition closed_ok (c : cfg) (t : nat) (tp : transport) : Prop :=
  i_state tp = IClosed ->
  i_candend tp = true /\
  (head c = Some (OIceStop t, SIceClosing) \/
   (i_cclosed tp = true /\ i_consent tp = false /\
    (i_mon tp <> MWaiting \/ head c = Some (OIceStop t, SWaitMon)))).

Definition todo_of (c : cfg) : list op :=
  match c_main c with Some (_, l, _) => l | None => [] end.

(* what a stop() that has returned guarantees from then on *)
Definition post (c : cfg) (o : op) : Prop :=
  match o with
  | ORecvStop i => forall x, nth_error (c_trx c) i = Some x -> rquiet (t_r x)
  | OSendStop i => forall x, nth_error (c_trx c) i = Some x -> squiet (t_s x)
  | OSctpStop => forall sc, c_sctp c = Some sc -> scquiet sc
  | ODtlsStop t => True
  | OIceStop t => forall tp, nth_error (c_tps c) t = Some tp -> iquiet tp
  end.

Definition post_ok (c : cfg) : Prop :=
  c_closed c <> FNone ->
  c_sig_closed c = true /\ forall o, In o (plan c) -> In o (todo_of c) \/ post c o.

Definition inv (c : cfg) : Prop :=
  (forall i x, nth_error (c_trx c) i = Some x -> comp_ok x) /\
  fut_ok c /\ main_ok c /\
  (forall t tp, nth_error (c_tps c) t = Some tp -> closed_ok c t tp) /\
  post_ok c.

Lemma inv_wfA c : inv c -> wfA c.
Proof. intros (HA & _) i x Hn. exact (proj1 (HA i x Hn)). Qed.


(* the static part of a configuration: no step changes it (step_shape) *)
Definition shape (c : cfg) : list nat * nat * option nat :=
  (map t_tp (c_trx c), length (c_tps c), option_map sc_tp (c_sctp c)).

Lemma shape_set_sub c s : shape (set_sub c s) = shape c.
Proof. unfold set_sub. destruct (c_main c) as [[[? ?] ?]|]; reflexivity. Qed.

Lemma map_tp_upd l i x x' :
  nth_error l i = Some x -> t_tp x' = t_tp x -> map t_tp (upd l i x') = map t_tp l.
Proof.
  revert i. induction l as [|y l IH]; intros [|i] Hn Ht; cbn in *; try discriminate; auto.
  - injection Hn as ->. rewrite Ht. reflexivity.
  - rewrite (IH i Hn Ht). reflexivity.
Qed.

Lemma shape_set_trx c i x x' :
  nth_error (c_trx c) i = Some x -> t_tp x' = t_tp x -> shape (set_trx c i x') = shape c.
Proof. intros Hn Ht. unfold shape. cbn [c_trx c_tps c_sctp set_trx]. erewrite map_tp_upd; eauto. Qed.

Lemma shape_set_tp c t x : shape (set_tp c t x) = shape c.
Proof. unfold shape. cbn [c_trx c_tps c_sctp set_tp]. rewrite length_upd. reflexivity. Qed.

Lemma shape_set_sctp c sc sc' :
  c_sctp c = Some sc -> sc_tp sc' = sc_tp sc -> shape (set_sctp c (Some sc')) = shape c.
Proof. intros Hn Ht. unfold shape. cbn [c_trx c_tps c_sctp set_sctp]. rewrite Hn. cbn. rewrite Ht. reflexivity. Qed.

Lemma map_tp_map f l : (forall x, t_tp (f x) = t_tp x) -> map t_tp (map f l) = map t_tp l.
Proof. intros H. rewrite map_map. apply map_ext. exact H. Qed.

Lemma tp_disconnect t x : t_tp (disconnect t x) = t_tp x.
Proof. unfold disconnect. destruct (t_tp x =? t); reflexivity. Qed.

Lemma tp_set_task k x b : t_tp (set_task k x b) = t_tp x.
Proof. destruct k; reflexivity. Qed.

Lemma trx_step_tp fx e x x' : trx_step fx e x = Some x' -> t_tp x' = t_tp x.
Proof.
  destruct e; try discriminate; cbn [trx_step].
  - destruct (task_of k x); try discriminate. intros [= <-]. apply tp_set_task.
  - destruct (task_end _ _ _ _); try discriminate. intros [= <-]. apply tp_set_task.
  - intros [= <-]. reflexivity.
Qed.

Lemma step_shape fx c e c' : step fx c e = Some c' -> shape c' = shape c.
Proof.
  intros HS. apply step_cases in HS.
  destruct HS; rewrite ?shape_set_sub; try apply shape_set_tp; try reflexivity.
  - unfold shape. cbn [c_trx c_tps c_sctp map_trx set_tp]. rewrite length_upd, (map_tp_map _ _ (tp_disconnect t)). reflexivity.
  - eapply shape_set_trx; eauto using trx_step_tp.
  - eapply shape_set_trx; eauto.
  - eapply shape_set_trx; eauto.
  - eapply shape_set_sctp; eauto.
  - eapply shape_set_sctp; eauto.
  - eapply shape_set_sctp; eauto.
  - destruct Hsc; try reflexivity; try apply shape_set_tp; try (eapply shape_set_trx; eauto; reflexivity).
    eapply shape_set_sctp; eauto.
  - eapply shape_set_trx; eauto.
  - eapply shape_set_trx; eauto.
  - eapply shape_set_trx; eauto.
Qed.

Definition shape_wf (sh : list nat * nat * option nat) : Prop :=
  Forall (fun t => t < snd (fst sh)) (fst (fst sh)) /\
  match snd sh with Some t => t < snd (fst sh) | None => True end.
Definition wf_tp (c : cfg) : Prop := shape_wf (shape c).

Lemma step_wf_tp fx c e c' : wf_tp c -> step fx c e = Some c' -> wf_tp c'.
Proof. intros H HS. unfold wf_tp. rewrite (step_shape _ _ _ _ HS). exact H. Qed.

Lemma plan_trx_seq l k : plan_trx l k = flat_map (fun i => [ORecvStop i; OSendStop i]) (seq k (length l)).
Proof.
  revert k. induction l as [|x l IH]; intros k; cbn [plan_trx length seq flat_map app]; [reflexivity|].
  rewrite IH. reflexivity.
Qed.

Lemma plan_tps_map l : plan_tps l = flat_map (fun t => [ODtlsStop t; OIceStop t]) (map t_tp l).
Proof. induction l as [|x l IH]; cbn [plan_tps map flat_map app]; [reflexivity|]. rewrite IH. reflexivity. Qed.

Lemma plan_shape c c' : shape c' = shape c -> plan c' = plan c.
Proof.
  intros H. injection H as H1 _ H2. unfold plan. rewrite !plan_trx_seq, !plan_tps_map, <- !(map_length t_tp), H1.
  destruct (c_sctp c'), (c_sctp c); try discriminate; [injection H2 as ->|]; reflexivity.
Qed.

Lemma op_valid_shape c c' o : shape c' = shape c -> op_valid c o -> op_valid c' o.
Proof.
  intros H. injection H as H1 H2 H3. apply (f_equal (@length _)) in H1. rewrite !map_length in H1.
  destruct o; cbn [op_valid]; rewrite ?nth_error_Some; try congruence.
  destruct (c_sctp c'), (c_sctp c); cbn in H3; congruence.
Qed.

(* close() stops every transceiver, the SCTP transport, and the transports they use *)
Lemma in_plan c o :
  In o (plan c) <->
  match o with
  | ORecvStop i | OSendStop i => i < length (c_trx c)
  | OSctpStop => c_sctp c <> None
  | ODtlsStop t | OIceStop t => In t (map t_tp (c_trx c)) \/ option_map sc_tp (c_sctp c) = Some t
  end.
Proof.
  unfold plan. rewrite plan_trx_seq, plan_tps_map, !in_app_iff, !in_flat_map. split.
  - intros [(i & Hi & [<-|[<-|[]]])|[Ho|[(t & Ht & [<-|[<-|[]]])|Ho]]]; try apply in_seq in Hi; auto; try apply Hi.
    + destruct (c_sctp c); [destruct Ho as [<-|[]]; discriminate|destruct Ho].
    + destruct (c_sctp c); [destruct Ho as [<-|[<-|[]]]; cbn; auto|destruct Ho].
  - destruct o as [i|i| |t|t].
    1,2: intros Hi; left; exists i; rewrite in_seq; cbn; auto with arith.
    2,3: intros [Ht|Ht]; [right; right; left; exists t; cbn; auto|do 3 right];
      destruct (c_sctp c); [injection Ht as <-; cbn; auto|discriminate].
    intros Hs. right. left. destruct (c_sctp c); [left; reflexivity|congruence].
Qed.

Lemma plan_valid c : wf_tp c -> Forall (op_valid c) (plan c).
Proof.
  intros [H1 H2]. unfold shape in *. cbn [fst snd] in *. rewrite Forall_forall in *. intros o Ho. apply in_plan in Ho.
  destruct o; cbn [op_valid]; trivial; apply nth_error_Some; trivial.
  all: destruct Ho as [Ho|Ho]; [auto|].
  all: destruct (c_sctp c); [injection Ho as <-; exact H2|discriminate].
Qed.

(* what a change of one component must respect for the invariant to survive, while the close()
   coroutine stays where it is *)
Definition tp_compat (tp tp' : transport) : Prop :=
  (i_state tp' = IClosed <-> i_state tp = IClosed) /\
  (i_candend tp = true -> i_candend tp' = true) /\
  (i_state tp = IClosed -> i_cclosed tp = true -> i_consent tp = false ->
   i_cclosed tp' = true /\ i_consent tp' = false) /\
  (i_state tp = IClosed -> i_mon tp <> MWaiting -> i_mon tp' <> MWaiting) /\
  (i_mon tp <> MNone -> i_mon tp' <> MNone).

Definition trx_compat (c : cfg) (i : nat) (x x' : trx) : Prop :=
  t_tp x' = t_tp x /\ comp_ok x' /\
  (c_closed c <> FNone -> rquiet (t_r x) -> rquiet (t_r x')) /\
  (c_closed c <> FNone -> squiet (t_s x) -> squiet (t_s x')) /\
  (forall s, head c = Some (ORecvStop i, s) -> recv_pc s (t_r x) -> recv_pc s (t_r x')) /\
  (forall s, head c = Some (OSendStop i, s) -> send_pc s (t_s x) -> send_pc s (t_s x')).

Definition sctp_compat (c : cfg) (sc sc' : sctp) : Prop :=
  sc_tp sc' = sc_tp sc /\
  (c_closed c <> FNone -> scquiet sc -> scquiet sc') /\
  (forall s, head c = Some (OSctpStop, s) -> sctp_pc s sc -> sctp_pc s sc').

Lemma tp_compat_refl tp : tp_compat tp tp.
Proof. unfold tp_compat. tauto. Qed.

Lemma trx_compat_refl c i x : comp_ok x -> trx_compat c i x x.
Proof. unfold trx_compat. auto 7. Qed.

Lemma ice_pc_compat s tp tp' : tp_compat tp tp' -> ice_pc s tp -> ice_pc s tp'.
Proof.
  intros (H1 & _ & _ & _ & H5). destruct s; cbn [ice_pc]; auto; try (intros H; apply H1; exact H).
  intros [Ha Hb]. split; [apply H1; exact Ha|auto].
Qed.

Lemma iquiet_compat tp tp' : tp_compat tp tp' -> iquiet tp -> iquiet tp'.
Proof.
  intros (H1 & H2 & H3 & H4 & H5) (Q1 & Q2 & Q3 & Q4 & Q5).
  destruct (H3 Q1 Q4 Q3). unfold iquiet. repeat split; auto. apply H1; auto.
Qed.

Lemma closed_ok_compat c c' t tp tp' :
  head c' = head c -> tp_compat tp tp' -> closed_ok c t tp -> closed_ok c' t tp'.
Proof.
  intros Hh (H1 & H2 & H3 & H4 & H5) Hc Hcl. rewrite Hh. apply H1 in Hcl.
  destruct (Hc Hcl) as [Hce [Hor|(Hcc & Hco & Hm)]]; [auto|]. split; [auto|right].
  destruct (H3 Hcl Hcc Hco). repeat split; trivial. destruct Hm as [Hm|Hm]; auto.
Qed.

Lemma inv_frame c c' :
  inv c -> shape c' = shape c ->
  c_closed c' = c_closed c -> c_main c' = c_main c -> c_sig_closed c' = c_sig_closed c ->
  pointwise (trx_compat c) (c_trx c) (c_trx c') ->
  pointwise (fun _ => tp_compat) (c_tps c) (c_tps c') ->
  (forall sc', c_sctp c' = Some sc' -> exists sc, c_sctp c = Some sc /\ sctp_compat c sc sc') ->
  inv c'.
Proof.
  intros (HA & HB & HC & HD & HE) Hsh Hcl Hm Hsig Hx Hp Hs.
  assert (Hh : head c' = head c) by (unfold head; rewrite Hm; reflexivity).
  split; [|split; [|split; [|split]]].
  - intros i x' Hn. destruct (pointwise_nth _ _ _ _ _ Hx Hn) as (x & _ & _ & Hok & _). exact Hok.
  - unfold fut_ok. rewrite Hm, Hcl. exact HB.
  - unfold main_ok in *. rewrite Hm. destruct (c_main c) as [[[id [|o todo]] s]|] eqn:Em; auto.
    apply main_head in Em. destruct HC as [[Hv Hc] Hf].
    split; [split; [eauto using op_valid_shape|]|eapply Forall_impl; [|exact Hf]; eauto using op_valid_shape].
    destruct o.
    + intros x' Hn. destruct (pointwise_nth _ _ _ _ _ Hx Hn) as (x & Hn0 & _ & _ & _ & _ & Hr & _). auto.
    + intros x' Hn. destruct (pointwise_nth _ _ _ _ _ Hx Hn) as (x & Hn0 & _ & _ & _ & _ & _ & Hr). auto.
    + intros sc' Hn. destruct (Hs _ Hn) as (sc & Hn0 & _ & _ & Hr). auto.
    + exact Hc.
    + intros tp' Hn. destruct (pointwise_nth _ _ _ _ _ Hp Hn) as (tp & Hn0 & Hr). eauto using ice_pc_compat.
  - intros t tp' Hn. destruct (pointwise_nth _ _ _ _ _ Hp Hn) as (tp & Hn0 & Hr). eauto using closed_ok_compat.
  - unfold post_ok, todo_of. rewrite Hcl, Hsig, Hm, (plan_shape _ _ Hsh). intros Hn.
    destruct (HE Hn) as [Hg Hpost]. split; [exact Hg|]. intros o Ho.
    destruct (Hpost o Ho) as [Hin|Hpo]; [left; exact Hin|right]. destruct o.
    + intros x' Hn'. destruct (pointwise_nth _ _ _ _ _ Hx Hn') as (x & Hn0 & _ & _ & Hr & _). auto.
    + intros x' Hn'. destruct (pointwise_nth _ _ _ _ _ Hx Hn') as (x & Hn0 & _ & _ & _ & Hr & _). auto.
    + intros sc' Hn'. destruct (Hs _ Hn') as (sc & Hn0 & _ & Hr & _). auto.
    + exact I.
    + intros tp' Hn'. destruct (pointwise_nth _ _ _ _ _ Hp Hn') as (tp & Hn0 & Hr). eauto using iquiet_compat.
Qed.

Lemma trxs_same c : inv c -> pointwise (trx_compat c) (c_trx c) (c_trx c).
Proof. intros HI. apply pointwise_refl. intros i x Hx. apply trx_compat_refl. exact (proj1 HI i x Hx). Qed.

Lemma tps_same c : pointwise (fun _ => tp_compat) (c_tps c) (c_tps c).
Proof. apply pointwise_refl. intros. apply tp_compat_refl. Qed.

Lemma sctp_same c sc' : c_sctp c = Some sc' -> exists sc, c_sctp c = Some sc /\ sctp_compat c sc sc'.
Proof. intros H. exists sc'. unfold sctp_compat. auto. Qed.

Lemma inv_set_tp c t tp tp' :
  inv c -> nth_error (c_tps c) t = Some tp -> tp_compat tp tp' -> inv (set_tp c t tp').
Proof.
  intros HI Hn Hc. apply (inv_frame c); try reflexivity; trivial.
  - apply shape_set_tp.
  - exact (trxs_same c HI).
  - apply pointwise_upd with tp; auto using tp_compat_refl.
  - exact (sctp_same c).
Qed.

Lemma inv_set_trx c i x x' :
  inv c -> nth_error (c_trx c) i = Some x -> trx_compat c i x x' -> inv (set_trx c i x').
Proof.
  intros HI Hn Hc. apply (inv_frame c); try reflexivity; trivial.
  - eapply shape_set_trx; [exact Hn|apply Hc].
  - apply pointwise_upd with x; trivial. intros j y Hy. apply trx_compat_refl. exact (proj1 HI j y Hy).
  - exact (tps_same c).
  - exact (sctp_same c).
Qed.

Lemma inv_set_sctp c sc sc' :
  inv c -> c_sctp c = Some sc -> sctp_compat c sc sc' -> inv (set_sctp c (Some sc')).
Proof.
  intros HI Hn Hc. apply (inv_frame c); try reflexivity; trivial.
  - eapply shape_set_sctp; [exact Hn|apply Hc].
  - exact (trxs_same c HI).
  - exact (tps_same c).
  - intros sc0 [= <-]. eauto.
Qed.

(* comp_ok sorted by component.  A task of a component whose started flag is st: *)
Definition task_ok (st : bool) (t : tstate) : Prop :=
  (st = false -> t = TNone) /\ (st = true -> t <> TNone) /\ t <> TFailed.
Definition send_ok (s : sender) : Prop := task_ok (s_started s) (s_rtp s) /\ task_ok (s_started s) (s_rtcp s).
Definition recv_ok (r : receiver) : Prop :=
  task_ok (r_started r) (r_rtcp r) /\ (r_started r = false -> r_dec r = false) /\
  (r_started r = true -> r_dec r = false -> r_eos r = true).

Lemma comp_ok_split x : comp_ok x <-> send_ok (t_s x) /\ recv_ok (t_r x).
Proof. unfold comp_ok, unstarted_ok, send_ok, recv_ok, task_ok. firstorder. Qed.

Definition send_compat (s s' : sender) : Prop :=
  send_ok s' /\ (squiet s -> squiet s') /\ forall u, send_pc u s -> send_pc u s'.
Definition recv_compat (r r' : receiver) : Prop :=
  recv_ok r' /\ (rquiet r -> rquiet r') /\ forall u, recv_pc u r -> recv_pc u r'.

Lemma trx_compat_s c i x s' : comp_ok x -> send_compat (t_s x) s' -> trx_compat c i x (with_s x s').
Proof.
  intros Hok (Hs & Hq & Hp). pose proof (proj1 (comp_ok_split x) Hok) as [_ Hr].
  unfold trx_compat. rewrite comp_ok_split. cbn [t_s t_r t_tp with_s]. auto 8.
Qed.

Lemma trx_compat_r c i x r' : comp_ok x -> recv_compat (t_r x) r' -> trx_compat c i x (with_r x r').
Proof.
  intros Hok (Hr & Hq & Hp). pose proof (proj1 (comp_ok_split x) Hok) as [Hs _].
  unfold trx_compat. rewrite comp_ok_split. cbn [t_s t_r t_tp with_r]. auto 8.
Qed.

(* a task state moves from a to b without losing anything the invariant says of it *)
Definition tmove (a b : tstate) : Prop :=
  (forall st, task_ok st a -> task_ok st b) /\ (tquiet a -> tquiet b) /\
  (cancelled a -> cancelled b) /\ (started_set a = true -> started_set b = true).

Lemma tmove_begin : tmove TCreated TRunning.
Proof. unfold tmove, task_ok, tquiet, cancelled. cbn. intuition congruence. Qed.

Lemma tmove_end a : a = TRunning \/ a = TCancelling -> tmove a TExited.
Proof. unfold tmove, task_ok, tquiet, cancelled. cbn. intuition congruence. Qed.

Lemma tmove_cancel a : tmove a (cancel a).
Proof. unfold tmove, task_ok, tquiet, cancelled. destruct a; cbn; intuition congruence. Qed.

Lemma compat_set_task c i k x b : comp_ok x -> tmove (task_of k x) b -> trx_compat c i x (set_task k x b).
Proof.
  intros Hok (M1 & M2 & M3 & M4). pose proof (proj1 (comp_ok_split x) Hok) as [[S1 S2] (R1 & R2 & R3)].
  destruct k; cbn [task_of set_task] in *.
  - apply trx_compat_s; [exact Hok|]. split; [exact (conj (M1 _ S1) S2)|split].
    + intros [Q1 Q2]. exact (conj (M2 Q1) Q2).
    + intros u. destruct u; cbn; tauto.
  - apply trx_compat_s; [exact Hok|]. split; [exact (conj S1 (M1 _ S2))|split].
    + intros [Q1 Q2]. exact (conj Q1 (M2 Q2)).
    + intros u. destruct u; cbn; tauto.
  - apply trx_compat_r; [exact Hok|]. split; [exact (conj (M1 _ R1) (conj R2 R3))|split].
    + intros [Q1 Q2]. exact (conj (M2 Q1) Q2).
    + intros u. destruct u; cbn; tauto.
  - apply trx_compat_refl, Hok.
Qed.

Lemma trx_compat_stopdec c i x : comp_ok x -> trx_compat c i x (with_r x (stop_decoder (t_r x))).
Proof.
  intros Hok. pose proof (proj1 (comp_ok_split x) Hok) as [_ Hr].
  apply trx_compat_r; [exact Hok|]. unfold stop_decoder. destruct (r_dec (t_r x)); [|split; auto].
  destruct Hr as (R1 & _). unfold recv_compat, recv_ok, rquiet. cbn. split; [auto|split; [tauto|]].
  intros u. destruct u; cbn; tauto.
Qed.

Lemma trx_step_compat c i e x x' : comp_ok x -> trx_step true e x = Some x' -> trx_compat c i x x'.
Proof.
  intros Hok. destruct e; try discriminate; cbn [trx_step].
  - destruct (task_of k x) eqn:Et; try discriminate. intros [= <-].
    apply compat_set_task; [exact Hok|]. rewrite Et. apply tmove_begin.
  - destruct (task_end _ _ _ _) as [b|] eqn:Et; try discriminate. intros [= <-].
    apply task_end_fixed in Et. destruct Et as (Ha & -> & _). apply compat_set_task; [exact Hok|]. apply tmove_end, Ha.
  - intros [= <-]. apply trx_compat_stopdec, Hok.
Qed.

Lemma tp_step_compat e tp tp' : tp_step true e tp = Some tp' -> tp_compat tp tp'.
Proof.
  unfold tp_compat. destruct e; try discriminate; cbn [tp_step]; intros H.
  (* EMonEnd and EIceStartRet compute the new ICE state from the old one *)
  6: destruct (i_state tp) eqn:Es.
  2: destruct (i_state tp) eqn:Es, ok.
  all: some_cases H; cbn; rewrite ?Es; repeat split; intros; try discriminate; try congruence; auto.
Qed.

Lemma open_main c : inv c -> is_open c = true -> c_main c = None /\ c_closed c = FNone.
Proof.
  intros (_ & HB & _) Ho. unfold is_open in Ho. unfold fut_ok in HB.
  destruct (c_closed c) eqn:Ec; try discriminate. destruct (c_main c); [discriminate|auto].
Qed.

Lemma head_none c o s : c_main c = None -> head c = Some (o, s) -> False.
Proof. unfold head. intros ->. discriminate. Qed.

Definition pc_clause (c : cfg) (o : op) (s : sub) : Prop :=
  match o with
  | ORecvStop i => forall x, nth_error (c_trx c) i = Some x -> recv_pc s (t_r x)
  | OSendStop i => forall x, nth_error (c_trx c) i = Some x -> send_pc s (t_s x)
  | OSctpStop => forall sc, c_sctp c = Some sc -> sctp_pc s sc
  | ODtlsStop t => dtls_pc s
  | OIceStop t => forall tp, nth_error (c_tps c) t = Some tp -> ice_pc s tp
  end.

Lemma head_set_sub c id o todo s s' :
  c_main c = Some (id, o :: todo, s) -> head (set_sub c s') = Some (o, s').
Proof. intros Hm. unfold set_sub, head. rewrite Hm. reflexivity. Qed.

(* a transport whose ICE side close() is not busy closing, or has just finished closing *)
Lemma closed_ok_other c c' t tp :
  (forall s, head c = Some (OIceStop t, s) -> s = SIdle \/ iquiet tp) -> closed_ok c t tp -> closed_ok c' t tp.
Proof.
  intros Hno Hc Hcl. destruct (Hc Hcl) as [Hce Hor]. split; [exact Hce|right].
  destruct Hor as [Hx|(H1 & H2 & [H3|Hx])]; [|auto|];
    destruct (Hno _ Hx) as [E|(_ & Q2 & Q3 & Q4 & _)]; try discriminate E; auto.
Qed.

Lemma inv_set_sub c id o todo s s' :
  inv c -> c_main c = Some (id, o :: todo, s) -> pc_clause c o s' ->
  (forall t tp, nth_error (c_tps c) t = Some tp -> closed_ok (set_sub c s') t tp) ->
  inv (set_sub c s').
Proof.
  intros (HA & HB & HC & HD & HE) Hm Hcl Hco.
  unfold set_sub in *. rewrite Hm in *.
  split; [exact HA|split; [|split; [|split; [exact Hco|]]]].
  - unfold fut_ok in *. rewrite Hm in HB. cbn. exact HB.
  - unfold main_ok in *. rewrite Hm in HC. cbn [c_main set_main]. destruct HC as [[Hv _] Hf].
    split; [split; [exact Hv|]|exact Hf]. exact Hcl.
  - intros Hc. destruct (HE Hc) as [Hs Hp]. split; [exact Hs|]. intros o0 Ho.
    destruct (Hp o0 Ho) as [Hin|Hpo]; [left|right; exact Hpo].
    unfold todo_of in *. rewrite Hm in Hin. exact Hin.
Qed.

Lemma inv_set_sub_other c id o todo s s' :
  inv c -> c_main c = Some (id, o :: todo, s) -> (forall t, o = OIceStop t -> s = SIdle) ->
  pc_clause c o s' -> inv (set_sub c s').
Proof.
  intros HI Hm Hno Hcl. eapply inv_set_sub; eauto.
  intros t tp Hn. apply closed_ok_other with c; [|apply HI, Hn].
  intros s0. rewrite (main_head _ _ _ _ _ Hm). intros [= Ho <-]. eauto.
Qed.

(* close() closes, or has closed, the connection of the ICE transport it is stopping *)
Lemma inv_ice_move c id t todo s tp tp' s' :
  inv c -> c_main c = Some (id, OIceStop t :: todo, s) -> nth_error (c_tps c) t = Some tp ->
  ice_pc s' tp' -> closed_ok (set_sub (set_tp c t tp') s') t tp' -> (iquiet tp -> iquiet tp') ->
  inv (set_sub (set_tp c t tp') s').
Proof.
  intros HI Hm Hn Hpc Hco Hq. pose proof HI as (HA & HB & HC & HD & HE).
  assert (Hsh : shape (set_sub (set_tp c t tp') s') = shape c) by (rewrite shape_set_sub; apply shape_set_tp).
  pose proof (main_head _ _ _ _ _ Hm) as Hh.
  revert Hco Hsh. unfold set_sub. cbn [c_main set_tp]. rewrite Hm. intros Hco Hsh.
  split; [exact HA|split; [|split; [|split]]].
  - unfold fut_ok in *. rewrite Hm in HB. exact HB.
  - unfold main_ok in *. rewrite Hm in HC. cbn [c_main set_main]. destruct HC as [[Hv _] Hf].
    split; [split; [eauto using op_valid_shape|]|eapply Forall_impl; [|exact Hf]; eauto using op_valid_shape].
    cbn [c_tps set_main set_tp]. intros tp0. rewrite (nth_error_upd_same _ _ _ _ Hn). intros [= <-]. exact Hpc.
  - intros t1 tp1. cbn [c_tps set_main set_tp]. rewrite nth_error_upd.
    destruct (Nat.eqb_spec t1 t) as [->|Hne]; [rewrite Hn; intros [= <-]; exact Hco|].
    intros Hn1. apply closed_ok_other with c; [|apply HD, Hn1]. intros s0. rewrite Hh. congruence.
  - unfold post_ok, todo_of. rewrite (plan_shape _ _ Hsh). cbn [c_closed c_sig_closed c_main set_main set_tp].
    intros Hc. destruct (HE Hc) as [Hs Hp]. split; [exact Hs|]. intros o Ho.
    unfold todo_of in Hp. rewrite Hm in Hp. destruct (Hp o Ho) as [Hin|Hpo]; [left; exact Hin|right].
    destruct o; try exact Hpo. cbn [post c_tps set_main set_tp]. intros tp0. rewrite nth_error_upd.
    destruct (Nat.eqb_spec t0 t) as [->|Hne]; [|apply Hpo]. rewrite Hn. intros [= <-]. apply Hq, Hpo, Hn.
Qed.
Lemma exited_set_eq t : exited_set t = true -> t = TExited.
Proof. destruct t; cbn; intros H; try discriminate; reflexivity. Qed.

Lemma ret_post c id o todo s :
  inv c -> c_main c = Some (id, o :: todo, s) -> stop_ret c o s = true -> post c o.
Proof.
  intros (HA & HB & HC & HD & HE) Hm Hr. unfold main_ok in HC. rewrite Hm in HC.
  destruct HC as [[Hv Hp] _]. pose proof (main_head _ _ _ _ _ Hm) as Hh.
  destruct o; cbn [post].
  - intros x Hn. specialize (Hp x Hn). destruct (HA _ _ Hn) as ((U1 & U2) & _).
    unfold stop_ret in Hr. destruct s; try discriminate.
    + destruct Hp as [Hs He]. destruct (U2 Hs) as [Hr1 Hd]. unfold rquiet, tquiet. auto.
    + rewrite Hn in Hr. apply exited_set_eq in Hr. destruct Hp as (_ & Hd & He). unfold rquiet, tquiet. auto.
  - intros x Hn. specialize (Hp x Hn). destruct (HA _ _ Hn) as ((U1 & U2) & _).
    unfold stop_ret in Hr. destruct s; try discriminate.
    + destruct (U1 Hp) as [H1 H2]. unfold squiet, tquiet. auto.
    + rewrite Hn in Hr. apply andb_prop in Hr. destruct Hr as [H1 H2].
      apply exited_set_eq in H1, H2. unfold squiet, tquiet. auto.
  - intros sc Hn. specialize (Hp sc Hn). unfold stop_ret in Hr. destruct s; try discriminate. exact Hp.
  - exact I.
  - intros tp Hn. specialize (Hp tp Hn). pose proof (HD t tp Hn) as Hc. unfold closed_ok in Hc. rewrite Hh in Hc.
    unfold stop_ret in Hr. destruct s; try discriminate.
    + cbn in Hp. destruct (Hc Hp) as [Hce Hor].
      destruct Hor as [Hx|(H1 & H2 & [H3|Hx])]; try discriminate. unfold iquiet. auto.
    + rewrite Hn in Hr. destruct Hp as [Hp1 Hp2]. destruct (Hc Hp1) as [Hce Hor].
      destruct (i_mon tp) eqn:Emon; try discriminate.
      destruct Hor as [Hx|(H1 & H2 & _)]; try discriminate. unfold iquiet. rewrite Emon. repeat split; auto; discriminate.
Qed.

Lemma inv_pop c id o todo s :
  inv c -> c_main c = Some (id, o :: todo, s) -> stop_ret c o s = true ->
  inv (set_main c (Some (id, todo, SIdle))).
Proof.
  intros HI Hm Hr. pose proof (ret_post _ _ _ _ _ HI Hm Hr) as Hpost.
  destruct HI as (HA & HB & HC & HD & HE). pose proof (main_head _ _ _ _ _ Hm) as Hh.
  split; [exact HA|split; [|split; [|split]]].
  - unfold fut_ok in *. rewrite Hm in HB. exact HB.
  - unfold main_ok in *. rewrite Hm in HC. cbn [c_main set_main]. destruct HC as [_ Hf].
    destruct todo as [|o2 todo]; [reflexivity|]. inversion Hf; subst. split; [|assumption].
    split; [assumption|]. destruct o2; cbn; auto.
  - intros t tp Hn. apply closed_ok_other with c; [|apply HD, Hn].
    intros s0. rewrite Hh. intros [= -> <-]. right. exact (Hpost tp Hn).
  - intros Hc. destruct (HE Hc) as [Hs Hp]. split; [exact Hs|]. intros o0 Ho.
    change (plan (set_main c (Some (id, todo, SIdle)))) with (plan c) in Ho.
    destruct (Hp o0 Ho) as [Hin|Hpo]; [|right; exact Hpo].
    unfold todo_of in Hin. rewrite Hm in Hin. destruct Hin as [<-|Hin]; [right; exact Hpost|left; exact Hin].
Qed.

(* while the connection is open nothing is promised about the components *)
Lemma trx_compat_open c i x x' :
  inv c -> is_open c = true -> t_tp x' = t_tp x -> comp_ok x' -> trx_compat c i x x'.
Proof.
  intros HI Ho Ht Hok. destruct (open_main _ HI Ho) as [Hm Hc].
  unfold trx_compat. repeat (split; trivial); intros; try contradiction; exfalso; eauto using head_none.
Qed.

Lemma sctp_compat_closed c sc : sctp_compat c sc (mkSc (sc_tp sc) (sc_started sc) true false 0).
Proof.
  assert (scquiet (mkSc (sc_tp sc) (sc_started sc) true false 0)) by (repeat split).
  split; [reflexivity|]. split; [auto|]. intros s _. destruct s; cbn; auto.
Qed.

Lemma cancelled_cancel a : started_set a = true -> a <> TFailed -> cancelled (cancel a).
Proof. unfold cancelled. destruct a; cbn; auto; congruence. Qed.

(* stop() is called: it runs up to its first await *)
Lemma inv_stop_called c id o todo c1 s :
  inv c -> c_main c = Some (id, o :: todo, SIdle) -> stop_called true c o c1 s -> inv (set_sub c1 s).
Proof.
  intros HI Hm Hsc. pose proof HI as (HA & _). destruct Hsc.
  - apply (inv_set_sub_other _ id (ORecvStop i) todo SIdle); [|exact Hm|discriminate|].
    + eapply inv_set_trx; eauto using trx_compat_stopdec.
    + intros x0. cbn [c_trx set_trx]. rewrite (nth_error_upd_same _ _ _ _ Hx). intros [= <-].
      destruct (HA _ _ Hx) as (_ & _ & _ & _ & _ & _ & G1).
      unfold stop_decoder. destruct (r_dec (t_r x)) eqn:Ed; cbn; auto.
  - destruct (proj1 (comp_ok_split x) (HA _ _ Hx)) as [_ (R1 & R2 & _)]. rewrite Hr in R1, R2.
    apply (inv_set_sub_other _ id (ORecvStop i) todo SIdle); [|exact Hm|discriminate|].
    + eapply inv_set_trx; eauto. apply trx_compat_r; eauto.
      unfold recv_compat, recv_ok, rquiet. cbn. rewrite orb_true_r. split; [intuition congruence|split; [tauto|]].
      intros u. destruct u; cbn; rewrite ?orb_true_r, ?Hr; tauto.
    + intros x0. cbn [c_trx set_trx]. rewrite (nth_error_upd_same _ _ _ _ Hx). intros [= <-].
      cbn. rewrite orb_true_r. auto.
  - apply (inv_set_sub_other _ id (OSendStop i) todo SIdle); [exact HI|exact Hm|discriminate|].
    intros x0 Hx0. rewrite Hx in Hx0. injection Hx0 as <-. destruct (s_started (t_s x)) eqn:Es; cbn; auto.
  - apply (inv_set_sub_other _ id OSctpStop todo SIdle); [|exact Hm|discriminate|].
    + eapply inv_set_sctp; eauto using sctp_compat_closed.
    + intros sc0 [= <-]. repeat split.
  - apply (inv_set_sub_other _ id (ODtlsStop t) todo SIdle); [exact HI|exact Hm|discriminate|].
    destruct (d_ref tp); exact I.
  - apply (inv_set_sub_other _ id (OIceStop t) todo SIdle); auto.
    intros tp0 Hx0. rewrite Ht in Hx0. injection Hx0 as <-. exact Hi.
  - rewrite orb_true_r. eapply inv_ice_move; eauto.
    + reflexivity.
    + intros _. split; [reflexivity|left]. apply head_set_sub with id todo SIdle. exact Hm.
    + intros (Q1 & _). contradiction.
Qed.

Lemma step_inv c e c' : inv c -> wf_tp c -> step true c e = Some c' -> inv c'.
Proof.
  intros HI HW HS. pose proof (step_shape _ _ _ _ HS) as Hsh. apply step_cases in HS.
  pose proof HI as (HA & HB & HC & HD & HE). destruct HS.
  - (* V_tp *) eapply inv_set_tp; eauto using tp_step_compat.
  - (* V_pump_err *) apply (inv_frame c); try reflexivity; trivial.
    + apply pointwise_map. intros i x Hx. unfold disconnect.
      destruct (t_tp x =? t); [apply trx_compat_stopdec|apply trx_compat_refl]; eauto.
    + apply pointwise_upd with tp; auto using tp_compat_refl.
      apply (tp_step_compat (EPumpEnd t 2)). cbn. rewrite Hp. reflexivity.
    + exact (sctp_same c).
  - (* V_trx *) eapply inv_set_trx; eauto using trx_step_compat.
  - (* V_started *) exact HI.
  - (* V_send *) destruct Hg as (tp & _ & Hg). apply andb_prop in Hg.
    eapply inv_set_trx; eauto. apply trx_compat_open; trivial; [apply Hg|].
    apply comp_ok_split. split; [|apply (comp_ok_split x), (HA _ _ Hx)]. unfold send_ok, task_ok. cbn. intuition discriminate.
  - (* V_receive *) destruct Hg as (tp & _ & Hg). apply andb_prop in Hg.
    eapply inv_set_trx; eauto. apply trx_compat_open; trivial; [apply Hg|].
    apply comp_ok_split. split; [apply (comp_ok_split x), (HA _ _ Hx)|]. unfold recv_ok, task_ok. cbn. intuition discriminate.
  - (* V_sctp_start *) destruct Hg as (tp & _ & Hg). apply andb_prop in Hg.
    destruct (open_main _ HI (proj2 Hg)) as [Hm Hc].
    eapply inv_set_sctp; eauto. repeat split; try contradiction. intros s Hh. destruct (head_none _ _ _ Hm Hh).
  - (* V_nego *) destruct (open_main _ HI Hg) as [Hm Hc].
    split; [exact HA|split; [exact HB|split; [exact HC|split; [exact HD|]]]]. intros Hcl. contradiction.
  - (* V_chan *) eapply inv_set_sctp; eauto. apply orb_prop in Hg. split; [reflexivity|split].
    + intros Hcl (Q1 & _). rewrite Q1 in Hg. destruct Hg as [Hg|Hg]; [|discriminate].
      destruct (open_main _ HI Hg). contradiction.
    + intros s Hh. destruct s; cbn [sctp_pc]; auto. intros (Q1 & _). rewrite Q1 in Hg. destruct Hg as [Hg|Hg]; [|discriminate].
      destruct (open_main _ HI Hg) as [Hm _]. destruct (head_none _ _ _ Hm Hh).
  - (* V_sctp_down *) eapply inv_set_sctp; eauto using sctp_compat_closed.
  - (* V_close *) assert (Hm : c_main c = None). { unfold fut_ok in HB. destruct (c_main c); [congruence|reflexivity]. }
    split; [exact HA|split; [reflexivity|split; [|split]]].
    + unfold main_ok. cbn [c_main]. pose proof (plan_valid c HW) as Hv.
      destruct (plan c) as [|o todo] eqn:Ep; [reflexivity|].
      inversion Hv; subst. split; [|assumption]. split; [assumption|]. destruct o; cbn; auto.
    + intros t tp Hn. apply closed_ok_other with c; [|apply HD, Hn]. intros s Hh. destruct (head_none _ _ _ Hm Hh).
    + intros _. split; [reflexivity|]. intros o Ho. left. exact Ho.
  - (* V_close_again *) exact HI.
  - (* V_close_ret *) assert (Hh : head c = None). { unfold head. rewrite Hm. reflexivity. }
    unfold fut_ok in HB. rewrite Hm in HB.
    split; [exact HA|split; [cbn; discriminate|split; [exact I|split]]].
    + intros t tp Hn. apply closed_ok_other with c; [|apply HD, Hn]. intros s. rewrite Hh. discriminate.
    + intros _. destruct HE as [Hs Hp]; [congruence|]. split; [exact Hs|].
      intros o Ho. right. destruct (Hp o Ho) as [Hin|Hpo]; [|exact Hpo].
      unfold todo_of in Hin. rewrite Hm in Hin. destruct Hin.
  - (* V_waiter_ret *) exact HI.
  - (* V_stop_call *) eapply inv_stop_called; eauto.
  - (* V_stop_ret *) eapply inv_pop; eauto.
  - (* V_cancel_recv *) unfold main_ok in HC. rewrite Hm in HC. destruct HC as [[_ Hpc] _]. destruct (Hpc _ Hx) as (P1 & P2 & P3).
    destruct (HA _ _ Hx) as (_ & _ & _ & _ & _ & F3 & _).
    apply (inv_set_sub_other _ id (ORecvStop i) todo SWaitStarted); [|exact Hm|discriminate|].
    + eapply inv_set_trx; eauto. apply compat_set_task; eauto. apply tmove_cancel.
    + intros x0. cbn [c_trx set_trx]. rewrite (nth_error_upd_same _ _ _ _ Hx). intros [= <-].
      cbn. auto using cancelled_cancel.
  - (* V_cancel_rtp *) unfold main_ok in HC. rewrite Hm in HC. destruct HC as [[_ Hpc] _]. specialize (Hpc _ Hx).
    destruct (HA _ _ Hx) as (_ & _ & _ & F1 & _).
    apply (inv_set_sub_other _ id (OSendStop i) todo SWaitStarted); [|exact Hm|discriminate|].
    + eapply inv_set_trx; eauto. apply compat_set_task; eauto. apply tmove_cancel.
    + intros x0. cbn [c_trx set_trx]. rewrite (nth_error_upd_same _ _ _ _ Hx). intros [= <-].
      cbn. auto using cancelled_cancel.
  - (* V_cancel_rtcp *) unfold main_ok in HC. rewrite Hm in HC. destruct HC as [[_ Hpc] _]. destruct (Hpc _ Hx) as [P1 P2].
    destruct (HA _ _ Hx) as (_ & _ & _ & _ & F2 & _).
    apply (inv_set_sub_other _ id (OSendStop i) todo SCancel1); [|exact Hm|discriminate|].
    + eapply inv_set_trx; eauto. apply compat_set_task; eauto. apply tmove_cancel.
    + intros x0. cbn [c_trx set_trx]. rewrite (nth_error_upd_same _ _ _ _ Hx). intros [= <-].
      cbn. auto using cancelled_cancel.
  - (* V_cancel_pump *) apply (inv_set_sub_other _ id (ODtlsStop t) todo SNeedCancel); [|exact Hm|discriminate|exact I].
    eapply inv_set_tp; eauto. unfold tp_compat. cbn. tauto.
  - (* V_ice_conn_closed *) assert (Hcl : i_state tp = IClosed).
    { unfold main_ok in HC. rewrite Hm in HC. destruct HC as [[_ Hp] _]. exact (Hp tp Ht). }
    destruct (HD t tp Ht Hcl) as [Hce _].
    eapply inv_ice_move; eauto.
    + destruct (i_mon tp) eqn:Emon; cbn; rewrite ?Emon; auto; split; auto; discriminate.
    + intros _. split; [exact Hce|right]. cbn. repeat split.
      rewrite (head_set_sub _ id (OIceStop t) todo SIceClosing) by exact Hm.
      destruct (i_mon tp); [left; discriminate|right; reflexivity|left; discriminate].
    + intros (Q1 & Q2 & Q3 & Q4 & Q5). unfold iquiet. cbn. auto.
Qed.
