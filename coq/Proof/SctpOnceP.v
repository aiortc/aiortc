(* C01: at most once on one stream, in every mode.  Over a whole arrival list the messages a stream
   hands over are those of complete runs that use each arriving chunk at most once (the account
   of SctpRecvP.releases); and what a poll leaves in the queue stays in queue order. *)
From Coq Require Import ZArith List Bool Lia.
From AV Require Import Lib.Bytes Gen.Utils Gen.SctpConst Model.SctpRecv Proof.SctpPopP Proof.SctpRecvP Proof.SctpOrderP.
Import ListNotations.
Local Open Scope Z_scope.

Lemma srun_releases : forall cs Q seq out, srun Q seq cs = Some out ->
  exists D, out = map run_msg D /\ Forall complete D /\
    forall x, (cnt (concat D) x <= cnt (Q ++ cs) x)%nat.
Proof.
  induction cs as [|c cs IH]; intros Q seq out H; cbn [srun] in H.
  - injection H as <-. exists []. split; [reflexivity|]. split; [constructor|]. intros x. cbn [concat count_occ]. lia.
  - destruct (add_chunk Q c) as [Q1|] eqn:Ea; [|discriminate].
    destruct (pop_messages_releases Q1 seq) as (D1 & Em1 & Hc1 & Hn1).
    destruct (pop_messages Q1 seq) as [[Q2 seq2] ms]. cbn [fst snd] in Em1, Hn1. subst ms.
    destruct (srun Q2 seq2 cs) as [out2|] eqn:Es; [|discriminate]. injection H as <-.
    destruct (IH _ _ _ Es) as (D2 & -> & Hc2 & Hn2). exists (D1 ++ D2).
    split; [now rewrite map_app|]. split; [now apply Forall_app|].
    intros x. specialize (Hn1 x). specialize (Hn2 x). pose proof (add_chunk_cnt c x _ _ Ea) as Ha.
    revert Hn2 Ha. rewrite concat_app. cnt_norm. lia.
Qed.

Inductive subseq {A} : list A -> list A -> Prop :=
| sub_nil : subseq [] []
| sub_skip x l l' : subseq l l' -> subseq l (x :: l')
| sub_take x l l' : subseq l l' -> subseq (x :: l) (x :: l').

Lemma subseq_refl {A} (l : list A) : subseq l l.
Proof. induction l; [constructor|apply sub_take; assumption]. Qed.
Lemma subseq_app_l {A} (a : list A) : forall l l', subseq l l' -> subseq (a ++ l) (a ++ l').
Proof. induction a; intros; cbn; [assumption|apply sub_take; auto]. Qed.
Lemma subseq_skip_l {A} (m : list A) : forall l l', subseq l l' -> subseq l (m ++ l').
Proof. induction m; intros; cbn; [assumption|apply sub_skip; auto]. Qed.
Lemma subseq_mid {A} (a m : list A) : forall l b, subseq l (a ++ b) -> subseq l (a ++ m ++ b).
Proof.
  induction a as [|x a IH]; intros l b H; cbn [app] in *; [now apply subseq_skip_l|].
  inversion H; subst; [apply sub_skip; now apply IH|apply sub_take; now apply IH].
Qed.

Lemma pops_subseq kept run rest seq res : pops kept run rest seq res ->
  subseq (fst (fst res)) (rev kept ++ rev (run_chunks run) ++ rest).
Proof.
  induction 1 as [kept run rest seq _|kept c rest seq res _ _ _ IH|kept r e c rest seq res _ _ IH
                 |kept run c rest seq r e o res J _ _ IH|kept run c rest seq r e o l s ms J _ _ IH]; cbn [fst run_chunks rev app] in *.
  - unfold retained. destruct run as [[[r e] o]|]; apply subseq_refl.
  - now rewrite <- app_assoc in IH.
  - now rewrite rev_app_distr, <- app_assoc in IH.
  - rewrite (joins_chunks _ _ _ _ _ _ J). now rewrite <- !app_assoc in IH.
  - rewrite (joins_chunks _ _ _ _ _ _ J). change (c :: rest) with ([c] ++ rest). rewrite (app_assoc (rev r)). now apply subseq_mid.
Qed.

Lemma pop_loop_subseq kept run rest seq :
  subseq (fst (fst (pop_loop kept run rest seq))) (rev kept ++ rev (run_chunks run) ++ rest).
Proof. apply pops_subseq with (seq := seq). apply pop_loop_pops. Qed.
