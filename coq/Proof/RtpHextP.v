(* Proofs about Model/Rtp.v, part 2: HeaderExtensionsMap.get (set v) = v. *)
From Coq Require Import ZArith List Bool Lia.
From AV Require Import Lib.Bytes Lib.BytesP Lib.RtpX Gen.RtpConst Model.Rtp Proof.RtpBitsP Proof.RtpP.
Import ListNotations.
Local Open Scope Z_scope.

Ltac Zify.zify_post_hook ::= Z.to_euclidean_division_equations.

(* ================================================================ the id table *)
Inductive kind := Kmid | Krrid | Krid | Kabs | Ktoff | Kaudio | Ktsn.

Definition kind_id (m : ids) (k : kind) : option Z :=
  match k with
  | Kmid => id_mid m | Krrid => id_rrid m | Krid => id_rid m | Kabs => id_abs m
  | Ktoff => id_toffset m | Kaudio => id_audio m | Ktsn => id_tsn m
  end.

(* configured ids are in 1..255 and pairwise distinct *)
Definition ids_ok (m : ids) : Prop :=
  (forall k i, kind_id m k = Some i -> 1 <= i <= 255) /\
  (forall k1 k2 i, kind_id m k1 = Some i -> kind_id m k2 = Some i -> k1 = k2).

Definition present {T} (o : option T) (id : option Z) (P : T -> Prop) : Prop :=
  match o with None => True | Some x => id <> None /\ P x end.

Definition text_ok (valid : bytes -> bool) (s : bytes) : Prop :=
  valid s = true /\ bytes_ok s /\ (length s <= 255)%nat.

(* every value that is present has a configured id and is in its wire range *)
Definition wf_hext (m : ids) (v : hext) : Prop :=
  present (mid v) (id_mid m) (text_ok utf8_valid) /\
  present (rrid v) (id_rrid m) (text_ok ascii_valid) /\
  present (rid v) (id_rid m) (text_ok ascii_valid) /\
  present (abs_send_time v) (id_abs m) (fun x => 0 <= x < 16777216) /\
  present (toffset v) (id_toffset m) (fun x => -8388608 <= x < 8388608) /\
  present (audio_level v) (id_audio m) (fun a => 0 <= snd a < 128) /\
  present (tsn v) (id_tsn m) (fun x => 0 <= x < 65536).

Ltac kinds m :=
  change (id_mid m) with (kind_id m Kmid) in *;
  change (id_rrid m) with (kind_id m Krrid) in *;
  change (id_rid m) with (kind_id m Krid) in *;
  change (id_abs m) with (kind_id m Kabs) in *;
  change (id_toffset m) with (kind_id m Ktoff) in *;
  change (id_audio m) with (kind_id m Kaudio) in *;
  change (id_tsn m) with (kind_id m Ktsn) in *.

(* under a good table, comparing against the id of kind k tests for kind k *)
Definition kind_eqb (a b : kind) : bool :=
  match a, b with
  | Kmid, Kmid | Krrid, Krrid | Krid, Krid | Kabs, Kabs | Ktoff, Ktoff | Kaudio, Kaudio | Ktsn, Ktsn => true
  | _, _ => false
  end.

Lemma ideq_kind m k k' i : ids_ok m -> kind_id m k = Some i -> ideq (kind_id m k') i = kind_eqb k' k.
Proof.
  intros [_ Hd] Hk. destruct (kind_id m k') as [j|] eqn:Ek'; cbn [ideq].
  - destruct (Z.eqb_spec j i) as [->|Hne].
    + rewrite (Hd k' k i Ek' Hk). now destruct k.
    + destruct k', k; try reflexivity; congruence.
  - destruct k', k; try reflexivity; congruence.
Qed.

Lemma idset_ok m k i : ids_ok m -> kind_id m k = Some i -> idset (kind_id m k) = Some i.
Proof.
  intros [Hr _] H. rewrite H. cbn [idset]. specialize (Hr k i H).
  destruct (Z.eqb_spec i 0); [lia|reflexivity].
Qed.

Lemma get_fold_app m b : forall a acc acc',
  get_fold m acc a = Ok acc' -> get_fold m acc (a ++ b) = get_fold m acc' b.
Proof.
  induction a as [|x a IH]; intros acc acc' H; cbn [app get_fold] in *; [congruence|].
  destruct (get_step m acc x); cbn [bind] in *; try discriminate. now apply IH.
Qed.

(* no element comes out of the empty value, whatever the profile *)
Lemma hext_get_nil m profile : hext_get m profile [] = Ok hext_empty.
Proof.
  unfold hext_get, unpack_header_extensions.
  destruct (profile =? 48862); [|destruct (profile =? 4096)]; reflexivity.
Qed.

(* ================================================================ one kind at a time *)
Definition keep {T} (o old : option T) : option T :=
  match o with Some x => Some x | None => old end.

Lemma keep_none {T} (o : option T) : keep o None = o.
Proof. now destruct o. Qed.

(* one optional value: absent, nothing is written and `res` leaves the accumulator as it
   is; present, its element is written under the configured id and get_step decodes it.
   The accumulator is spelled out field by field, so that seven steps chain without
   projections piling up. *)
Lemma el_generic {T} m k (o : option T) (P : T -> Prop) enc res :
  ids_ok m -> present o (kind_id m k) P ->
  (o = None -> forall a u d r s t n, res a u d r s t n = mkHext a u d r s t n) ->
  (forall x i, o = Some x -> P x -> kind_id m k = Some i ->
     exists b, enc x = Ok b /\ bytes_ok b /\ (length b <= 255)%nat /\
               forall a u d r s t n, get_step m (mkHext a u d r s t n) (i, b) = Ok (res a u d r s t n)) ->
  exists e, opt_ext o (kind_id m k) enc = Ok e /\ Forall wf_ext e /\ (length e <= 1)%nat /\
            forall a u d r s t n, get_fold m (mkHext a u d r s t n) e = Ok (res a u d r s t n).
Proof.
  intros Hok Hp Hnone Hsome. destruct o as [x|]; cbn [present] in Hp.
  - destruct Hp as [Hid Hx]. destruct (kind_id m k) as [i|] eqn:Ei; [|congruence].
    destruct (Hsome x i eq_refl Hx eq_refl) as (b & Hb & Hbok & Hbl & Hg).
    assert (Hr := proj1 Hok k i Ei).
    exists [(i, b)]. unfold opt_ext. rewrite <- Ei, (idset_ok m k i Hok Ei), Hb. cbn [bind].
    split; [reflexivity|]. split; [|split; [cbn; lia|]].
    + constructor; [|constructor]. unfold wf_ext. cbn [fst snd]. auto.
    + intros a u d r s t n. cbn [get_fold]. now rewrite Hg.
  - exists []. repeat split; [constructor|cbn; lia|]. intros a u d r s t n. now rewrite (Hnone eq_refl).
Qed.

Lemma el_mid m o :
  ids_ok m -> present o (id_mid m) (text_ok utf8_valid) ->
  exists e, opt_ext o (id_mid m) enc_utf8 = Ok e /\ Forall wf_ext e /\ (length e <= 1)%nat /\
    forall a u d r s t n,
      get_fold m (mkHext a u d r s t n) e = Ok (mkHext a u (keep o d) r s t n).
Proof.
  intros Hok Hp. apply (el_generic m Kmid o _ enc_utf8 _ Hok Hp).
  - intros ->. reflexivity.
  - intros s i -> (Hv & Hb & Hl) Ei. exists s. repeat split; auto.
    intros a u d r s0 t n. unfold get_step. kinds m. rewrite !(ideq_kind m Kmid _ i Hok Ei). cbn [kind_eqb].
    now rewrite Hv.
Qed.

Lemma el_rrid m o :
  ids_ok m -> present o (id_rrid m) (text_ok ascii_valid) ->
  exists e, opt_ext o (id_rrid m) enc_ascii = Ok e /\ Forall wf_ext e /\ (length e <= 1)%nat /\
    forall a u d r s t n,
      get_fold m (mkHext a u d r s t n) e = Ok (mkHext a u d (keep o r) s t n).
Proof.
  intros Hok Hp. apply (el_generic m Krrid o _ enc_ascii _ Hok Hp).
  - intros ->. reflexivity.
  - intros s i -> (Hv & Hb & Hl) Ei. exists s. unfold enc_ascii. rewrite Hv. repeat split; auto.
    intros a u d r s0 t n. unfold get_step. kinds m. rewrite !(ideq_kind m Krrid _ i Hok Ei). cbn [kind_eqb].
    now rewrite Hv.
Qed.

Lemma el_rid m o :
  ids_ok m -> present o (id_rid m) (text_ok ascii_valid) ->
  exists e, opt_ext o (id_rid m) enc_ascii = Ok e /\ Forall wf_ext e /\ (length e <= 1)%nat /\
    forall a u d r s t n,
      get_fold m (mkHext a u d r s t n) e = Ok (mkHext a u d r (keep o s) t n).
Proof.
  intros Hok Hp. apply (el_generic m Krid o _ enc_ascii _ Hok Hp).
  - intros ->. reflexivity.
  - intros s i -> (Hv & Hb & Hl) Ei. exists s. unfold enc_ascii. rewrite Hv. repeat split; auto.
    intros a u d r s0 t n. unfold get_step. kinds m. rewrite !(ideq_kind m Krid _ i Hok Ei). cbn [kind_eqb].
    now rewrite Hv.
Qed.

Lemma el_abs m o :
  ids_ok m -> present o (id_abs m) (fun x => 0 <= x < 16777216) ->
  exists e, opt_ext o (id_abs m) enc_abs = Ok e /\ Forall wf_ext e /\ (length e <= 1)%nat /\
    forall a u d r s t n,
      get_fold m (mkHext a u d r s t n) e = Ok (mkHext (keep o a) u d r s t n).
Proof.
  intros Hok Hp. apply (el_generic m Kabs o _ enc_abs _ Hok Hp).
  - intros ->. reflexivity.
  - intros x i -> Hx Ei. exists (be24 x). unfold enc_abs. rewrite u32ok_intro by lia.
    repeat split; [apply be24_ok|cbn; lia|].
    intros a u d r s0 t n. unfold get_step. kinds m. rewrite !(ideq_kind m Kabs _ i Hok Ei). cbn [kind_eqb andb length be24 Nat.eqb].
    now rewrite <- (app_nil_r (be24 x)), u24_be24 by assumption.
Qed.

Lemma el_toffset m o :
  ids_ok m -> present o (id_toffset m) (fun x => -8388608 <= x < 8388608) ->
  exists e, opt_ext o (id_toffset m) enc_toffset = Ok e /\ Forall wf_ext e /\ (length e <= 1)%nat /\
    forall a u d r s t n,
      get_fold m (mkHext a u d r s t n) e = Ok (mkHext a u d r s (keep o t) n).
Proof.
  intros Hok Hp. apply (el_generic m Ktoff o _ enc_toffset _ Hok Hp).
  - intros ->. reflexivity.
  - intros x i -> Hx Ei. exists (be24 x). unfold enc_toffset.
    rewrite Z.shiftl_mul_pow2, i32ok_intro by lia.
    repeat split; [apply be24_ok|cbn; lia|].
    intros a u d r s0 t n. unfold get_step. kinds m. rewrite !(ideq_kind m Ktoff _ i Hok Ei).
    cbn [kind_eqb andb length be24 Nat.eqb u24 u16 u8 nth_error keep]. do 3 f_equal.
    rewrite be24_value. destruct (Z.ltb_spec (x mod 16777216) 8388608); lia.
Qed.

(* the flag and the level share a byte: 0x80 | level *)
Lemma audio_byte (vad : bool) level :
  0 <= level < 128 ->
  (Z.land (Z.lor (if vad then 128 else 0) (Z.land level 127) mod 256) 128 =? 128) = vad /\
  Z.land (Z.lor (if vad then 128 else 0) (Z.land level 127) mod 256) 127 = level.
Proof.
  intros H. rewrite (land_127 level), (Z.mod_small level) by assumption.
  replace (Z.lor (if vad then 128 else 0) level) with ((if vad then 128 else 0) + level)
    by (destruct vad; [symmetry; apply (lor_add 128 level 7); lia|now rewrite Z.lor_0_l]).
  rewrite Z.mod_small, land_128, land_127 by (destruct vad; lia).
  destruct vad; split; try apply Z.eqb_eq; try apply Z.eqb_neq; lia.
Qed.

Lemma el_audio m o :
  ids_ok m -> present o (id_audio m) (fun a => 0 <= snd a < 128) ->
  exists e, opt_ext o (id_audio m) enc_audio = Ok e /\ Forall wf_ext e /\ (length e <= 1)%nat /\
    forall a u d r s t n,
      get_fold m (mkHext a u d r s t n) e = Ok (mkHext a (keep o u) d r s t n).
Proof.
  intros Hok Hp. apply (el_generic m Kaudio o _ enc_audio _ Hok Hp).
  - intros ->. reflexivity.
  - intros [vad level] i -> Hx Ei. cbn [snd] in Hx. eexists. unfold enc_audio. cbn [fst snd].
    repeat split; [apply be8_ok|cbn; lia|].
    intros a u d r s0 t n. unfold get_step. kinds m. rewrite !(ideq_kind m Kaudio _ i Hok Ei).
    cbn [kind_eqb andb length be8 Nat.eqb u8 nth_error keep].
    destruct (audio_byte vad level Hx) as [-> ->]. reflexivity.
Qed.

Lemma el_tsn m o :
  ids_ok m -> present o (id_tsn m) (fun x => 0 <= x < 65536) ->
  exists e, opt_ext o (id_tsn m) enc_tsn = Ok e /\ Forall wf_ext e /\ (length e <= 1)%nat /\
    forall a u d r s t n,
      get_fold m (mkHext a u d r s t n) e = Ok (mkHext a u d r s t (keep o n)).
Proof.
  intros Hok Hp. apply (el_generic m Ktsn o _ enc_tsn _ Hok Hp).
  - intros ->. reflexivity.
  - intros x i -> Hx Ei. exists (be16 x). unfold enc_tsn. rewrite u16ok_intro by assumption.
    repeat split; [apply be16_ok|cbn; lia|].
    intros a u d r s0 t n. unfold get_step. kinds m. rewrite !(ideq_kind m Ktsn _ i Hok Ei). cbn [kind_eqb andb length be16 Nat.eqb].
    now rewrite <- (app_nil_r (be16 x)), u16_be16 by assumption.
Qed.

(* ================================================================ all seven *)
Theorem hext_elements_get m v :
  ids_ok m -> wf_hext m v ->
  exists xs, hext_elements m v = Ok xs /\ Forall wf_ext xs /\ (length xs <= 7)%nat /\
             get_fold m hext_empty xs = Ok v.
Proof.
  intros Hok (H1 & H2 & H3 & H4 & H5 & H6 & H7).
  destruct (el_mid m _ Hok H1) as (e1 & E1 & W1 & L1 & G1).
  destruct (el_rrid m _ Hok H2) as (e2 & E2 & W2 & L2 & G2).
  destruct (el_rid m _ Hok H3) as (e3 & E3 & W3 & L3 & G3).
  destruct (el_abs m _ Hok H4) as (e4 & E4 & W4 & L4 & G4).
  destruct (el_toffset m _ Hok H5) as (e5 & E5 & W5 & L5 & G5).
  destruct (el_audio m _ Hok H6) as (e6 & E6 & W6 & L6 & G6).
  destruct (el_tsn m _ Hok H7) as (e7 & E7 & W7 & L7 & G7).
  unfold hext_elements. rewrite E1, E2, E3, E4, E5, E6, E7. cbn [bind].
  eexists. split; [reflexivity|]. split.
  { repeat (apply Forall_app; split); assumption. }
  split; [rewrite !app_length; lia|].
  unfold hext_empty.
  rewrite (get_fold_app m _ e1 _ _ (G1 _ _ _ _ _ _ _)), (get_fold_app m _ e2 _ _ (G2 _ _ _ _ _ _ _)),
    (get_fold_app m _ e3 _ _ (G3 _ _ _ _ _ _ _)), (get_fold_app m _ e4 _ _ (G4 _ _ _ _ _ _ _)),
    (get_fold_app m _ e5 _ _ (G5 _ _ _ _ _ _ _)), (get_fold_app m _ e6 _ _ (G6 _ _ _ _ _ _ _)), G7.
  rewrite !keep_none. now destruct v.
Qed.

(* get (set v) = v, through the wire form *)
Theorem hext_get_set m v :
  ids_ok m -> wf_hext m v ->
  exists profile value,
    hext_set m v = Ok (profile, value) /\ hext_get m profile value = Ok v /\
    bytes_ok value /\ len value mod 4 = 0 /\ (length value <= 1802)%nat /\ 0 <= profile < 65536.
Proof.
  (* 257 bytes for each of the seven elements and 3 of padding; the sum written out in
     unary would be dragged through every step *)
  change 1802%nat with (257 * 7 + 3)%nat.
  intros Hok Hwf. destruct (hext_elements_get m v Hok Hwf) as (xs & Hx & Hw & Hl & Hg).
  destruct (hdrext_pack_unpack xs Hw) as (profile & value & Hp & Hu & Hb & Hm & Hlen & _ & _ & _ & Hpr).
  exists profile, value. unfold hext_set, hext_get. rewrite Hx. cbn [bind]. rewrite Hp, Hu. cbn [bind].
  split; [reflexivity|]. split; [exact Hg|]. split; [exact Hb|]. split; [exact Hm|]. clear Hm. split; lia.
Qed.
