(* Proofs about Model/Stats.v (property C18), part 3: the closed-form statements used
   by Props/C18.v. *)
From Coq Require Import ZArith List Bool Lia.
From AV Require Import Lib.Bytes Lib.BytesP Gen.Utils Gen.RtpConst Model.Stats Proof.SerialP Proof.StatsP Proof.StatsRunP.
Import ListNotations.
Local Open Scope Z_scope.

Lemma state_main S rs evs :
  Forall ev_ok evs -> pkts evs <> [] ->
  exists s, stream (fst (run S rs recv0 evs)) = Some s /\ tracks s evs.
Proof.
  intros Hok Hne. pose proof (run_fresh S rs evs recv0 eq_refl Hok) as H.
  destruct (pkts evs); [contradiction|exact H].
Qed.

(* cycles really is 65536 * (number of wraps): the extended number splits uniquely *)
Lemma ext_split s b m la lt :
  est s b m la lt ->
  m = (cycles s + m) mod 65536 /\ cycles s = ((cycles s + m) / 65536) * 65536.
Proof. intros He. destruct (e_cyc He) as [H0 H1]. pose proof (e_m He) as Hm. unfold in16 in Hm. lia. Qed.

Lemma fwd_from_nonneg : forall l m, 0 <= fwd_from m l.
Proof.
  induction l as [|p l IH]; intros m; cbn [fwd_from]; [lia|].
  destruct (uint16_gt (p_seq p) m); [|apply IH].
  specialize (IH (p_seq p)). lia.
Qed.

(* semantic reading: if the wire numbers are the low 16 bits of the sender's true
   numbers ns and every arrival is within half the sequence space of the highest true
   number so far, the forward steps add up to (highest true number - first) *)
Fixpoint within_window (M : Z) (ns : list Z) : Prop :=
  match ns with
  | [] => True
  | n :: ns' => M - 32768 <= n < M + 32768 /\ within_window (Z.max M n) ns'
  end.

Fixpoint max_from (M : Z) (ns : list Z) : Z :=
  match ns with [] => M | n :: ns' => max_from (Z.max M n) ns' end.

Lemma gt_unwrapped n M :
  M - 32768 <= n < M + 32768 ->
  uint16_gt (n mod 65536) (M mod 65536) = (M <? n) /\
  (M < n -> (n mod 65536 - M mod 65536) mod 65536 = n - M).
Proof.
  intros H. rewrite <- Zminus_mod. split; [|lia].
  apply eq_true_iff_eq. rewrite uint16_gt_spec, Z.ltb_lt, <- Zminus_mod; unfold in16; lia.
Qed.

(* the packets whose true number exceeds every earlier true number *)
Fixpoint newmax_from (M : Z) (ns : list Z) (l : list pkt) : list pkt :=
  match ns, l with
  | n :: ns', p :: l' => if M <? n then p :: newmax_from n ns' l' else newmax_from M ns' l'
  | _, _ => []
  end.

Lemma fwd_inorder_unwrapped : forall ns l M,
  map p_seq l = map (fun n => n mod 65536) ns -> within_window M ns ->
  fwd_from (M mod 65536) l = max_from M ns - M /\
  inorder_from (M mod 65536) l = newmax_from M ns l.
Proof.
  induction ns as [|n ns IH]; intros l M Hmap Hw; destruct l as [|p l]; try discriminate.
  - cbn. split; [lia|reflexivity].
  - cbn [map] in Hmap. injection Hmap as Hp Hmap. destruct Hw as [Hn Hw].
    cbn [fwd_from inorder_from max_from newmax_from]. rewrite Hp.
    destruct (gt_unwrapped n M Hn) as [Hgt Hstep]. rewrite Hgt.
    destruct (Z.ltb_spec M n) as [E|E].
    + rewrite Z.max_r in * by lia. destruct (IH l n Hmap Hw) as [IH1 IH2].
      rewrite IH1, IH2, Hstep by exact E. split; [lia|reflexivity].
    + rewrite Z.max_l in * by lia. exact (IH l M Hmap Hw).
Qed.

Lemma upto_prefix evs :
  exists post, evs = upto_last_report evs ++ post /\ has_report post = false.
Proof.
  induction evs as [|e evs (post & IH1 & IH2)]; [exists []; split; reflexivity|].
  cbn [upto_last_report]. destruct (has_report evs) eqn:Hr.
  - exists post. split; [|exact IH2]. cbn [app]. f_equal. exact IH1.
  - destruct e; eexists; (split; [reflexivity|exact Hr]).
Qed.

Definition lsr_ref (S : Z) (pre : list ev) : Z :=
  match last_sr S pre with None => 0 | Some (ntp, _) => mid32 ntp end.

(* delay since the last SR in units of 1/65536 s; clock values are in 2^-20 s *)
Definition dlsr_ref (S : Z) (pre : list ev) (now : Z) : Z :=
  match last_sr S pre with
  | None => 0
  | Some (_, t) => if (0 <? now - t) && (now - t <? 68719476736) then (now - t) / 16 else 0
  end.

Definition report_ref (S : Z) (pre : list ev) (now : Z) : rinfo :=
  let h := pkts pre in
  let hp := pkts (upto_last_report pre) in
  mkInfo S
         (rfc_fraction (expected_ref h - expected_ref hp) (count h - count hp))
         (rtp_clamp_packets_lost (expected_ref h - count h))
         ((first_seq h + fwd h) mod 4294967296)
         (jitter_ref h / 16)
         (lsr_ref S pre) (dlsr_ref S pre now).

Lemma lsr_dlsr_ref S rs pre now :
  lsr_dlsr (fst (run S rs recv0 pre)) now = (lsr_ref S pre, dlsr_ref S pre now).
Proof.
  pose proof (run_lsr S rs pre recv0) as H. cbv zeta in H.
  unfold lsr_dlsr, lsr_ref, dlsr_ref. destruct (last_sr S pre) as [[ntp t]|].
  - destruct H as [H1 H2]. rewrite H1, H2. reflexivity.
  - destruct H as [H1 H2]. rewrite H1. reflexivity.
Qed.

Lemma expected_ref_fwd h : h <> [] -> expected_ref h = fwd h + 1.
Proof. destruct h; [contradiction|reflexivity]. Qed.

Definition report_after (S rs : Z) (pre : list ev) (now : Z) : out :=
  snd (step S rs (fst (run S rs recv0 pre)) (Report now)).

Lemma report_main S rs pre now :
  Forall ev_ok pre -> pkts pre <> [] ->
  report_after S rs pre now = OReport (report_ref S pre now) (rr_bytes rs (report_ref S pre now)).
Proof.
  intros Hok Hne. destruct (state_main S rs pre Hok Hne) as (s & Hs & la & lt & He & Hr & Hc & HJ & Hep & Hrp).
  unfold report_after. cbn [step]. rewrite (report_some S rs _ s _ _ now Hs (e_base He) (e_max He)). cbn [snd].
  replace (report_info S (fst (run S rs recv0 pre)) s (first_seq (pkts pre)) (top (pkts pre)) now)
    with (report_ref S pre now); [reflexivity|].
  unfold report_info, report_ref. cbv zeta. rewrite lsr_dlsr_ref, (expected_ref_fwd _ Hne), Hep, Hrp, Hr, HJ.
  cbn [fst snd]. f_equal; f_equal; lia.
Qed.

Lemma report_none S rs pre now :
  pkts pre = [] -> Forall ev_ok pre ->
  step S rs (fst (run S rs recv0 pre)) (Report now) = (fst (run S rs recv0 pre), ONoReport).
Proof.
  intros Hp Hok. pose proof (run_fresh S rs pre recv0 eq_refl Hok) as H. rewrite Hp in H.
  cbn [step]. unfold report. rewrite H. reflexivity.
Qed.

Lemma report_ref_fits S rs pre now :
  0 <= S < 4294967296 -> 0 <= rs < 4294967296 -> Forall ev_ok pre -> pkts pre <> [] ->
  info_fits (report_ref S pre now) /\
  exists l, rr_bytes rs (report_ref S pre now) = Ok l /\ length l = 32%nat /\ bytes_ok l.
Proof.
  intros HS Hrs Hok Hne.
  destruct (run_good S rs pre recv0 HS Hrs good_recv0 Hok) as [Hg _].
  assert (Hev : ev_ok (Report now)) by exact I.
  destruct (step_good S rs _ (Report now) HS Hrs Hg Hev) as [_ Hfit].
  fold (report_after S rs pre now) in Hfit. rewrite (report_main S rs pre now Hok Hne) in Hfit. exact Hfit.
Qed.

Lemma counts_main S rs evs :
  Forall ev_ok evs -> pkts evs <> [] ->
  let h := pkts evs in
  exists s,
    stream (fst (run S rs recv0 evs)) = Some s /\
    packets_received s = count h /\
    base_seq s = Some (first_seq h) /\
    max_seq s = Some ((first_seq h + fwd h) mod 65536) /\
    cycles s = ((first_seq h + fwd h) / 65536) * 65536 /\
    packets_expected s = Ok (fwd h + 1) /\
    packets_lost s = Ok (rtp_clamp_packets_lost (fwd h + 1 - count h)) /\
    0 <= fwd h.
Proof.
  intros Hok Hne. cbv zeta.
  destruct (state_main S rs evs Hok Hne) as (s & Hs & la & lt & He & Hr & Hc & _).
  destruct (ext_split _ _ _ _ _ He) as [E1 E2]. rewrite Hc in E1, E2.
  exists s. split; [exact Hs|]. split; [exact Hr|]. split; [exact (e_base He)|].
  split; [rewrite (e_max He); f_equal; exact E1|]. split; [exact E2|].
  rewrite (packets_expected_some s _ _ (e_base He) (e_max He)), (packets_lost_some s _ _ (e_base He) (e_max He)), Hr.
  replace (cycles s + top (pkts evs) - first_seq (pkts evs) + 1) with (fwd (pkts evs) + 1) by lia.
  split; [reflexivity|]. split; [reflexivity|].
  destruct (pkts evs) as [|p l]; [contradiction|]. apply fwd_from_nonneg.
Qed.

Lemma fraction_ref_range S pre now :
  Forall ev_ok pre -> pkts pre <> [] -> 0 <= ri_fraction (report_ref S pre now) <= 255.
Proof.
  intros Hok Hne. destruct (state_main S 0 pre Hok Hne) as (s & _ & la & lt & He & Hr & Hc & _ & Hep & Hrp).
  pose proof (fraction_est_range _ _ _ _ _ He) as Hf. rewrite Hep, Hrp, Hr in Hf.
  unfold report_ref. cbv zeta. cbn [ri_fraction]. rewrite (expected_ref_fwd _ Hne).
  replace (fwd (pkts pre) + 1) with (cycles s + top (pkts pre) - first_seq (pkts pre) + 1) by lia.
  exact Hf.
Qed.

Lemma pkts_app a b : pkts (a ++ b) = pkts a ++ pkts b.
Proof.
  induction a as [|e a IH]; [reflexivity|]. destruct e; cbn [app pkts]; rewrite IH; reflexivity.
Qed.

Lemma fwd_from_app : forall l1 m l2,
  fwd_from m (l1 ++ l2) = fwd_from m l1 + fwd_from (top_from m l1) l2.
Proof.
  induction l1 as [|p l1 IH]; intros m l2; cbn [app fwd_from top_from]; [lia|].
  destruct (uint16_gt (p_seq p) m); rewrite IH; lia.
Qed.
