(* C02: no-deadlock invariants of the sender (Model/SctpTx.v) for every input history.
   First the shape of the model's functions, as equations that the proofs about flags
   (here), TSN order (SctpTxLiveP.v), TSN shift (SctpTxShiftP.v) and abandonment (SctpPrP.v)
   all go through; then the flight-size / timer invariant. *)
From Coq Require Import ZArith List Bool Lia.
From AV Require Import Lib.Bytes Gen.Utils Gen.SctpConst Model.SctpTx.
Import ListNotations.
Local Open Scope Z_scope.

Lemma MTU_val : MTU = 1200. Proof. reflexivity. Qed.

Lemma set_flags_book c a b r m n : c_book (set_flags c a b r m n) = c_book c. Proof. reflexivity. Qed.

Definition abandon (c : sc) : sc := set_flags c (c_acked c) true false (c_misses c) (c_sent_count c).

Lemma abandon_chunk_snd fl c sib : snd (abandon_chunk fl c sib) = abandon c. Proof. reflexivity. Qed.

(* mark_back and mark_fwd are one loop: abandon the chunks up to and including the first one
   that satisfies `stop` (B fragment backwards, E fragment forwards) *)
Section MarkUntil.
Variable stop : sc -> bool.
Fixpoint mark_until (fl : Z) (l : list sc) : Z * list sc :=
  match l with
  | [] => (fl, [])
  | c :: l' =>
      let fl1 := fst (abandon_chunk fl c true) in
      if stop c then (fl1, abandon c :: l')
      else let '(fl2, l2) := mark_until fl1 l' in (fl2, abandon c :: l2)
  end.
End MarkUntil.

Lemma mark_back_until : mark_back = mark_until c_first. Proof. reflexivity. Qed.

Lemma mark_fwd_until : forall post fl, mark_fwd fl post = (mark_until c_last fl post, existsb c_last post).
Proof.
  induction post as [|c post IH]; intros fl; cbn [mark_fwd mark_until existsb abandon_chunk fst]; [reflexivity|].
  destruct (c_last c); [reflexivity|]. rewrite IH. cbn [orb].
  destruct (mark_until c_last _ post) as [fl2 post2]. reflexivity.
Qed.

Definition mark_side (stop : sc -> bool) (cur : sc) (fl : Z) (l : list sc) : Z * list sc :=
  if stop cur then (fl, l) else mark_until stop fl l.

Definition pull_side (cur : sc) (post oq : list sc) : list sc * list sc :=
  if c_last cur || existsb c_last post then ([], oq) else pull_unsent oq.

Lemma maybe_abandon_eq fl pre cur post oq now :
  maybe_abandon fl pre cur post oq now =
  if c_abandoned cur || negb (should_abandon cur now) then (c_abandoned cur, fl, pre, cur, post, oq)
  else let '(fl1, pre1) := mark_side c_first cur fl pre in
       let '(fl2, post2) := mark_side c_last cur fl1 post in
       let '(mv, rest) := pull_side cur post oq in
       (true, fl2, pre1, abandon cur, post2 ++ mv, rest).
Proof.
  unfold maybe_abandon, mark_side, pull_side. destruct (c_abandoned cur); [reflexivity|].
  destruct (should_abandon cur now); [|reflexivity]. cbn [negb orb abandon_chunk andb]. rewrite mark_back_until.
  destruct (if c_first cur then (fl, pre) else mark_until c_first fl pre) as [fl1 pre1].
  destruct (c_last cur); cbn [orb]; [now rewrite app_nil_r|].
  rewrite mark_fwd_until. destruct (mark_until c_last fl1 post) as [fl2 post2].
  destruct (existsb c_last post); [now rewrite app_nil_r|]. destruct (pull_unsent oq) as [mv rest]. reflexivity.
Qed.

(* _update_advanced_peer_ack_point: where the scan starts, and the state it leaves *)
Definition adv_start (s : tx) : Z * option (list (Z * Z)) :=
  if uint32_gte (last_sacked s) (adv_ack s) then (last_sacked s, None) else (adv_ack s, fwd_streams s).

Lemma update_adv_eq s :
  update_adv s =
  let r := pop_abandoned (sentq s) (fst (adv_start s)) (snd (adv_start s)) in
  mkTx (cwnd s) (ssthresh s) (flight s) (fr_exit s) (fr_transmit s)
       (match snd r with Some l => Some (snd (fst r), l) | None => fwd_chunk s end) (snd r)
       (last_sacked s) (snd (fst r)) (outq s) (fst (fst r)) (pba s) (t3 s) (pending_tx s).
Proof.
  unfold update_adv, adv_start. destruct (uint32_gte (last_sacked s) (adv_ack s)); cbn [fst snd];
    destruct (pop_abandoned (sentq s) _ _) as [[sq adv] strs]; reflexivity.
Qed.

Lemma last_cons_default {A} : forall (l : list A) x d, List.last (x :: l) d = List.last l x.
Proof.
  induction l as [|y l IH]; intros x d; [reflexivity|].
  change (List.last (x :: y :: l) d) with (List.last (y :: l) d). rewrite !IH. reflexivity.
Qed.

Lemma pop_abandoned_split : forall sq adv strs,
  exists pre, sq = pre ++ fst (fst (pop_abandoned sq adv strs)) /\
    Forall (fun c => c_abandoned c = true) pre /\
    match fst (fst (pop_abandoned sq adv strs)) with c :: _ => c_abandoned c = false | [] => True end /\
    snd (fst (pop_abandoned sq adv strs)) = List.last (map c_tsn pre) adv.
Proof.
  induction sq as [|c sq IH]; intros adv strs; cbn [pop_abandoned].
  - exists []. cbn. auto.
  - destruct (c_abandoned c) eqn:Ea.
    + destruct (IH (c_tsn c) (Some (if c_unord c then match strs with Some l => l | None => [] end
                                     else sset match strs with Some l => l | None => [] end (c_sid c) (c_sseq c))))
        as (pre & E & A & H & L).
      exists (c :: pre). cbn [app map]. split; [now f_equal|]. split; [now constructor|]. split; [exact H|].
      rewrite L. symmetry. apply last_cons_default.
    + exists []. cbn [app fst snd map List.last]. rewrite Ea. auto.
Qed.

(* _transmit: the window it works with, what a pending FORWARD-TSN chunk contributes, and the new
   chunks, sent unless the retransmission loop returned early *)
Definition tx_cw (s : tx) : Z :=
  Z.min (flight s + (if match fr_exit s with Some _ => true | None => false end then 2 * MTU else 4 * MTU)) (cwnd s).
Definition fwd_out (s : tx) : list out := match fwd_chunk s with Some (cum, strs) => [OFwd cum strs] | None => [] end.
Definition fwd_t3 (s : tx) : bool := match fwd_chunk s with Some _ => true | None => t3 s end.
Definition new_side (stop : bool) (oq : list sc) (fl cw : Z) : list sc * list sc * Z * list out :=
  if stop then ([], oq, fl, []) else new_loop oq fl cw.

Lemma transmit_eq s :
  transmit s =
  let '(sq, fl, frt, t3r, stop, outs1) := retx_loop (sentq s) (flight s) (tx_cw s) (fr_transmit s) true false in
  let '(mv, rest, fl2, outs2) := new_side stop (outq s) fl (tx_cw s) in
  (mkTx (cwnd s) (ssthresh s) fl2 (fr_exit s) frt None (fwd_streams s) (last_sacked s) (adv_ack s) rest (sq ++ mv) (pba s)
        (fwd_t3 s || t3r || negb (Nat.eqb (length mv) 0)) (pending_tx s), fwd_out s ++ outs1 ++ outs2).
Proof.
  unfold transmit, fwd_out, fwd_t3, new_side. fold (tx_cw s).
  destruct (retx_loop _ _ _ _ _ _) as [[[[[sq fl] frt] t3r] stop] o1].
  destruct stop.
  - cbn [length Nat.eqb negb]. rewrite !app_nil_r, orb_false_r. destruct (fwd_chunk s) as [[cum strs]|]; reflexivity.
  - destruct (new_loop _ _ _) as [[[mv rest] fl2] o2]. destruct (fwd_chunk s) as [[cum strs]|]; reflexivity.
Qed.

Lemma transmit_frame s :
  let s' := fst (transmit s) in
  cwnd s' = cwnd s /\ last_sacked s' = last_sacked s /\ adv_ack s' = adv_ack s /\ fr_exit s' = fr_exit s /\
  fwd_chunk s' = None /\ pending_tx s' = pending_tx s.
Proof.
  cbv zeta. destruct (transmit s) as [s' o] eqn:E. rewrite transmit_eq in E.
  destruct (retx_loop _ _ _ _ _ _) as [[[[[sq fl] frt] t3r] stop] o1].
  destruct (new_side _ _ _ _) as [[[mv rest] fl2] o2]. injection E as <- _. cbn. auto 6.
Qed.

(* _receive_sack_chunk: cumulative ack, gap blocks, congestion control, then ack point and
   _transmit *)
Definition last_off (cum : Z) (sq1 : list sc) : Z := match sq1 with [] => 0 | _ => tsn_off cum (last_tsn sq1 0) end.

Definition gap_part (oq : list sc) (sq1 : list sc) (fl1 db1 cum : Z) (gaps : list (Z * Z)) (now : Z) :=
  match gaps with
  | [] => (sq1, oq, fl1, db1, false)
  | _ => let last_pos := last_off cum sq1 in
         let hs := highest_seen cum last_pos gaps cum in
         let '(sq2, fl2, db2, htna) := gap_ack sq1 cum last_pos hs gaps fl1 db1 cum in
         let '(sq3, oq3, fl3, loss) := strike (length sq2) [] sq2 oq cum last_pos htna gaps fl2 false now in
         (sq3, oq3, fl3, db2, loss)
  end.

Definition cc_part (s : tx) (cum done db3 : Z) (loss : bool) (sq3 : list sc) :=
  match fr_exit s with
  | None =>
      let '(cw1, pb1) :=
        if negb (Z.eqb done 0) && (cwnd s <=? flight s) then
          if cwnd s <=? ssthresh s then (cwnd s + Z.min db3 MTU, pba s)
          else let pb := pba s + db3 in if cwnd s <=? pb then (cwnd s + MTU, pb - cwnd s) else (cwnd s, pb)
        else (cwnd s, pba s) in
      if loss then
        let ss := Z.max (cw1 / 2) (4 * MTU) in
        (ss, ss, 0, Some (last_tsn sq3 0), true)
      else (cw1, ssthresh s, pb1, None, fr_transmit s)
  | Some e => (cwnd s, ssthresh s, pba s, if uint32_gte cum e then None else Some e, fr_transmit s)
  end.

(* snd (fst _): the new fast-recovery exit point *)
Lemma cc_part_exit s cum done db3 loss sq3 e :
  snd (fst (cc_part s cum done db3 loss sq3)) = Some e -> fr_exit s = Some e \/ e = last_tsn sq3 0.
Proof.
  unfold cc_part. destruct (fr_exit s) as [e0|].
  - cbn [fst snd]. destruct (uint32_gte cum e0); [discriminate|auto].
  - destruct (if negb (done =? 0) && (cwnd s <=? flight s) then _ else _) as [cw1 pb1].
    destruct loss; cbn [fst snd]; [intros [= <-]; now right|discriminate].
Qed.

(* the state handed to _update_advanced_peer_ack_point *)
Definition sacked (s : tx) (cum : Z) (gaps : list (Z * Z)) (now : Z) : tx :=
  let '(sq1, fl1, done, db1) := pop_acked (sentq s) cum (flight s) 0 0 in
  let '(sq3, oq3, fl3, db3, loss) := gap_part (outq s) sq1 fl1 db1 cum gaps now in
  let '(cw, ss, pb, fre, frt) := cc_part s cum done db3 loss sq3 in
  let t3' := match sq3 with [] => false | _ => if Z.eqb done 0 then t3 s else true end in
  mkTx cw ss fl3 fre frt (fwd_chunk s) (fwd_streams s) cum (adv_ack s) oq3 sq3 pb t3' (pending_tx s).

Lemma receive_sack_eq s cum gaps now :
  receive_sack s cum gaps now =
  if sack_ignored s cum then (s, []) else transmit (update_adv (sacked s cum gaps now)).
Proof.
  unfold receive_sack, sacked. destruct (sack_ignored s cum); [reflexivity|].
  destruct (pop_acked (sentq s) cum (flight s) 0 0) as [[[sq1 fl1] done] db1].
  change (match gaps with [] => _ | _ => _ end) with (gap_part (outq s) sq1 fl1 db1 cum gaps now).
  destruct (gap_part (outq s) sq1 fl1 db1 cum gaps now) as [[[[sq3 oq3] fl3] db3] loss].
  change (match fr_exit s with None => _ | Some e => _ end) with (cc_part s cum done db3 loss sq3).
  destruct (cc_part s cum done db3 loss sq3) as [[[[cw ss] pb] fre] frt]. reflexivity.
Qed.

Lemma sacked_frame s cum gaps now :
  let s1 := sacked s cum gaps now in
  last_sacked s1 = cum /\ adv_ack s1 = adv_ack s /\ fwd_chunk s1 = fwd_chunk s /\ pending_tx s1 = pending_tx s.
Proof.
  unfold sacked. destruct (pop_acked _ _ _ _ _) as [[[sq1 fl1] done] db1].
  destruct (gap_part _ _ _ _ _ _ _) as [[[[sq3 oq3] fl3] db3] loss].
  destruct (cc_part _ _ _ _ _ _) as [[[[cw ss] pb] fre] frt]. cbn. auto.
Qed.

Fixpoint unacked (cum : Z) (sq : list sc) : list sc :=
  match sq with
  | c :: sq' => if uint32_gte cum (c_tsn c) then unacked cum sq' else sq
  | [] => []
  end.

Lemma pop_acked_unacked : forall sq cum fl d db, fst (fst (fst (pop_acked sq cum fl d db))) = unacked cum sq.
Proof.
  induction sq as [|c sq IH]; intros cum fl d db; cbn [pop_acked unacked]; [reflexivity|].
  destruct (uint32_gte cum (c_tsn c)); [|reflexivity]. destruct (c_acked c); apply IH.
Qed.

Lemma sacked_nogaps s cum now : sentq (sacked s cum [] now) = unacked cum (sentq s).
Proof.
  unfold sacked, gap_part. pose proof (pop_acked_unacked (sentq s) cum (flight s) 0 0) as E.
  destruct (pop_acked (sentq s) cum (flight s) 0 0) as [[[sq1 fl1] done] db1].
  destruct (cc_part s cum done db1 false sq1) as [[[[cw ss] pb] fre] frt]. exact E.
Qed.

Lemma unacked_suffix cum : forall sq, exists pre, sq = pre ++ unacked cum sq.
Proof.
  induction sq as [|c sq [pre E]]; cbn [unacked]; [now exists []|].
  destruct (uint32_gte cum (c_tsn c)); [|now exists []]. exists (c :: pre). cbn [app]. now f_equal.
Qed.

(* _t3_expired: the marking loop, the ack point, then the window collapses and a _transmit is
   scheduled *)
Definition t3_marked (s : tx) (now : Z) : tx :=
  let '(sq, oq, fl) := t3_mark (length (sentq s)) [] (sentq s) (outq s) (flight s) now in
  mkTx (cwnd s) (ssthresh s) fl (fr_exit s) (fr_transmit s) (fwd_chunk s) (fwd_streams s)
       (last_sacked s) (adv_ack s) oq sq (pba s) false (pending_tx s).

Definition t3_reset (s s1 : tx) : tx :=
  mkTx MTU (Z.max (cwnd s / 2) (4 * MTU)) 0 None (fr_transmit s1) (fwd_chunk s1) (fwd_streams s1)
       (last_sacked s1) (adv_ack s1) (outq s1) (sentq s1) 0 false true.

Lemma t3_marked_frame s now :
  let s0 := t3_marked s now in
  last_sacked s0 = last_sacked s /\ adv_ack s0 = adv_ack s /\ fr_exit s0 = fr_exit s /\ fwd_chunk s0 = fwd_chunk s.
Proof. unfold t3_marked. destruct (t3_mark _ _ _ _ _ _) as [[sq oq] fl]. cbn. auto. Qed.

Lemma t3_expired_eq s now : t3_expired s now = (t3_reset s (update_adv (t3_marked s now)), [OSchedTransmit]).
Proof.
  unfold t3_expired, t3_marked. destruct (t3_mark _ _ _ _ _ _) as [[sq oq] fl]. reflexivity.
Qed.

Lemma run_cons s i is :
  run s (i :: is) = (fst (run (fst (step s i)) is), snd (step s i) :: snd (run (fst (step s i)) is)).
Proof.
  cbn [run]. destruct (step s i) as [s1 e]. cbn [fst snd]. destruct (run s1 is) as [s2 es]. reflexivity.
Qed.

Definition infl (c : sc) : bool := negb (c_acked c) && negb (c_abandoned c) && negb (c_retx c).
Definition w (c : sc) : Z := if infl c then c_book c else 0.
Definition fsum (l : list sc) : Z := fold_right (fun c acc => w c + acc) 0 l.
Definition bok (c : sc) : Prop := 0 <= c_book c.
Definition fresh (c : sc) : Prop := c_acked c = false /\ c_abandoned c = false /\ c_retx c = false.
Definition rxok (c : sc) : Prop := c_retx c = true -> c_abandoned c = false.
Definition abrx (c : sc) : Prop := c_abandoned c = true \/ c_retx c = true.

(* what holds of every chunk of the sent queue, and of the outbound queue *)
Definition sok (c : sc) : Prop := bok c /\ rxok c.
Definition qok (c : sc) : Prop := bok c /\ fresh c.

Lemma fsum_app a b : fsum (a ++ b) = fsum a + fsum b.
Proof. unfold fsum. induction a as [|c a IH]; cbn [app fold_right]; [lia|]. rewrite IH. lia. Qed.
Lemma fsum_cons c a : fsum (c :: a) = w c + fsum a. Proof. reflexivity. Qed.
Lemma fsum_nil : fsum [] = 0. Proof. reflexivity. Qed.
Lemma fsum_rev a : fsum (rev a) = fsum a.
Proof. induction a as [|c a IH]; cbn [rev]; [reflexivity|]. rewrite fsum_app, IH, !fsum_cons, fsum_nil. lia. Qed.
Lemma w_range c : bok c -> 0 <= w c <= c_book c.
Proof. unfold w, bok. destruct (infl c); lia. Qed.
Lemma fsum_nonneg l : Forall sok l -> 0 <= fsum l.
Proof. induction 1 as [|c l [Hc _] Hl IH]; [rewrite fsum_nil; lia|]. rewrite fsum_cons. pose proof (w_range c Hc). lia. Qed.

Lemma w_same_flags c m n : w (set_flags c (c_acked c) (c_abandoned c) (c_retx c) m n) = w c.
Proof. reflexivity. Qed.

Lemma w_abrx c : abrx c -> w c = 0.
Proof. unfold w, infl. intros [H|H]; rewrite H; now rewrite andb_false_r. Qed.
Lemma fsum_abrx l : Forall abrx l -> fsum l = 0.
Proof. induction 1 as [|c l Hc Hl IH]; [reflexivity|]. rewrite fsum_cons, IH, (w_abrx c Hc). reflexivity. Qed.

Lemma sok_set_flags c a b r m n : bok c -> (r = true -> b = false) -> sok (set_flags c a b r m n).
Proof. intros Hb Hr. split; [exact Hb|exact Hr]. Qed.
Lemma qok_sok c : qok c -> sok c.
Proof. intros (Hb & _ & Ha & _). split; [exact Hb|intros _; exact Ha]. Qed.

Lemma abrx_abandon c : abrx (abandon c). Proof. left. reflexivity. Qed.
Lemma sok_abandon c : bok c -> sok (abandon c).
Proof. intros Hb. apply sok_set_flags; [exact Hb|discriminate]. Qed.

Lemma abandon_sibling fl c : 0 <= fl -> fst (abandon_chunk fl c true) = Z.max 0 (fl - w c).
Proof.
  intros Hfl.
  assert (E : fst (abandon_chunk fl c true) = if infl c then dec fl c else fl)
    by (unfold abandon_chunk, infl; cbn [fst andb]; destruct (c_abandoned c), (c_acked c); reflexivity).
  rewrite E. unfold w, dec. destruct (infl c); lia.
Qed.

Definition keeps : list sc -> list sc -> Prop := Forall2 (fun c c' => abrx c -> abrx c').

Lemma keeps_refl l : keeps l l.
Proof. induction l; constructor; auto. Qed.
Lemma keeps_length l l' : keeps l l' -> length l = length l'.
Proof. induction 1; cbn [length]; congruence. Qed.
Lemma keeps_abrx l l' : keeps l l' -> Forall abrx l -> Forall abrx l'.
Proof. induction 1 as [|x y l l' Hxy Hl IH]; intros Ha; inversion Ha; subst; constructor; auto. Qed.

(* a region of the queue processed by a marking loop: flight may only lose what the region loses *)
Definition mark_ok (fl : Z) (l : list sc) (fl' : Z) (l' : list sc) : Prop :=
  0 <= fl' /\ fl' <= Z.max 0 (fl - (fsum l - fsum l')) /\ fsum l' <= fsum l /\
  Forall bok l' /\ Forall rxok l' /\ length l' = length l /\
  (forall P : sc -> Prop, (forall c, abrx c -> P c) -> Forall (fun c => abrx c \/ P c) l -> Forall (fun c => abrx c \/ P c) l').

Lemma mark_until_ok stop : forall l fl, Forall sok l -> 0 <= fl ->
  let '(fl', l') := mark_until stop fl l in
  fl' = Z.max 0 (fl - (fsum l - fsum l')) /\ fsum l' <= fsum l /\ Forall sok l' /\ keeps l l'.
Proof.
  induction l as [|c l IH]; intros fl Hs Hfl; cbn [mark_until].
  - rewrite fsum_nil. repeat split; try lia; constructor.
  - inversion Hs as [|? ? [Hb _] Hs']; subst. rewrite abandon_sibling by exact Hfl.
    pose proof (w_range c Hb) as Hw. pose proof (w_abrx _ (abrx_abandon c)) as W1.
    pose proof (sok_abandon c Hb) as S1. pose proof (abrx_abandon c) as A1.
    destruct (stop c).
    + rewrite !fsum_cons, W1. repeat split; try lia; constructor; auto; apply keeps_refl.
    + specialize (IH (Z.max 0 (fl - w c)) Hs' ltac:(lia)).
      destruct (mark_until stop (Z.max 0 (fl - w c)) l) as [fl2 l2]. destruct IH as (I1 & I2 & I3 & I4).
      rewrite !fsum_cons, W1. repeat split; try lia; constructor; auto.
Qed.

Lemma mark_side_ok stop cur l fl : Forall sok l -> 0 <= fl ->
  let '(fl', l') := mark_side stop cur fl l in
  fl' = Z.max 0 (fl - (fsum l - fsum l')) /\ fsum l' <= fsum l /\ Forall sok l' /\ keeps l l'.
Proof.
  intros Hs Hfl. unfold mark_side. destruct (stop cur); [|now apply mark_until_ok].
  repeat split; try lia; auto using keeps_refl.
Qed.

Lemma pull_unsent_ok : forall oq, Forall qok oq ->
  let '(mv, rest) := pull_unsent oq in Forall sok mv /\ Forall abrx mv /\ Forall qok rest.
Proof.
  induction oq as [|c oq IH]; intros Hq; cbn [pull_unsent].
  - repeat split; constructor.
  - inversion Hq as [|? ? [Hb _] Hq']; subst. rewrite abandon_chunk_snd.
    pose proof (sok_abandon c Hb) as S1. pose proof (abrx_abandon c) as A1.
    destruct (c_last c); [repeat split; auto|].
    specialize (IH Hq'). destruct (pull_unsent oq) as [mv rest]. destruct IH as (I1 & I2 & I3). repeat split; auto.
Qed.

Lemma pull_side_ok cur post oq : Forall qok oq ->
  let '(mv, rest) := pull_side cur post oq in Forall sok mv /\ Forall abrx mv /\ Forall qok rest.
Proof. intros Ho. unfold pull_side. destruct (c_last cur || existsb c_last post); [auto|now apply pull_unsent_ok]. Qed.

Lemma maybe_abandon_ok fl pre cur post oq now :
  Forall sok pre -> sok cur -> Forall sok post -> Forall qok oq -> 0 <= fl ->
  let '(ab, fl', pre', cur', post', oq') := maybe_abandon fl pre cur post oq now in
  fl' = Z.max 0 (fl - ((fsum pre + fsum post) - (fsum pre' + fsum post'))) /\
  fsum pre' + fsum post' <= fsum pre + fsum post /\
  Forall sok pre' /\ sok cur' /\ Forall sok post' /\ Forall qok oq' /\ c_book cur' = c_book cur /\
  (if ab then c_abandoned cur' = true /\ c_retx cur' = false else cur' = cur /\ c_abandoned cur = false) /\
  (Forall abrx pre -> Forall abrx pre') /\
  exists post2 mv, post' = post2 ++ mv /\ keeps post post2 /\ Forall abrx mv.
Proof.
  intros Hp Hc Hq Ho Hfl. rewrite maybe_abandon_eq.
  assert (Hsame : exists post2 mv, post = post2 ++ mv /\ keeps post post2 /\ Forall abrx mv).
  { exists post, []. rewrite app_nil_r. auto using keeps_refl. }
  destruct (c_abandoned cur) eqn:Ea; cbn [orb].
  { assert (c_retx cur = false) by (destruct (c_retx cur) eqn:Er; [apply Hc in Er; congruence|reflexivity]).
    repeat split; auto; try lia; apply Hc. }
  destruct (negb (should_abandon cur now)); [repeat split; auto; try lia; apply Hc|].
  pose proof (mark_side_ok c_first cur pre fl Hp Hfl) as Hb. destruct (mark_side c_first cur fl pre) as [fl1 pre1].
  destruct Hb as (B1 & B2 & B3 & B4).
  pose proof (mark_side_ok c_last cur post fl1 Hq ltac:(lia)) as Hf. destruct (mark_side c_last cur fl1 post) as [fl2 post2].
  destruct Hf as (F1 & F2 & F3 & F4).
  pose proof (pull_side_ok cur post oq Ho) as Hu. destruct (pull_side cur post oq) as [mv rest]. destruct Hu as (U1 & U2 & U3).
  rewrite fsum_app, (fsum_abrx mv U2). destruct Hc as [Hcb _].
  repeat split; auto; try lia; try discriminate.
  - apply Forall_app. auto.
  - now apply keeps_abrx.
  - exists post2, mv. auto.
Qed.

Lemma unzip_ok pre post : Forall sok pre -> Forall sok post ->
  fsum (rev pre ++ post) = fsum pre + fsum post /\ Forall sok (rev pre ++ post) /\
  (Forall abrx pre -> Forall abrx post -> Forall abrx (rev pre ++ post)).
Proof.
  intros Hp Hq. rewrite fsum_app, fsum_rev. split; [reflexivity|].
  split; [apply Forall_app; split; [now apply Forall_rev|exact Hq]|].
  intros A B. apply Forall_app. split; [now apply Forall_rev|exact B].
Qed.

Lemma strike_ok : forall n pre post oq cum last_pos htna gaps fl loss now,
  Forall sok pre -> Forall sok post -> Forall qok oq -> 0 <= fl <= fsum pre + fsum post ->
  let '(sq, oq', fl', loss') := strike n pre post oq cum last_pos htna gaps fl loss now in
  0 <= fl' <= fsum sq /\ fl' <= fl /\ Forall sok sq /\ Forall qok oq' /\
  (Forall abrx pre -> Forall abrx post -> Forall abrx sq).
Proof.
  induction n as [|n IH]; intros pre post oq cum last_pos htna gaps fl loss now Hp Hq Ho Hfl;
    pose proof (unzip_ok pre post Hp Hq) as (Z1 & Z2 & Z3); cbn [strike].
  { repeat split; auto; lia. }
  destruct post as [|c post']; [repeat split; auto; lia|].
  destruct (uint32_gt (c_tsn c) htna); [repeat split; auto; lia|].
  inversion Hq as [|? ? Hc Hq']; subst. rewrite fsum_cons in Hfl. pose proof Hc as [Hcb Hcr]. pose proof (w_range c Hcb) as Hw.
  (* every branch goes on with a zipper that meets the hypotheses again *)
  assert (Hstep : forall c' pre' post2 oq2 fl2 loss2,
            sok c' -> Forall sok pre' -> Forall sok post2 -> Forall qok oq2 ->
            0 <= fl2 <= fsum (c' :: pre') + fsum post2 -> fl2 <= fl ->
            (Forall abrx pre -> abrx c -> Forall abrx post' -> abrx c' /\ Forall abrx pre' /\ Forall abrx post2) ->
            let '(sq, oq', fl', loss') := strike n (c' :: pre') post2 oq2 cum last_pos htna gaps fl2 loss2 now in
            0 <= fl' <= fsum sq /\ fl' <= fl /\ Forall sok sq /\ Forall qok oq' /\
            (Forall abrx pre -> Forall abrx (c :: post') -> Forall abrx sq)).
  { intros c' pre' post2 oq2 fl2 loss2 Sc Sp Sq So Hfl2 Hle Hab.
    specialize (IH (c' :: pre') post2 oq2 cum last_pos htna gaps fl2 loss2 now (Forall_cons c' Sc Sp) Sq So Hfl2).
    destruct (strike n (c' :: pre') post2 oq2 cum last_pos htna gaps fl2 loss2 now) as [[[sq oq'] fl'] loss'].
    destruct IH as (I1 & I2 & I3 & I4 & I5). split; [exact I1|]. split; [lia|]. split; [exact I3|]. split; [exact I4|].
    intros A B. inversion B as [|? ? Bc Bp]; subst. destruct (Hab A Bc Bp) as (X1 & X2 & X3). apply I5; [constructor|]; assumption. }
  destruct (negb (in_gaps gaps last_pos (tsn_off cum (c_tsn c)))).
  - destruct (c_misses c + 1 =? 3).
    + set (c0 := set_flags c (c_acked c) (c_abandoned c) (c_retx c) 0 (c_sent_count c)).
      pose proof (maybe_abandon_ok fl pre c0 post' oq now Hp Hc Hq' Ho ltac:(lia)) as Hm.
      destruct (maybe_abandon fl pre c0 post' oq now) as [[[[[ab fl1] pre1] c1] post1] oq1].
      destruct Hm as (M1 & M2 & M3 & M4 & M5 & M6 & M7 & M8 & M9 & post2 & mv & M10 & M11 & M12).
      set (c2 := set_flags c1 false (c_abandoned c1) (if ab then c_retx c1 else true) (c_misses c1) (c_sent_count c1)).
      (* either way the struck chunk is out of flight: abandoned, or marked for retransmission *)
      assert (H2 : sok c2 /\ abrx c2).
      { destruct M4 as [M4 _]. destruct ab.
        - destruct M8 as [A R]. split; [apply sok_set_flags; [exact M4|now rewrite R]|now left].
        - destruct M8 as [-> A]. split; [apply sok_set_flags; [exact M4|intros _; exact A]|now right]. }
      destruct H2 as [S2 A2]. pose proof (fsum_nonneg _ M3). pose proof (fsum_nonneg _ M5).
      assert (Eb : c_book c2 = c_book c) by exact M7. unfold bok in Hcb.
      apply Hstep; [exact S2|exact M3|exact M5|exact M6| | |].
      * unfold dec. rewrite fsum_cons, (w_abrx c2 A2), Eb. lia.
      * unfold dec. rewrite Eb. lia.
      * intros A _ Bp. split; [exact A2|]. split; [now apply M9|]. rewrite M10. apply Forall_app.
        split; [now apply (keeps_abrx post')|exact M12].
    + apply Hstep; auto; rewrite ?fsum_cons, ?w_same_flags; lia.
  - apply Hstep; auto; rewrite ?fsum_cons; lia.
Qed.

(* todo = chunks of the snapshot still to visit; everything behind them was appended by
   _maybe_abandon (abandoned unsent fragments) *)
Lemma t3_mark_ok : forall n todo pre done oq fl now, length todo = n ->
  Forall sok pre -> Forall sok (todo ++ done) -> Forall qok oq -> 0 <= fl -> Forall abrx pre -> Forall abrx done ->
  let '(sq, oq', fl') := t3_mark n pre (todo ++ done) oq fl now in
  Forall sok sq /\ Forall qok oq' /\ Forall abrx sq.
Proof.
  induction n as [|n IH]; intros todo pre done oq fl now Hn Hp Hq Ho Hfl Ha Hd; cbn [t3_mark].
  - destruct todo; [|discriminate]. destruct (unzip_ok pre done Hp Hq) as (_ & Z2 & Z3). auto.
  - destruct todo as [|c todo]; [discriminate|]. injection Hn as Hn. cbn [app]. inversion Hq as [|? ? Hc Hq']; subst.
    pose proof (maybe_abandon_ok fl pre c (todo ++ done) oq now Hp Hc Hq' Ho Hfl) as Hm.
    destruct (maybe_abandon fl pre c (todo ++ done) oq now) as [[[[[ab fl1] pre1] c1] post1] oq1].
    destruct Hm as (M1 & M2 & M3 & M4 & M5 & M6 & M7 & M8 & M9 & post2 & mv & -> & M11 & M12).
    set (c2 := if ab then c1 else set_flags c1 (c_acked c1) (c_abandoned c1) true (c_misses c1) (c_sent_count c1)).
    assert (H2 : sok c2 /\ abrx c2).
    { unfold c2. destruct ab; [split; [exact M4|left; apply M8]|].
      destruct M8 as [-> A]. split; [apply sok_set_flags; [apply Hc|intros _; exact A]|now right]. }
    destruct H2 as [S2 A2].
    apply Forall2_app_inv_l in M11 as (todo2 & done2 & T1 & T2 & ->).
    rewrite <- app_assoc in M5 |- *.
    apply IH; auto; try lia; [symmetry; apply (keeps_length _ _ T1)|].
    apply Forall_app. split; [now apply (keeps_abrx done)|exact M12].
Qed.

Lemma t3_marked_ok s now : Forall sok (sentq s) -> Forall qok (outq s) -> 0 <= flight s ->
  let s0 := t3_marked s now in Forall sok (sentq s0) /\ Forall qok (outq s0) /\ Forall abrx (sentq s0).
Proof.
  intros Hs Ho Hfl. unfold t3_marked.
  pose proof (t3_mark_ok (length (sentq s)) (sentq s) [] [] (outq s) (flight s) now eq_refl (Forall_nil _)) as Hm.
  rewrite app_nil_r in Hm. specialize (Hm Hs Ho Hfl (Forall_nil _) (Forall_nil _)).
  destruct (t3_mark (length (sentq s)) [] (sentq s) (outq s) (flight s) now) as [[sq oq] fl]. exact Hm.
Qed.

Lemma Forall_unacked (P : sc -> Prop) cum sq : Forall P sq -> Forall P (unacked cum sq).
Proof. destruct (unacked_suffix cum sq) as [pre E]. rewrite E at 1. intros H. now apply Forall_app in H. Qed.

Lemma pop_acked_ok : forall sq cum fl d db, Forall sok sq -> 0 <= fl <= fsum sq ->
  let '(sq', fl', d', db') := pop_acked sq cum fl d db in 0 <= fl' <= fsum sq' /\ fl' <= fl /\ db <= db'.
Proof.
  induction sq as [|c sq IH]; intros cum fl d db Hs Hfl; cbn [pop_acked]; [lia|].
  inversion Hs as [|? ? [Hc _] Hs']; subst.
  rewrite fsum_cons in Hfl. pose proof (w_range c Hc) as Hw. pose proof (fsum_nonneg _ Hs') as Hn. unfold bok in Hc.
  destruct (uint32_gte cum (c_tsn c)); [|rewrite fsum_cons; lia].
  destruct (c_acked c) eqn:Ea.
  - assert (w c = 0) by (unfold w, infl; now rewrite Ea).
    specialize (IH cum fl (d + 1) db Hs' ltac:(lia)). destruct (pop_acked sq cum fl (d + 1) db) as [[[sq' fl'] d'] db']. lia.
  - specialize (IH cum (dec fl c) (d + 1) (db + c_book c) Hs' ltac:(unfold dec; lia)).
    destruct (pop_acked sq cum (dec fl c) (d + 1) (db + c_book c)) as [[[sq' fl'] d'] db']. unfold dec in IH. lia.
Qed.

Lemma gap_ack_ok : forall sq cum last_pos hs gaps fl db h K, Forall sok sq -> 0 <= K -> 0 <= fl <= K + fsum sq ->
  let '(sq', fl', db', h') := gap_ack sq cum last_pos hs gaps fl db h in
  0 <= fl' <= K + fsum sq' /\ fl' <= fl /\ Forall sok sq' /\ keeps sq sq' /\ db <= db'.
Proof.
  induction sq as [|c sq IH]; intros cum last_pos hs gaps fl db h K Hs HK Hfl; cbn [gap_ack].
  - repeat split; auto; try lia. constructor.
  - inversion Hs as [|? ? Hc Hs']; subst. pose proof Hc as [Hcb Hcr].
    rewrite fsum_cons in Hfl. pose proof (w_range c Hcb) as Hw. pose proof (fsum_nonneg _ Hs') as Hn. unfold bok in Hcb.
    destruct (uint32_gt (c_tsn c) hs); [rewrite fsum_cons; repeat split; auto using keeps_refl; lia|].
    destruct (in_gaps gaps last_pos (tsn_off cum (c_tsn c)) && negb (c_acked c)).
    + set (c1 := set_flags c true (c_abandoned c) (c_retx c) (c_misses c) (c_sent_count c)).
      specialize (IH cum last_pos hs gaps (dec fl c) (db + c_book c) (c_tsn c) K Hs' HK ltac:(unfold dec; lia)).
      destruct (gap_ack sq cum last_pos hs gaps (dec fl c) (db + c_book c) (c_tsn c)) as [[[sq' fl'] db'] h'].
      destruct IH as (I1 & I2 & I3 & I4 & I5). rewrite fsum_cons. change (w c1) with 0. unfold dec in I2.
      repeat split; try lia; try (constructor; auto).
    + specialize (IH cum last_pos hs gaps fl db h (K + w c) Hs' ltac:(lia) ltac:(lia)).
      destruct (gap_ack sq cum last_pos hs gaps fl db h) as [[[sq' fl'] db'] h'].
      destruct IH as (I1 & I2 & I3 & I4 & I5). rewrite fsum_cons.
      repeat split; try lia; try (constructor; auto).
Qed.

Lemma retx_loop_ok : forall sq fl cw frt earliest t3r, Forall sok sq ->
  let '(sq', fl', frt', t3r', stop, outs) := retx_loop sq fl cw frt earliest t3r in
  fl' - fl = fsum sq' - fsum sq /\ fl <= fl' /\ Forall sok sq' /\ length sq' = length sq /\
  (t3r = true -> t3r' = true) /\ (stop = true -> sq' <> []) /\
  (earliest = true -> match sq with c :: _ => c_retx c = true -> (frt = true \/ fl < cw) -> t3r' = true | [] => True end).
Proof.
  induction sq as [|c sq IH]; intros fl cw frt earliest t3r Hs; cbn [retx_loop].
  - repeat split; auto; try lia; discriminate.
  - inversion Hs as [|? ? Hc Hs']; subst. pose proof Hc as [Hcb Hcr].
    destruct (c_retx c) eqn:Er.
    + destruct (negb frt && (cw <=? fl)) eqn:Estop.
      * repeat split; auto; try lia; try discriminate.
        intros _ _ [F|F]; [subst; discriminate|]. apply andb_true_iff in Estop as [_ E]. apply Z.leb_le in E. lia.
      * set (c1 := set_flags c false (c_abandoned c) false 0 (c_sent_count c + 1)).
        assert (Hw1 : w c1 = c_book c) by (unfold w, infl, c1, set_flags; cbn; now rewrite (Hcr Er)).
        specialize (IH (fl + c_book c) cw false false (t3r || earliest) Hs').
        destruct (retx_loop sq (fl + c_book c) cw false false (t3r || earliest)) as [[[[[sq' fl'] frt'] t3r'] stop] outs].
        destruct IH as (I1 & I2 & I3 & I4 & I5 & I6 & _).
        unfold bok in Hcb. rewrite !fsum_cons, Hw1, (w_abrx c (or_intror Er)).
        repeat split; auto; try lia; try discriminate.
        -- constructor; [apply sok_set_flags; [exact Hcb|discriminate]|exact I3].
        -- cbn [length]. lia.
        -- intros ->. apply I5. reflexivity.
        -- intros -> _ _. apply I5. apply orb_true_r.
    + specialize (IH fl cw frt false t3r Hs').
      destruct (retx_loop sq fl cw frt false t3r) as [[[[[sq' fl'] frt'] t3r'] stop] outs].
      destruct IH as (I1 & I2 & I3 & I4 & I5 & I6 & _).
      rewrite !fsum_cons. repeat split; auto; try lia; try discriminate; try apply I3. cbn [length]. lia.
Qed.

Lemma new_loop_ok : forall oq fl cw, Forall qok oq ->
  let '(mv, rest, fl', outs) := new_loop oq fl cw in
  fl' = fl + fsum mv /\ Forall sok mv /\ Forall qok rest /\ (rest <> [] -> cw <= fl').
Proof.
  induction oq as [|c oq IH]; intros fl cw Hq; cbn [new_loop].
  - rewrite fsum_nil. repeat split; auto; try lia. congruence.
  - inversion Hq as [|? ? Hc Hq']; subst.
    destruct (Z.ltb_spec fl cw) as [Hlt|Hge]; [|rewrite fsum_nil; repeat split; auto; lia].
    set (c1 := set_flags c (c_acked c) (c_abandoned c) (c_retx c) (c_misses c) (c_sent_count c + 1)).
    specialize (IH (fl + c_book c) cw Hq'). destruct (new_loop oq (fl + c_book c) cw) as [[[mv rest] fl'] outs].
    destruct IH as (I1 & I2 & I3 & I4). pose proof (qok_sok c Hc) as S1. destruct Hc as (_ & F1 & F2 & F3).
    rewrite fsum_cons. change (w c1) with (w c). unfold w, infl. rewrite F1, F2, F3. cbn [negb andb].
    repeat split; auto; lia.
Qed.

Lemma new_side_ok stop oq fl cw : Forall qok oq ->
  let '(mv, rest, fl', outs) := new_side stop oq fl cw in
  fl' = fl + fsum mv /\ Forall sok mv /\ Forall qok rest /\ (stop = false -> rest <> [] -> cw <= fl').
Proof.
  intros Hq. unfold new_side. destruct stop; [rewrite fsum_nil; repeat split; auto; try lia; discriminate|].
  pose proof (new_loop_ok oq fl cw Hq) as H. destruct (new_loop oq fl cw) as [[[mv rest] fl'] outs].
  destruct H as (H1 & H2 & H3 & H4). repeat split; auto; apply H2.
Qed.

Definition head_live (l : list sc) : Prop := match l with c :: _ => c_abandoned c = false | [] => True end.

Record inv (s : tx) : Prop := mkInv {
  i_bo : Forall bok (outq s);
  i_fo : Forall fresh (outq s);
  i_bs : Forall bok (sentq s);
  i_rs : Forall rxok (sentq s);
  i_cw : MTU <= cwnd s;
  i_fl : 0 <= flight s <= fsum (sentq s);
  i_t3 : sentq s <> [] -> t3 s = true \/
         (pending_tx s = true /\ flight s = 0 /\ Forall abrx (sentq s) /\ head_live (sentq s));
  i_oq : outq s <> [] -> sentq s <> [] \/ pending_tx s = true
}.

(* what _transmit needs of the queues and the window *)
Record tpre (s : tx) : Prop := mkTpre {
  p_o : Forall qok (outq s); p_s : Forall sok (sentq s);
  p_cw : MTU <= cwnd s; p_fl : 0 <= flight s <= fsum (sentq s)
}.

(* T3 is armed, or nothing is in flight and the head of the sent queue waits for retransmission,
   so that the next _transmit sends it and arms T3 *)
Definition armed (s : tx) : Prop :=
  sentq s <> [] -> t3 s = true \/ (flight s = 0 /\ Forall abrx (sentq s) /\ head_live (sentq s)).

Lemma inv_tpre s : inv s -> tpre s /\ armed s.
Proof.
  intros [A B C D E F G H]. split; [constructor; [exact (Forall_and A B)|exact (Forall_and C D)|exact E|exact F]|].
  intros Hne. destruct (G Hne) as [X|(_ & X)]; auto.
Qed.

Lemma tpre_inv s : tpre s -> (sentq s <> [] -> t3 s = true) -> (outq s <> [] -> sentq s <> []) -> inv s.
Proof.
  intros [Ho Hs Hcw Hfl] H3 Hq. apply Forall_and_inv in Ho as [A B]. apply Forall_and_inv in Hs as [C D].
  constructor; auto.
Qed.

Lemma transmit_ok s : tpre s -> armed s ->
  let s' := fst (transmit s) in
  tpre s' /\ (sentq s' <> [] -> t3 s' = true) /\ (outq s' <> [] -> sentq s' <> []).
Proof.
  intros [Ho Hs Hcw Hfl] Ha. cbv zeta. destruct (transmit s) as [s' o] eqn:E. rewrite transmit_eq in E. cbn [fst].
  assert (Hcwpos : MTU <= tx_cw s).
  { unfold tx_cw. rewrite MTU_val in *. destruct (match fr_exit s with Some _ => true | None => false end); lia. }
  pose proof (retx_loop_ok (sentq s) (flight s) (tx_cw s) (fr_transmit s) true false Hs) as Hr.
  destruct (retx_loop (sentq s) (flight s) (tx_cw s) (fr_transmit s) true false) as [[[[[sq fl] frt] t3r] stop] outs1].
  destruct Hr as (R1 & R2 & R3 & R4 & _ & R6 & R7). specialize (R7 eq_refl).
  (* an outstanding queue had T3 armed, or its head is retransmitted now *)
  assert (Hold : sentq s <> [] -> fwd_t3 s || t3r = true).
  { intros Hne. destruct (Ha Hne) as [X|(F0 & A & L)]; [unfold fwd_t3; rewrite X; now destruct (fwd_chunk s)|].
    destruct (sentq s) as [|c rest]; [congruence|]. inversion A as [|? ? [Ac|Ac] _]; subst; [cbn in L; congruence|].
    rewrite R7; [apply orb_true_r|exact Ac|]. right. rewrite MTU_val in *. lia. }
  assert (Hsq : sq = [] <-> sentq s = []) by (destruct sq, (sentq s); cbn in R4; split; congruence).
  pose proof (new_side_ok stop (outq s) fl (tx_cw s) Ho) as Hn.
  destruct (new_side stop (outq s) fl (tx_cw s)) as [[[mv rest] fl2] outs2]. destruct Hn as (N1 & N2 & N3 & N4).
  pose proof (fsum_nonneg _ N2) as Hmv. injection E as <- _.
  split; [constructor; cbn [outq sentq cwnd flight]; auto; [now apply Forall_app|rewrite fsum_app; lia]|]. cbn [sentq outq t3].
  split.
  - intros Hne. destruct (sentq s) eqn:Es; [|rewrite Hold by discriminate; reflexivity].
    rewrite (proj2 Hsq eq_refl) in Hne. destruct mv; [now cbn in Hne|]. apply orb_true_r.
  - intros Hrest E. apply app_eq_nil in E as [-> ->]. destruct stop; [now apply R6|].
    rewrite (proj1 Hsq eq_refl) in Hfl, R1. rewrite fsum_nil in *. specialize (N4 eq_refl Hrest). rewrite MTU_val in *. lia.
Qed.

Lemma transmit_inv s : tpre s -> armed s -> inv (fst (transmit s)).
Proof. intros Hp Ha. destruct (transmit_ok s Hp Ha) as (P & T & Q). now apply tpre_inv. Qed.

Lemma update_adv_ok s : Forall sok (sentq s) ->
  let s' := update_adv s in
  cwnd s' = cwnd s /\ flight s' = flight s /\ outq s' = outq s /\ t3 s' = t3 s /\
  Forall sok (sentq s') /\ fsum (sentq s') = fsum (sentq s) /\ head_live (sentq s') /\
  (Forall abrx (sentq s) -> Forall abrx (sentq s')) /\ (sentq s' <> [] -> sentq s <> []).
Proof.
  intros Hs. rewrite update_adv_eq. cbn [cwnd flight outq t3 sentq].
  destruct (pop_abandoned_split (sentq s) (fst (adv_start s)) (snd (adv_start s))) as (pre & E & A & H & _).
  destruct (pop_abandoned (sentq s) _ _) as [[sq adv] strs]. cbn [fst snd] in *.
  assert (Ap : Forall abrx pre) by (eapply Forall_impl; [|exact A]; intros c Hc; now left).
  rewrite E in Hs |- *. apply Forall_app in Hs as [_ Hs]. rewrite fsum_app, (fsum_abrx pre Ap).
  repeat split; auto; try apply Hs.
  - intros X. now apply Forall_app in X.
  - intros Hne X. apply app_eq_nil in X as [_ X]. contradiction.
Qed.

Lemma inv_pending s p : inv s ->
  (p = false -> (sentq s <> [] -> t3 s = true) /\ (outq s <> [] -> sentq s <> [])) ->
  inv (mkTx (cwnd s) (ssthresh s) (flight s) (fr_exit s) (fr_transmit s) (fwd_chunk s) (fwd_streams s)
            (last_sacked s) (adv_ack s) (outq s) (sentq s) (pba s) (t3 s) p).
Proof.
  intros [A B C D E F G H] Hp. constructor; cbn [outq sentq cwnd flight t3 pending_tx]; auto.
  - intros Hne. destruct p; [|left; now apply (proj1 (Hp eq_refl))].
    destruct (G Hne) as [X|(_ & X2 & X3 & X4)]; [now left|right; auto].
  - intros Hne. destruct p; [now right|left; now apply (proj2 (Hp eq_refl))].
Qed.

Lemma gap_part_ok oq sq1 fl1 db1 cum gaps now : Forall sok sq1 -> Forall qok oq -> 0 <= fl1 <= fsum sq1 ->
  let '(sq3, oq3, fl3, db3, loss) := gap_part oq sq1 fl1 db1 cum gaps now in
  0 <= fl3 <= fsum sq3 /\ fl3 <= fl1 /\ Forall sok sq3 /\ Forall qok oq3 /\ (Forall abrx sq1 -> Forall abrx sq3) /\
  db1 <= db3 /\ (sq1 = [] -> sq3 = []).
Proof.
  intros Hs Ho Hfl. unfold gap_part. destruct gaps as [|g0 gaps']; [repeat split; auto; lia|].
  set (last_pos := last_off cum sq1). set (hs := highest_seen cum last_pos (g0 :: gaps') cum).
  pose proof (gap_ack_ok sq1 cum last_pos hs (g0 :: gaps') fl1 db1 cum 0 Hs ltac:(lia) ltac:(lia)) as H2.
  destruct (gap_ack sq1 cum last_pos hs (g0 :: gaps') fl1 db1 cum) as [[[sq2 fl2] db2] htna].
  destruct H2 as (B1 & B2 & B3 & B4 & B5).
  pose proof (strike_ok (length sq2) [] sq2 oq cum last_pos htna (g0 :: gaps') fl2 false now
                        (Forall_nil _) B3 Ho ltac:(rewrite fsum_nil; lia)) as H3.
  destruct (strike (length sq2) [] sq2 oq cum last_pos htna (g0 :: gaps') fl2 false now) as [[[sq3 oq3] fl3] loss] eqn:Es.
  destruct H3 as (C1 & C2 & C3 & C4 & C5).
  repeat split; auto; try lia; try apply C3.
  - intros A. apply C5; [constructor|now apply (keeps_abrx sq1)].
  - intros ->. inversion B4; subst. cbn in Es. now injection Es as <- _ _ _.
Qed.

Lemma cc_part_ok s cum done db3 loss sq3 : MTU <= cwnd s -> 0 <= db3 ->
  let '(cw, ss, pb, fre, frt) := cc_part s cum done db3 loss sq3 in MTU <= cw.
Proof.
  intros Hcw Hdb. unfold cc_part. rewrite MTU_val in *. destruct (fr_exit s); [exact Hcw|].
  destruct (negb (done =? 0) && (cwnd s <=? flight s)).
  - destruct (cwnd s <=? ssthresh s); [destruct loss; lia|]. destruct (cwnd s <=? pba s + db3); destruct loss; lia.
  - destruct loss; lia.
Qed.

Lemma sacked_ok s cum gaps now : inv s ->
  let s1 := sacked s cum gaps now in
  tpre s1 /\ (sentq s1 <> [] -> t3 s1 = true \/ (flight s1 = 0 /\ Forall abrx (sentq s1))).
Proof.
  intros Hinv. destruct (inv_tpre s Hinv) as [[Ho Hs Hcw Hfl] Ha]. unfold sacked.
  pose proof (pop_acked_unacked (sentq s) cum (flight s) 0 0) as Eu.
  pose proof (pop_acked_ok (sentq s) cum (flight s) 0 0 Hs Hfl) as H1.
  destruct (pop_acked (sentq s) cum (flight s) 0 0) as [[[sq1 fl1] done] db1]. cbn [fst] in Eu. destruct H1 as (A1 & A2 & A3).
  pose proof (gap_part_ok (outq s) sq1 fl1 db1 cum gaps now ltac:(rewrite Eu; now apply Forall_unacked) Ho A1) as Hg.
  destruct (gap_part (outq s) sq1 fl1 db1 cum gaps now) as [[[[sq3 oq3] fl3] db3] loss]. destruct Hg as (G1 & G0 & G2 & G3 & G4 & G5 & G6).
  pose proof (cc_part_ok s cum done db3 loss sq3 Hcw ltac:(lia)) as Hcc.
  destruct (cc_part s cum done db3 loss sq3) as [[[[cw ss] pb] fre] frt].
  split; [constructor; assumption|]. cbn [sentq t3 flight]. intros Hne.
  assert (Hs1 : sentq s <> []) by (intros E; apply Hne, G6; rewrite Eu, E; reflexivity).
  destruct (Ha Hs1) as [X|(F0 & X & _)].
  - left. destruct sq3; [congruence|]. rewrite X. now destruct (done =? 0).
  - right. split; [lia|]. apply G4. rewrite Eu. now apply Forall_unacked.
Qed.

Definition wf_input (i : input) : Prop :=
  match i with ISendMsg cs => Forall bok cs /\ Forall fresh cs | _ => True end.

Theorem step_inv s i : inv s -> wf_input i -> inv (fst (step s i)).
Proof.
  intros Hinv Hwf. destruct (inv_tpre s Hinv) as [Hp Ha]. destruct i as [cs|cum gaps now|now|]; cbn [step].
  - destruct Hwf as [Hbc Hfc]. destruct Hp as [Ho Hs Hcw Hfl]. apply transmit_inv; [|exact Ha].
    constructor; cbn [with_q outq sentq cwnd flight]; auto. apply Forall_app. split; [exact Ho|exact (Forall_and Hbc Hfc)].
  - rewrite receive_sack_eq. destruct (sack_ignored s cum); [exact Hinv|].
    destruct (sacked_ok s cum gaps now Hinv) as [[Ho Hs Hcw Hfl] L]. cbv zeta in L.
    destruct (update_adv_ok _ Hs) as (U1 & U2 & U3 & U4 & U5 & U6 & U7 & U8 & U9). cbv zeta in *.
    apply transmit_inv; [constructor; congruence|]. intros Hne. rewrite U2, U4.
    destruct (L (U9 Hne)) as [X|[X Y]]; auto.
  - (* _t3_expired: everything outstanding is abandoned or marked for retransmission; the
       scheduled _transmit will re-arm T3 *)
    destruct (t3 s); [|exact Hinv]. rewrite t3_expired_eq. destruct Hp as [Ho Hs _ Hfl].
    destruct (t3_marked_ok s now Hs Ho (proj1 Hfl)) as (M1 & M2 & M3).
    destruct (update_adv_ok _ M1) as (_ & _ & U3 & _ & U5 & _ & U7 & U8 & _). cbv zeta in *.
    apply Forall_and_inv in U5 as [U5 U5']. rewrite <- U3 in M2. apply Forall_and_inv in M2 as [M2 M2'].
    pose proof (fsum_nonneg _ (Forall_and U5 U5')). cbn [fst].
    constructor; cbn [t3_reset outq sentq cwnd flight t3 pending_tx]; auto; [rewrite MTU_val; lia|lia|intros _; right; auto 6].
  - rewrite (surjective_pairing (transmit s)). cbn [fst].
    apply inv_pending; [now apply transmit_inv|]. intros _. split; now apply (transmit_ok s).
Qed.

Theorem run_inv : forall is s, inv s -> Forall wf_input is -> inv (fst (run s is)).
Proof.
  induction is as [|i is IH]; intros s Hinv Hwf; [exact Hinv|].
  rewrite run_cons. cbn [fst]. inversion Hwf; subst. apply IH; [now apply step_inv|assumption].
Qed.

Lemma inv_init t rw : inv (init t rw).
Proof.
  constructor; cbn; try constructor; try lia; try congruence. rewrite MTU_val. lia.
Qed.

Corollary inv_reachable t rw is : Forall wf_input is -> inv (fst (run (init t rw) is)).
Proof. apply run_inv, inv_init. Qed.
