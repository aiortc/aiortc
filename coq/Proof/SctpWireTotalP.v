(* Lemmas about Model/SctpWire.v, part 4 (for property C05): every parser is
   total -- on EVERY byte list it returns Ok or ValueErr, never Crash and never
   OutOfFuel with the fuel the model passes (length + 1), i.e. the loops make at
   most length + 1 iterations.  For the packet and parameter-list parsers this
   is the weaker half of their soundness (Proof/SctpWireWfP.v). *)
From Coq Require Import ZArith List Bool Lia ZifyBool.
From AV Require Import Lib.Bytes Lib.BytesP Gen.SctpConst Model.Crc32c Model.SctpWire
  Proof.SctpWireP Proof.SctpWireWfP.
Import ListNotations.
Local Open Scope Z_scope.

Ltac Zify.zify_post_hook ::= Z.to_euclidean_division_equations.

Definition total {T} (r : result T) : Prop :=
  match r with
  | Ok _ | ValueErr => True
  | Crash | OutOfFuel => False
  end.

Lemma total_bind {T U} (r : result T) (f : T -> result U) :
  total r -> (forall v, total (f v)) -> total (bind r f).
Proof. destruct r; cbn [bind total]; auto. Qed.

Lemma sound_total {T} (P : T -> Prop) r : sound P r -> total r.
Proof. now destruct r. Qed.

Lemma decode_params_total body : total (decode_params body).
Proof. exact (sound_total _ _ (decode_params_sound body)). Qed.

Lemma parse_packet_total data : bytes_ok data -> total (parse_packet data).
Proof. intros Hok. exact (sound_total _ _ (parse_packet_sound data Hok)). Qed.

Lemma read_u16s_some n : forall body pos,
  (pos + 2 * n <= length body)%nat -> exists l, read_u16s body pos n = Some l.
Proof.
  induction n as [|n IH]; intros body pos H; [eexists; reflexivity|].
  cbn [read_u16s]. destruct (u16_some body pos) as [a ->]; [lia|].
  destruct (IH body (pos + 2)%nat) as [l ->]; [lia|]. eauto.
Qed.

Lemma reconfig_param_parse_total ty data :
  match reconfig_param_parse ty data with Some r => total r | None => True end.
Proof.
  unfold reconfig_param_parse, reset_out_parse, reset_response_parse, add_out_parse, len.
  destruct (ty =? 13).
  { destruct ((Z.of_nat (length data) <? 12) || negb (Z.of_nat (length data) mod 2 =? 0)) eqn:E; [exact I|].
    destruct (u32_some data 0) as [a ->]; [lia|]. destruct (u32_some data 4) as [b ->]; [lia|].
    destruct (u32_some data 8) as [c ->]; [lia|].
    destruct (read_u16s_some (Z.to_nat ((Z.of_nat (length data) - 12 + 1) / 2)) data 12) as [l ->]; [lia|].
    exact I. }
  destruct (ty =? 16).
  { destruct (Z.of_nat (length data) <? 8) eqn:E; [exact I|].
    destruct (u32_some data 0) as [a ->]; [lia|]. destruct (u32_some data 4) as [b ->]; [lia|]. exact I. }
  destruct (ty =? 17); [|exact I].
  destruct (Z.of_nat (length data) <? 8) eqn:E; [exact I|].
  destruct (u32_some data 0) as [a ->]; [lia|]. destruct (u16_some data 4) as [b ->]; [lia|].
  destruct (u16_some data 6) as [c ->]; [lia|]. exact I.
Qed.
