(* The calls of an offer/answer exchange of Model/Nego.v one by one (layer 2 of C03): what each leaves behind when
   it returns Ok. The invariant that holds along a session is in NegoWfP, what follows from it in NegoOkP and NegoDirP. *)
From Coq Require Import ZArith List Bool Lia.
From AV Require Import Model.Nego Proof.NegoP.
Import ListNotations.
Local Open Scope Z_scope.

Lemma bind_ok : forall T U (r : res T) (f : T -> res U) u,
  bind r f = Ok u -> exists a, r = Ok a /\ f a = Ok u.
Proof. intros T U [a| | |] f u H; cbn [bind] in H; try discriminate. exists a. auto. Qed.

Ltac bind_inv H x Hx :=
  let H' := fresh in
  apply bind_ok in H; destruct H as [x [Hx H']]; rename H' into H.

Lemma find_idx_split : forall T (f : T -> bool) l k, find_idx f l = Some k ->
  exists l1 x l2, l = l1 ++ x :: l2 /\ length l1 = k /\ f x = true /\ (forall y, In y l1 -> f y = false).
Proof.
  induction l as [|a l IH]; intros k H; cbn [find_idx] in H; [discriminate|].
  destruct (f a) eqn:E.
  - injection H as <-. exists [], a, l. repeat split; auto. intros y [].
  - destruct (find_idx f l) as [n|] eqn:En; [|discriminate]. injection H as <-.
    destruct (IH n eq_refl) as [l1 [x [l2 [E1 [E2 [E3 E4]]]]]]. subst l.
    exists (a :: l1), x, l2. repeat split; cbn [length]; auto.
    intros y [->|Hy]; auto.
Qed.

Lemma find_idx_none : forall T (f : T -> bool) l, find_idx f l = None -> forall y, In y l -> f y = false.
Proof.
  induction l as [|a l IH]; intros H y Hy; [destruct Hy|]. cbn [find_idx] in H.
  destruct (f a) eqn:E; [discriminate|]. destruct (find_idx f l) eqn:En; [discriminate|].
  destruct Hy as [->|Hy]; auto.
Qed.

Lemma upd_split : forall T (g : T -> T) l1 x l2, upd (length l1) g (l1 ++ x :: l2) = l1 ++ g x :: l2.
Proof. induction l1 as [|a l1 IH]; intros x l2; cbn [length app upd]; [reflexivity|]. rewrite IH. reflexivity. Qed.

Lemma nth_error_split : forall T (l1 : list T) x l2, nth_error (l1 ++ x :: l2) (length l1) = Some x.
Proof. induction l1 as [|a l1 IH]; intros; cbn [length app nth_error]; auto. Qed.

Lemma find_app : forall T (f : T -> bool) l1 l2,
  find f (l1 ++ l2) = match find f l1 with Some x => Some x | None => find f l2 end.
Proof. induction l1 as [|a l1 IH]; intros l2; cbn [app find]; [reflexivity|]. destruct (f a); auto. Qed.

Lemma find_some_In : forall T (f : T -> bool) l x, find f l = Some x -> In x l /\ f x = true.
Proof. intros. apply find_some. assumption. Qed.

Lemma In_mid_cases : forall T (l1 : list T) a l2 y, In y (l1 ++ a :: l2) -> In y l1 \/ y = a \/ In y l2.
Proof. intros T l1 a l2 y H. apply in_app_or in H. destruct H as [H|[H|H]]; auto. Qed.

Lemma In_mid_intro : forall T (l1 : list T) a l2 y, In y l1 \/ In y l2 -> In y (l1 ++ a :: l2).
Proof. intros T l1 a l2 y [H|H]; apply in_or_app; [left | right; right]; exact H. Qed.

Lemma In_replace : forall T (P : T -> Prop) l1 a b l2, (forall y, In y (l1 ++ a :: l2) -> P y) -> P b ->
  forall y, In y (l1 ++ b :: l2) -> P y.
Proof.
  intros T P l1 a b l2 H Hb y Hy. destruct (In_mid_cases _ _ _ _ _ Hy) as [H1|[->|H2]]; [|exact Hb|]; apply H; apply In_mid_intro; auto.
Qed.

Lemma NoDup_app_intro : forall T (l1 l2 : list T), NoDup l1 -> NoDup l2 -> (forall x, In x l1 -> ~ In x l2) -> NoDup (l1 ++ l2).
Proof.
  induction l1 as [|a l1 IH]; intros l2 H1 H2 H; cbn [app]; [exact H2|].
  inversion H1; subst. constructor.
  - intro Hin. apply in_app_or in Hin. destruct Hin as [Hin|Hin]; [contradiction | exact (H a (or_introl eq_refl) Hin)].
  - apply IH; auto. intros x Hx. apply H. right. exact Hx.
Qed.

Lemma skipn_all_length : forall T (l1 l2 : list T), length l1 = length l2 -> l1 ++ skipn (length l1) l2 = l1.
Proof. intros T l1 l2 H. rewrite H, skipn_all. apply app_nil_r. Qed.

Lemma Forall2_impl : forall A B (R S : A -> B -> Prop) l1 l2, (forall x y, In x l1 -> R x y -> S x y) ->
  Forall2 R l1 l2 -> Forall2 S l1 l2.
Proof.
  intros A B R S l1 l2 H HF. induction HF as [|x y l1 l2 Hxy HF IH]; constructor.
  - apply H; [left; reflexivity | exact Hxy].
  - apply IH. intros a b Ha. apply H. right. exact Ha.
Qed.

Lemma Forall2_In_l : forall A B (R : A -> B -> Prop) l1 l2 y, Forall2 R l1 l2 -> In y l2 -> exists x, In x l1 /\ R x y.
Proof.
  induction 1 as [|a b l1 l2 Hab H IH]; intro Hy; [destruct Hy|].
  destruct Hy as [<-|Hy]; [exists a; split; [left; reflexivity | exact Hab]|].
  destruct (IH Hy) as [x [Hx Hr]]. exists x. split; [right; exact Hx | exact Hr].
Qed.

Lemma Forall2_In_r : forall A B (R : A -> B -> Prop) l1 l2 x, Forall2 R l1 l2 -> In x l1 -> exists y, In y l2 /\ R x y.
Proof.
  induction 1 as [|a b l1 l2 Hab H IH]; intro Hx; [destruct Hx|].
  destruct Hx as [<-|Hx]; [exists b; split; [left; reflexivity | exact Hab]|].
  destruct (IH Hx) as [y [Hy Hr]]. exists y. split; [right; exact Hy | exact Hr].
Qed.

Lemma sections_eqb_eq : forall a b, sections_eqb a b = true -> a = b.
Proof.
  induction a as [|[x1 x2] a IH]; destruct b as [|[y1 y2] b]; cbn [sections_eqb]; intro H; try discriminate; [reflexivity|].
  apply andb_true_iff in H. destruct H as [H1 H2]. unfold section_eqb in H1. cbn [fst snd] in H1.
  apply andb_true_iff in H1. destruct H1 as [Ha Hb]. apply Z.eqb_eq in Ha. apply Z.eqb_eq in Hb.
  rewrite (IH b H2). congruence.
Qed.

Lemma sections_mids : forall d o, sections (Some d) = sections (Some o) ->
  map m_mid (d_media d) = map m_mid (d_media o) /\ map m_kind (d_media d) = map m_kind (d_media o).
Proof.
  intros d o H. unfold sections in H. cbn [desc_media] in H.
  pose proof (f_equal (map snd) H) as Hm. pose proof (f_equal (map fst) H) as Hk. rewrite !map_map in Hm, Hk.
  split; assumption.
Qed.

Lemma create_dtls_fields : forall p p1 id, create_dtls p = (p1, id) ->
  p_trs p1 = p_trs p /\ p_sctp p1 = p_sctp p /\ p_sctp_mline p1 = p_sctp_mline p /\ p_seen p1 = p_seen p /\
  p_state p1 = p_state p /\ p_policy p1 = p_policy p /\
  p_cur_local p1 = p_cur_local p /\ p_cur_remote p1 = p_cur_remote p /\
  p_pend_local p1 = p_pend_local p /\ p_pend_remote p1 = p_pend_remote p.
Proof. intros p p1 id H. injection H as <- _. repeat split; reflexivity. Qed.

(* Two relations between a connection and a later one. The setters of Model/Nego.v rebuild the record around the
   fields they keep, so for q a chain of setters on p that leaves the fields in question alone, same_session p q
   and same_descs p q are same_session p p and same_descs p p up to computation. *)
Definition same_descs (p q : pc) : Prop :=
  p_cur_local q = p_cur_local p /\ p_cur_remote q = p_cur_remote p /\
  p_pend_local q = p_pend_local p /\ p_pend_remote q = p_pend_remote p /\ p_state q = p_state p.

Lemma same_descs_refl : forall p, same_descs p p.
Proof. intro p. unfold same_descs. repeat split; reflexivity. Qed.

Definition same_session (p q : pc) : Prop := p_seen q = p_seen p /\ same_descs p q.

Lemma same_session_refl : forall p, same_session p p.
Proof. intro p. split; [reflexivity | apply same_descs_refl]. Qed.

Lemma same_descs_trans : forall p q r, same_descs p q -> same_descs q r -> same_descs p r.
Proof. unfold same_descs. intros p q r [A1 [A2 [A3 [A4 A5]]]] [B1 [B2 [B3 [B4 B5]]]]. repeat split; congruence. Qed.

Lemma same_descs_eq : forall p q, same_descs p q ->
  local_description q = local_description p /\ remote_description q = remote_description p.
Proof. intros p q [E1 [E2 [E3 [E4 _]]]]. unfold local_description, remote_description. rewrite E1, E2, E3, E4. auto. Qed.

Lemma create_transceiver_spec : forall p d k h, let q := create_transceiver p d k h in
  exists bundled id,
    p_trs q = p_trs p ++ [mkTransceiver k d None None None None [] [] [] h bundled id] /\
    p_sctp q = p_sctp p /\ same_session p q /\
    (p_transports q = p_transports p /\
     ((exists t, In t (p_trs p) /\ t_transport t = id) \/ (exists s, p_sctp p = Some s /\ s_transport s = id)) \/
     p_transports q = p_transports p ++ [mkTransport id RAuto false false true]).
Proof.
  intros p d k h q. subst q. unfold create_transceiver. set (shared := if p_policy p =? 2 then _ else _).
  assert (Hsh : forall id, shared = Some id ->
            (exists t, In t (p_trs p) /\ t_transport t = id) \/ (exists s, p_sctp p = Some s /\ s_transport s = id)).
  { subst shared. intro id. destruct (p_policy p =? 2).
    - destruct (p_trs p) as [|t0 l]; [destruct (p_sctp p) as [s|]; [|discriminate]|]; intro E; injection E as <-;
        [right; exists s; auto | left; exists t0; split; [left|]; reflexivity].
    - destruct (p_policy p =? 0); [|discriminate]. destruct (find (fun t => t_kind t =? k) (p_trs p)) as [t0|] eqn:Ef; [|discriminate].
      intro E. injection E as <-. left. exists t0. apply find_some in Ef. tauto. }
  destruct shared as [id|].
  - exists true, id. repeat split. left. split; [reflexivity | exact (Hsh id eq_refl)].
  - exists false, (p_next p). repeat split. right. reflexivity.
Qed.

Lemma create_sctp_spec : forall p, let q := create_sctp p in
  p_trs q = p_trs p /\ same_session p q /\
  exists s, p_sctp q = Some s /\ s_mid s = None /\
    (p_transports q = p_transports p /\ (exists t, In t (p_trs p) /\ t_transport t = s_transport s) \/
     p_transports q = p_transports p ++ [mkTransport (s_transport s) RAuto false false true]).
Proof.
  intros p q. subst q. unfold create_sctp. destruct (if p_policy p =? 2 then p_trs p else []) as [|t0 l] eqn:El.
  - repeat split. eexists. split; [reflexivity|]. split; [reflexivity|]. right. reflexivity.
  - repeat split. eexists. split; [reflexivity|]. split; [reflexivity|]. left. split; [reflexivity|]. exists t0. split; [|reflexivity].
    destruct (p_policy p =? 2); [rewrite El; left; reflexivity | discriminate].
Qed.

Definition negotiated (T : tables) (ty : Z) (m : media) (t : transceiver) : Prop :=
  t_kind t = m_kind m /\ t_mid t = Some (m_mid m) /\
  exists c0 md,
    find_common_codecs (CODECS T (m_kind m)) (m_codecs m) = Ok c0 /\
    filter_preferred_codecs c0 (t_preferred t) = Ok (t_codecs t) /\ t_codecs t <> [] /\
    t_exts t = find_common_header_extensions (HEADER_EXTENSIONS T (m_kind m)) (m_exts m) /\
    m_dir m = Some md /\
    (if Z.eqb ty 1 then t_currentDirection t = Some (reverse_direction md)
     else t_offerDirection t = Some (reverse_direction md)).

Lemma mid_is_true : forall mu t, mid_is mu t = true -> t_mid t = Some mu.
Proof. intros mu t. apply (opt_eqb_eq Z Z.eqb Z.eqb_eq). Qed.

(* 904-916: a transceiver of the section's kind that has no mid yet, or the section's *)
Definition cand (k mu : Z) (t : transceiver) : Prop := t_kind t = k /\ (t_mid t = None \/ t_mid t = Some mu).

Lemma media_match_cand : forall m t, media_match m t = true <-> cand (m_kind m) (m_mid m) t.
Proof.
  intros m t. unfold media_match, cand. rewrite andb_true_iff, Z.eqb_eq. split; intros [H1 H2]; (split; [exact H1|]).
  - destruct (t_mid t) as [x|]; [right; apply Z.eqb_eq in H2; congruence | left; reflexivity].
  - destruct H2 as [E|E]; rewrite E; [reflexivity | apply Z.eqb_refl].
Qed.

Lemma locate_cases : forall m p0 p1 k, locate m p0 = (p1, k) ->
  exists l1 t0 l2, p_trs p1 = l1 ++ t0 :: l2 /\ length l1 = k /\
    cand (m_kind m) (m_mid m) t0 /\ (forall y, In y l1 -> ~ cand (m_kind m) (m_mid m) y) /\
    (p1 = p0 \/ p1 = create_transceiver p0 RecvOnly (m_kind m) false /\ p_trs p0 = l1 /\ l2 = [] /\ t_preferred t0 = []).
Proof.
  intros m p0 p1 k H. unfold locate in H.
  assert (Hn : forall l, (forall y, In y l -> media_match m y = false) -> forall y, In y l -> ~ cand (m_kind m) (m_mid m) y).
  { intros l Hl y Hy Hc. apply media_match_cand in Hc. rewrite (Hl y Hy) in Hc. discriminate. }
  destruct (find_idx (media_match m) (p_trs p0)) as [n|] eqn:E; injection H as <- <-.
  - destruct (find_idx_split _ _ _ _ E) as [l1 [x [l2 [E1 [E2 [E3 E4]]]]]].
    exists l1, x, l2. apply media_match_cand in E3. pose proof (Hn l1 E4). auto 7.
  - destruct (create_transceiver_spec p0 RecvOnly (m_kind m) false) as [bd [id [E1 _]]].
    eexists (p_trs p0), _, []. split; [exact E1|]. split; [reflexivity|]. split; [split; [reflexivity | left; reflexivity]|].
    split; [exact (Hn _ (find_idx_none _ _ _ E)) | right; auto].
Qed.

(* the transceiver an audio/video section of a remote description leaves behind, made from the one located *)
Definition remote_tr (ty : Z) (m : media) (i : nat) (cs : list codec) (xs : list hdrext) (md : dir) (t0 : transceiver)
  : transceiver :=
  let t2 := set_negotiated cs xs (match t_mid t0 with None => set_mline i (set_mid (m_mid m) t0) | Some _ => t0 end) in
  if Z.eqb ty 1 then set_cur_dir (reverse_direction md) t2 else set_offer_dir (reverse_direction md) t2.

Lemma remote_tr_spec : forall T ty m i c0 cs md t0, cand (m_kind m) (m_mid m) t0 ->
  find_common_codecs (CODECS T (m_kind m)) (m_codecs m) = Ok c0 ->
  filter_preferred_codecs c0 (t_preferred t0) = Ok cs -> cs <> [] -> m_dir m = Some md ->
  let t3 := remote_tr ty m i cs (find_common_header_extensions (HEADER_EXTENSIONS T (m_kind m)) (m_exts m)) md t0 in
  negotiated T ty m t3 /\ t_mline t3 = (match t_mid t0 with None => Some i | Some _ => t_mline t0 end) /\
  t_transport t3 = t_transport t0 /\ t_preferred t3 = t_preferred t0.
Proof.
  intros T ty m i c0 cs md t0 [Hk Hm] Hc0 Hcs Hne Hmd. unfold negotiated, remote_tr.
  destruct Hm as [Hm|Hm]; rewrite Hm; destruct (ty =? 1); cbn;
    (split; [split; [exact Hk|]; split; [auto|]; exists c0, md; auto 6 | auto]).
Qed.

Lemma remote_av_eq : forall T ty m i p0 p1 l1 t0 l2, locate m p0 = (p1, length l1) -> p_trs p1 = l1 ++ t0 :: l2 ->
  remote_av T ty m i p0 =
    (c0 <- find_common_codecs (CODECS T (m_kind m)) (m_codecs m) ;;
     cs <- filter_preferred_codecs c0 (t_preferred t0) ;;
     match cs, m_dir m with
     | _ :: _, Some md =>
         Ok (set_transports
               (set_trs p1 (l1 ++ remote_tr ty m i cs (find_common_header_extensions (HEADER_EXTENSIONS T (m_kind m)) (m_exts m)) md t0 :: l2))
               (remote_transport_roles ty m (t_transport t0) (p_transports p1)))
     | _, _ => Crash
     end).
Proof.
  intros T ty m i p0 p1 l1 t0 l2 El E1. unfold remote_av. rewrite El, E1, nth_error_split.
  replace (t_preferred match t_mid t0 with Some _ => t0 | None => set_mline i (set_mid (m_mid m) t0) end)
    with (t_preferred t0) by (destruct (t_mid t0); reflexivity).
  destruct (find_common_codecs (CODECS T (m_kind m)) (m_codecs m)) as [c0| | |]; cbn [bind]; try reflexivity.
  destruct (filter_preferred_codecs c0 (t_preferred t0)) as [[|c cs]| | |]; cbn [bind]; try reflexivity.
  destruct (m_dir m); [|reflexivity]. rewrite upd_split. unfold remote_tr. destruct (t_mid t0); destruct (ty =? 1); reflexivity.
Qed.

Lemma remote_av_inv : forall T ty m i p0 p', remote_av T ty m i p0 = Ok p' ->
  exists p1 l1 t0 t3 l2,
    p_trs p1 = l1 ++ t0 :: l2 /\ cand (m_kind m) (m_mid m) t0 /\ (forall y, In y l1 -> ~ cand (m_kind m) (m_mid m) y) /\
    (p1 = p0 \/ p1 = create_transceiver p0 RecvOnly (m_kind m) false /\ p_trs p0 = l1 /\ l2 = [] /\ t_preferred t0 = []) /\
    negotiated T ty m t3 /\ t_mline t3 = (match t_mid t0 with None => Some i | Some _ => t_mline t0 end) /\
    t_transport t3 = t_transport t0 /\ t_preferred t3 = t_preferred t0 /\
    p' = set_transports (set_trs p1 (l1 ++ t3 :: l2)) (remote_transport_roles ty m (t_transport t0) (p_transports p1)).
Proof.
  intros T ty m i p0 p' H. destruct (locate m p0) as [p1 k] eqn:El.
  destruct (locate_cases _ _ _ _ El) as [l1 [t0 [l2 [E1 [<- [Hc [Hn Hp]]]]]]].
  rewrite (remote_av_eq _ _ _ _ _ _ _ _ _ El E1) in H. bind_inv H c0 Hc0. bind_inv H cs Hcs.
  destruct cs as [|c cs]; [discriminate|]. destruct (m_dir m) as [md|] eqn:Hmd; [|discriminate]. injection H as <-.
  assert (Hne : c :: cs <> []) by discriminate.
  destruct (remote_tr_spec T ty m i c0 (c :: cs) md t0 Hc Hc0 Hcs Hne Hmd) as [K1 [K2 [K3 K4]]].
  exists p1, l1, t0. eexists. exists l2. split; [exact E1|]. split; [exact Hc|]. split; [exact Hn|]. split; [exact Hp|].
  split; [exact K1|]. split; [exact K2|]. split; [exact K3|]. split; [exact K4 | reflexivity].
Qed.

Lemma remote_av_session : forall T ty m i p0 p', remote_av T ty m i p0 = Ok p' -> same_session p0 p'.
Proof.
  intros T ty m i p0 p' H.
  destruct (remote_av_inv _ _ _ _ _ _ H) as [q [l1 [t0 [t3 [l2 [_ [_ [_ [Hq [_ [_ [_ [_ ->]]]]]]]]]]]]].
  destruct Hq as [->|[-> _]]; [exact (same_session_refl p0)|].
  destruct (create_transceiver_spec p0 RecvOnly (m_kind m) false) as [bd [id [_ [_ [Hs _]]]]]. exact Hs.
Qed.

Lemma remote_app_frame : forall ty m i p0 p', remote_app ty m i p0 = Ok p' ->
  p_trs p' = p_trs p0 /\ same_session p0 p'.
Proof.
  intros ty m i p0 p' H. unfold remote_app in H.
  assert (G : p_trs (match p_sctp p0 with Some _ => p0 | None => create_sctp p0 end) = p_trs p0 /\
              same_session p0 (match p_sctp p0 with Some _ => p0 | None => create_sctp p0 end)).
  { destruct (p_sctp p0); [split; [reflexivity | apply same_session_refl]|].
    destruct (create_sctp_spec p0) as [A [B _]]. auto. }
  destruct (p_sctp (match p_sctp p0 with Some _ => p0 | None => create_sctp p0 end)) as [s|]; [|discriminate].
  injection H as <-. destruct (s_mid s); exact G.
Qed.

Lemma remote_app_total : forall ty m i p0, exists p', remote_app ty m i p0 = Ok p'.
Proof.
  intros ty m i p0. unfold remote_app. destruct (p_sctp p0) eqn:Es.
  - rewrite Es. eexists. reflexivity.
  - destruct (create_sctp_spec p0) as [_ [_ [s [Hs _]]]]. rewrite Hs. eexists. reflexivity.
Qed.

Lemma remote_media_keeps : forall T ty ms i p p' t mu, remote_media T ty ms i p = Ok p' ->
  In t (p_trs p) -> t_mid t = Some mu -> ~ In mu (map m_mid ms) -> In t (p_trs p').
Proof.
  intros T ty. induction ms as [|m ms IH]; intros i p p' t mu H Hin Hm Hnin; cbn [remote_media] in H.
  - injection H as <-. exact Hin.
  - cbn [map In] in Hnin. destruct (is_av (m_kind m)).
    + bind_inv H p1 Hp1. apply (IH _ _ _ t mu H); [|exact Hm | tauto].
      destruct (remote_av_inv _ _ _ _ _ _ Hp1) as [q [l1 [t0 [t3 [l2 [E1 [[_ Hc] [_ [Hq [_ [_ [_ [_ ->]]]]]]]]]]]]].
      cbn [p_trs set_transports set_trs set_seen] in *.
      assert (Hin1 : In t (l1 ++ t0 :: l2)).
      { destruct Hq as [->|[_ [E _]]]; [rewrite <- E1; exact Hin | apply in_or_app; left; rewrite <- E; exact Hin]. }
      destruct (In_mid_cases _ _ _ _ _ Hin1) as [H1|[->|H2]]; [apply In_mid_intro; auto | | apply In_mid_intro; auto].
      destruct Hc as [Hc|Hc]; [congruence | exfalso; apply Hnin; left; congruence].
    + destruct (m_kind m =? 2); [|apply (IH _ _ _ t mu H); [exact Hin | exact Hm | tauto]].
      bind_inv H p1 Hp1. apply remote_app_frame in Hp1. destruct Hp1 as [E _].
      apply (IH _ _ _ t mu H); [rewrite E; exact Hin | exact Hm | tauto].
Qed.

Lemma remote_media_negotiated : forall T ty ms i p p', remote_media T ty ms i p = Ok p' ->
  NoDup (map m_mid ms) ->
  forall m, In m ms -> is_av (m_kind m) = true -> exists t, In t (p_trs p') /\ negotiated T ty m t.
Proof.
  intros T ty. induction ms as [|m0 ms IH]; intros i p p' H Hnd m Hin Hav; [destruct Hin|].
  cbn [remote_media] in H. cbn [map] in Hnd. inversion Hnd as [|? ? Hnin Hnd']; subst.
  destruct Hin as [->|Hin].
  - rewrite Hav in H. bind_inv H p1 Hp1.
    destruct (remote_av_inv _ _ _ _ _ _ Hp1) as [q [l1 [t0 [t3 [l2 [_ [_ [_ [_ [Hneg [_ [_ [_ ->]]]]]]]]]]]]].
    exists t3. split; [|exact Hneg]. exact (remote_media_keeps _ _ _ _ _ _ _ _ H (in_elt _ _ _) (proj1 (proj2 Hneg)) Hnin).
  - destruct (is_av (m_kind m0)).
    + bind_inv H p1 Hp1. eapply IH; eauto.
    + destruct (m_kind m0 =? 2).
      * bind_inv H p1 Hp1. eapply IH; eauto.
      * eapply IH; eauto.
Qed.

(* everything of a transceiver except transport and _bundled *)
Definition core (t : transceiver) :=
  (t_kind t, t_direction t, t_mid t, t_mline t, t_offerDirection t, t_currentDirection t,
   t_preferred t, t_codecs t, t_exts t, t_hastrack t).

Lemma core_fields : forall t t', core t = core t' ->
  t_kind t = t_kind t' /\ t_direction t = t_direction t' /\ t_mid t = t_mid t' /\ t_mline t = t_mline t' /\
  t_offerDirection t = t_offerDirection t' /\ t_currentDirection t = t_currentDirection t' /\
  t_preferred t = t_preferred t' /\ t_codecs t = t_codecs t' /\ t_exts t = t_exts t' /\ t_hastrack t = t_hastrack t'.
Proof. intros t t' H. unfold core in H. injection H. intros. repeat split; assumption. Qed.

Lemma negotiated_core : forall T ty m t t', core t = core t' -> negotiated T ty m t -> negotiated T ty m t'.
Proof.
  intros T ty m t t' Hc H. apply core_fields in Hc.
  destruct Hc as [E1 [E2 [E3 [E4 [E5 [E6 [E7 [E8 [E9 E10]]]]]]]]].
  unfold negotiated in *. rewrite <- E1, <- E3, <- E5, <- E6, <- E7, <- E8, <- E9. exact H.
Qed.

(* BUNDLE moves transceivers and the sctp transport onto the transport of the first member and nothing else:
   a transceiver keeps its core, the sctp transport its mid, a transport its id, and a transport id in use
   afterwards was in use before *)
Definition rebundled (p p' : pc) : Prop :=
  (exists g, p_trs p' = map g (p_trs p) /\ forall t, core (g t) = core t) /\
  same_session p p' /\
  (match p_sctp p, p_sctp p' with
   | Some s, Some s' => s_mid s' = s_mid s
   | None, None => True
   | _, _ => False
   end) /\
  (exists f, p_transports p' = map f (p_transports p) /\ forall t, tr_id (f t) = tr_id t) /\
  (forall P : Z -> Prop, (forall t, In t (p_trs p) -> P (t_transport t)) -> (forall s, p_sctp p = Some s -> P (s_transport s)) ->
     (forall t, In t (p_trs p') -> P (t_transport t)) /\ (forall s, p_sctp p' = Some s -> P (s_transport s))).

Lemma rebundled_refl : forall p, rebundled p p.
Proof.
  intro p. split; [exists (fun t => t); split; [symmetry; apply map_id | reflexivity]|]. split; [apply same_session_refl|].
  split; [destruct (p_sctp p); auto|]. split; [exists (fun t => t); split; [symmetry; apply map_id | reflexivity] | auto].
Qed.

Lemma apply_bundle_spec : forall fixed items p p', apply_bundle fixed items p = Ok p' -> rebundled p p'.
Proof.
  intros fixed items p p' H. pose proof (rebundled_refl p) as Hp.
  unfold apply_bundle in H. destruct items as [|primary slaves]; [injection H as <-; exact Hp|].
  match type of H with context [match ?pt with Some prim => _ | None => _ end] => destruct pt as [prim|] eqn:Ept end.
  2:{ match type of H with (if ?c then _ else _) = _ => destruct c end; [discriminate|]. injection H as <-. exact Hp. }
  injection H as <-. cbn [p_trs p_sctp p_transports set_transports set_sctp set_trs].
  split; [|split; [exact (same_session_refl p)|split; [|split]]].
  - eexists. split; [reflexivity|]. intro t. cbv beta.
    destruct (match t_mid t with Some x => existsb (Z.eqb x) slaves | None => false end); [|reflexivity].
    destruct fixed; [destruct (negb (t_transport t =? prim)) | destruct (negb (t_bundled t))]; reflexivity.
  - destruct (p_sctp p) as [s|]; [|exact I]. destruct (match s_mid s with Some x => existsb (Z.eqb x) slaves | None => false end); [|reflexivity].
    destruct fixed; [destruct (negb (s_transport s =? prim)) | destruct (negb (s_bundled s))]; reflexivity.
  - eexists. split; [reflexivity|]. intro t. cbv beta. destruct (existsb _ _); reflexivity.
  - intros P HP1 HP2.
    (* the transport of the first member is in use *)
    assert (Hprim : P prim).
    { assert (H1 : match find (mid_is primary) (p_trs p) with Some t => Some (t_transport t) | None => None end = Some prim -> P prim).
      { destruct (find (mid_is primary) (p_trs p)) as [t|] eqn:Ef; [|discriminate]. intro E. injection E as <-. apply HP1. apply find_some in Ef. tauto. }
      destruct (p_sctp p) as [s|]; [|exact (H1 Ept)].
      destruct (opt_eqb Z.eqb (s_mid s) (Some primary)); [|exact (H1 Ept)]. injection Ept as <-. apply HP2. reflexivity. }
    split.
    + intros t Hin. apply in_map_iff in Hin. destruct Hin as [t0 [<- Hin0]]. specialize (HP1 t0 Hin0).
      destruct (match t_mid t0 with Some x => existsb (Z.eqb x) slaves | None => false end); [|exact HP1].
      destruct fixed; [destruct (negb (t_transport t0 =? prim)) | destruct (negb (t_bundled t0))]; assumption.
    + destruct (p_sctp p) as [s0|]; [|discriminate]. specialize (HP2 s0 eq_refl). intros s Hs.
      destruct (match s_mid s0 with Some x => existsb (Z.eqb x) slaves | None => false end); [|injection Hs as <-; exact HP2].
      destruct fixed; [destruct (negb (s_transport s0 =? prim)) | destruct (negb (s_bundled s0))]; injection Hs as <-; assumption.
Qed.

Lemma sadd_incl : forall x l, incl l (sadd x l) /\ In x (sadd x l).
Proof.
  intros x l. unfold sadd. destruct (existsb (Z.eqb x) l) eqn:E.
  - split; [apply incl_refl | apply existsb_Z_In; exact E].
  - split; [apply incl_tl; apply incl_refl | left; reflexivity].
Qed.

Lemma remote_media_seen : forall T ty ms i p p', remote_media T ty ms i p = Ok p' ->
  incl (p_seen p) (p_seen p') /\ incl (map m_mid ms) (p_seen p') /\ same_descs p p'.
Proof.
  intros T ty. induction ms as [|m ms IH]; intros i p p' H; cbn [remote_media] in H.
  - injection H as <-. split; [apply incl_refl|]. split; [intros x [] | apply same_descs_refl].
  - destruct (sadd_incl (m_mid m) (p_seen p)) as [S1 S2].
    (* whatever the kind of m, the loop goes on from a connection with the session of p and the mid of m seen *)
    assert (G : exists p1, remote_media T ty ms (S i) p1 = Ok p' /\ same_session (set_seen p (sadd (m_mid m) (p_seen p))) p1).
    { destruct (is_av (m_kind m)).
      - bind_inv H p1 Hp1. apply remote_av_session in Hp1. eauto.
      - destruct (m_kind m =? 2); [|eauto using same_session_refl].
        bind_inv H p1 Hp1. apply remote_app_frame in Hp1. destruct Hp1 as [_ Hs]. eauto. }
    destruct G as [p1 [Hr Hs]]. destruct (IH _ _ _ Hr) as [I1 [I2 I3]]. rewrite (proj1 Hs) in I1.
    split; [exact (incl_tran S1 I1)|]. split; [|exact (same_descs_trans p p1 p' (proj2 Hs) I3)].
    cbn [map]. intros x [<-|Hx]; [apply I1; exact S2 | apply I2; exact Hx].
Qed.

(* the three phases, and what storing the description changes: an offer becomes the pending remote description,
   an answer the current one with none pending *)
Lemma set_remote_description_steps : forall fixed T p d p', set_remote_description fixed T p d = Ok p' ->
  exists p1 p2,
    validate_description p d false = Ok tt /\ remote_media T (d_type d) (d_media d) O p = Ok p1 /\
    apply_bundle fixed (d_bundle d) p1 = Ok p2 /\
    p_trs p' = p_trs p2 /\ p_sctp p' = p_sctp p2 /\ p_transports p' = p_transports p2 /\ p_seen p' = p_seen p2 /\
    p_state p' = (if Z.eqb (d_type d) 0 then HaveRemoteOffer else Stable) /\ remote_description p' = Some d /\
    local_description p' = local_description p2.
Proof.
  intros fixed T p d p' H. unfold set_remote_description in H.
  destruct (validate_description p d false) as [[]| | |] eqn:Ev; cbn [bind] in H; try discriminate.
  bind_inv H p1 Hp1. bind_inv H p2 Hp2. injection H as <-. exists p1, p2.
  split; [reflexivity|]. split; [exact Hp1|]. split; [exact Hp2|]. destruct (d_type d =? 1); repeat split; reflexivity.
Qed.

Lemma set_remote_description_spec : forall fixed T p d p', set_remote_description fixed T p d = Ok p' ->
  p_state p' = (if Z.eqb (d_type d) 0 then HaveRemoteOffer else Stable) /\
  remote_description p' = Some d /\ local_description p' = local_description p /\
  (NoDup (map m_mid (d_media d)) ->
   forall m, In m (d_media d) -> is_av (m_kind m) = true ->
   exists t, In t (p_trs p') /\ negotiated T (d_type d) m t).
Proof.
  intros fixed T p d p' H.
  destruct (set_remote_description_steps _ _ _ _ _ H) as [p1 [p2 [_ [Hp1 [Hp2 [E1 [_ [_ [_ [E5 [E6 E7]]]]]]]]]]].
  destruct (remote_media_seen _ _ _ _ _ _ Hp1) as [_ [_ S3]].
  destruct (apply_bundle_spec _ _ _ _ Hp2) as [[g [G1 G2]] [G3 _]].
  split; [exact E5|]. split; [exact E6|]. split.
  - rewrite E7. apply same_descs_eq. exact (same_descs_trans _ _ _ S3 (proj2 G3)).
  - intros Hnd m Hin Hav. destruct (remote_media_negotiated _ _ _ _ _ _ Hp1 Hnd m Hin Hav) as [t [Ht1 Ht2]].
    exists (g t). split; [rewrite E1, G1; apply in_map; exact Ht1|].
    eapply negotiated_core; [symmetry; apply G2 | exact Ht2].
Qed.

Lemma assign_mids_frame : forall ms i p p', assign_mids ms i p = Ok p' ->
  same_descs p p' /\ incl (p_seen p) (p_seen p') /\ incl (map m_mid ms) (p_seen p') /\
  p_transports p' = p_transports p.
Proof.
  induction ms as [|m ms IH]; intros i p p' H; cbn [assign_mids] in H.
  - injection H as <-. split; [apply same_descs_refl|]. repeat split; auto using incl_refl. intros x [].
  - destruct (sadd_incl (m_mid m) (p_seen p)) as [S1 S2].
    (* whatever the kind of m, the loop goes on from p with the mid of m seen and a transceiver or the sctp changed *)
    assert (G : exists q, assign_mids ms (S i) q = Ok p' /\ same_descs p q /\ p_seen q = sadd (m_mid m) (p_seen p) /\
                          p_transports q = p_transports p).
    { destruct (is_av (m_kind m)).
      - destruct (find_idx (mline_is i) (p_trs (set_seen p (sadd (m_mid m) (p_seen p))))); [|discriminate].
        eexists. split; [exact H|]. repeat split; reflexivity.
      - destruct (m_kind m =? 2); [destruct (p_sctp (set_seen p (sadd (m_mid m) (p_seen p)))); [|discriminate]|];
          (eexists; split; [exact H|]; repeat split; reflexivity). }
    destruct G as [q [Hr [E2 [E1 E3]]]]. destruct (IH _ _ _ Hr) as [I1 [I2 [I3 I4]]]. rewrite E1 in I2.
    split; [exact (same_descs_trans _ _ _ E2 I1)|]. split; [exact (incl_tran S1 I2)|].
    split; [|congruence]. cbn [map]. intros x [<-|Hx]; [apply I2; exact S2 | apply I3; exact Hx].
Qed.

Lemma local_roles_frame : forall ms i p p', local_roles ms i p = Ok p' ->
  same_descs p p' /\ p_seen p' = p_seen p /\ p_trs p' = p_trs p /\ p_sctp p' = p_sctp p.
Proof.
  induction ms as [|m ms IH]; intros i p p' H; cbn [local_roles] in H.
  - injection H as <-. split; [apply same_descs_refl|]. repeat split; reflexivity.
  - (* each branch goes on from p with at most the transports changed *)
    destruct (is_av (m_kind m)); [destruct (find (mline_is i) (p_trs p)); [|discriminate]|].
    + exact (IH _ _ _ H).
    + destruct (m_kind m =? 2); [destruct (p_sctp p) in H; [|discriminate]|]; exact (IH _ _ _ H).
Qed.

Lemma validate_answer : forall p d is_local, validate_description p d is_local = Ok tt -> d_type d = 1 ->
  (forall m, In m (d_media d) -> m_role m <> RAuto) /\
  exists o, (if is_local then remote_description p else local_description p) = Some o /\
            sections (Some d) = sections (Some o) /\
            p_state p = (if is_local then HaveRemoteOffer else HaveLocalOffer).
Proof.
  intros p d is_local H Ht. unfold validate_description in H. rewrite Ht in H. cbn [Z.eqb andb] in H.
  match type of H with (if negb ?c then _ else _) = _ => destruct c eqn:Est end; cbn [negb] in H; [|discriminate].
  destruct (existsb (fun m => match m_role m with RAuto => true | _ => false end) (d_media d)) eqn:Eex; [discriminate|].
  destruct (if is_local then remote_description p else local_description p) as [o|] eqn:Eo; [|discriminate].
  destruct (sections_eqb (sections (Some d)) (sections (Some o))) eqn:Es; [|discriminate].
  split.
  - intros m Hm Hr. assert (E : existsb (fun m => match m_role m with RAuto => true | _ => false end) (d_media d) = true).
    { apply existsb_exists. exists m. rewrite Hr. auto. }
    congruence.
  - exists o. split; [reflexivity|]. split; [apply sections_eqb_eq; exact Es|].
    destruct is_local; destruct (p_state p); try discriminate; reflexivity.
Qed.

Lemma set_local_description_spec : forall fixed p d p', set_local_description fixed p d = Ok p' ->
  validate_description p d true = Ok tt /\
  p_state p' = (if Z.eqb (d_type d) 0 then HaveLocalOffer else Stable) /\
  local_description p' = Some d /\ remote_description p' = remote_description p.
Proof.
  intros fixed p d p' H. unfold set_local_description in H.
  destruct (match p_state p with Closed => true | _ => false end); [discriminate|].
  destruct (validate_description p d true) as [[]| | |] eqn:Ev; cbn [bind] in H; try discriminate.
  bind_inv H p2 Hp2. bind_inv H p4 Hp4. bind_inv H p5 Hp5. injection H as H.
  (* from the new state on, only transceivers, sctp, transports and the seen mids change *)
  destruct (assign_mids_frame _ _ _ _ Hp2) as [A1 _].
  assert (C : same_descs p2 p4).
  { destruct (d_type d =? 1).
    - apply local_roles_frame in Hp4. destruct Hp4 as [R1 _]. destruct (d_type d =? 0); exact R1.
    - injection Hp4 as <-. destruct (d_type d =? 0); exact (same_descs_refl p2). }
  assert (D : same_descs p4 p5) by (destruct (d_type d =? 1); [bind_inv Hp5 trs Htrs|]; injection Hp5 as <-; exact (same_descs_refl p4)).
  pose proof (same_descs_trans _ _ _ A1 (same_descs_trans _ _ _ C D)) as E.
  (* an offer becomes the pending local description, an answer the current one with none pending *)
  assert (F : p_state p' = p_state p5 /\ local_description p' = Some d /\ remote_description p' = remote_description p5).
  { rewrite <- H. destruct (d_type d =? 1); repeat split; reflexivity. }
  destruct F as [F1 [F2 F3]]. split; [reflexivity|]. split; [rewrite F1; exact (proj2 (proj2 (proj2 (proj2 E))))|].
  split; [exact F2 | rewrite F3; exact (proj2 (same_descs_eq _ _ E))].
Qed.

Definition answer_role (r : role) : role := match r with RAuto => RClient | x => x end.

Definition answer_rel (p : pc) (mo ma : media) : Prop :=
  (is_av (m_kind mo) = true /\
   exists t dd tr, find (mid_is (m_mid mo)) (p_trs p) = Some t /\
                   and_direction (Some (t_direction t)) (t_offerDirection t) = Ok dd /\
                   tr_get (p_transports p) (t_transport t) = Some tr /\
                   ma = media_for_transceiver t dd (m_mid mo) (answer_role (tr_role tr))) \/
  (is_av (m_kind mo) = false /\
   exists s mid tr, p_sctp p = Some s /\ s_mid s = Some mid /\
                    tr_get (p_transports p) (s_transport s) = Some tr /\
                    ma = media_for_sctp mid (answer_role (tr_role tr))).

Lemma answer_media_spec : forall p ms out, answer_media p ms = Ok out -> Forall2 (answer_rel p) ms out.
Proof.
  intro p. induction ms as [|m ms IH]; intros out H; cbn [answer_media] in H.
  - injection H as <-. constructor.
  - bind_inv H x Hx. bind_inv H rest Hrest. injection H as <-.
    constructor; [|apply IH; exact Hrest].
    destruct (is_av (m_kind m)) eqn:Eav.
    + left. split; [exact Eav|].
      destruct (find (mid_is (m_mid m)) (p_trs p)) as [t|] eqn:Ef; [|discriminate].
      bind_inv Hx dd Hdd.
      destruct (find_some _ _ Ef) as [_ Hmid]. apply mid_is_true in Hmid. rewrite Hmid in Hx.
      destruct (tr_get (p_transports p) (t_transport t)) as [tr|] eqn:Etr; [|discriminate].
      injection Hx as <-. exists t, dd, tr. split; [reflexivity|]. split; [exact Hdd|]. split; [exact Etr|]. unfold answer_role. destruct (tr_role tr); reflexivity.
    + right. split; [exact Eav|].
      destruct (p_sctp p) as [s|]; [|discriminate].
      destruct (s_mid s) as [mid|] eqn:Em; [|discriminate].
      destruct (tr_get (p_transports p) (s_transport s)) as [tr|] eqn:Etr; [|discriminate].
      injection Hx as <-. exists s, mid, tr. split; [reflexivity|]. split; [exact Em|]. split; [exact Etr|]. unfold answer_role. destruct (tr_role tr); reflexivity.
Qed.

Lemma create_answer_spec : forall p d, create_answer p = Ok d ->
  p_state p = HaveRemoteOffer /\ d_type d = 1 /\ d_bundle d = map m_mid (d_media d) /\
  exists o, remote_description p = Some o /\ Forall2 (answer_rel p) (d_media o) (d_media d).
Proof.
  intros p d H. unfold create_answer in H.
  destruct (p_state p); try discriminate.
  destruct (remote_description p) as [o|]; [|discriminate].
  bind_inv H ms Hms. injection H as <-.
  repeat split. exists o. split; [reflexivity|]. apply answer_media_spec. exact Hms.
Qed.

Lemma offer_new_mids : forall trs next mids trs' out mids',
  offer_new trs next mids = Ok (trs', out, mids') ->
  NoDup (map m_mid out) /\ (forall mu, In mu (map m_mid out) -> ~ In mu mids) /\
  incl mids mids' /\ incl (map m_mid out) mids'.
Proof.
  induction trs as [|t ts IH]; intros next mids trs' out mids' H; cbn [offer_new] in H.
  - injection H as _ <- <-. repeat split; auto using incl_refl; try constructor; intros ? [].
  - destruct (t_mid t).
    + bind_inv H r Hr. destruct r as [[ts' out2] mids2]. injection H as _ <- <-. eapply IH. exact Hr.
    + bind_inv H m Hm. bind_inv H r Hr. destruct r as [[ts' out2] mids2]. injection H as _ <- <-.
      destruct (IH _ _ _ _ _ Hr) as [I1 [I2 [I3 I4]]].
      apply allocate_mid_fresh in Hm. destruct Hm as [Hm _].
      cbn [map media_for_transceiver m_mid]. split.
      * constructor; [|exact I1]. intro Hin. apply (I2 _ Hin). left. reflexivity.
      * split; [|split].
        -- intros mu [<-|Hmu]; [exact Hm|]. intro Hc. apply (I2 _ Hmu). right. exact Hc.
        -- intros x Hx. apply I3. right. exact Hx.
        -- intros x [<-|Hx]; [apply I3; left; reflexivity | apply I4; exact Hx].
Qed.

Lemma create_offer_spec : forall T p p1 d, create_offer T p = Ok (p1, d) ->
  d_type d = 0 /\ d_bundle d = map m_mid (d_media d) /\ exists trs0, offer_codecs T (p_trs p) = Ok trs0.
Proof.
  intros T p p1 d H. unfold create_offer in H.
  destruct (match p_state p with Closed => true | _ => false end); [discriminate|].
  bind_inv H trs0 Htrs0. bind_inv H r1 Hr1. destruct r1 as [[trs1 out1] sm1].
  bind_inv H r2 Hr2. destruct r2 as [[trs2 out2] mids2].
  bind_inv H r3 Hr3. destruct r3 as [out3 sm3]. injection H as <- <-. eauto.
Qed.

Definition section_ok (T : tables) (mo ma : media) : Prop :=
  is_av (m_kind mo) = true ->
  exists c0 prefs d_o d_a d_b,
    find_common_codecs (CODECS T (m_kind mo)) (m_codecs mo) = Ok c0 /\
    filter_preferred_codecs c0 prefs = Ok (m_codecs ma) /\ m_codecs ma <> [] /\
    m_exts ma = find_common_header_extensions (HEADER_EXTENSIONS T (m_kind mo)) (m_exts mo) /\
    m_dir mo = Some d_o /\ m_dir ma = Some d_a /\
    and_direction (Some d_b) (Some (reverse_direction d_o)) = Ok d_a.

Record mirrors (T : tables) (x : exchanged) : Prop := mkMirrors {
  mr_stable_a : p_state (x_a x) = Stable;
  mr_stable_b : p_state (x_b x) = Stable;
  mr_types : d_type (x_offer x) = 0 /\ d_type (x_answer x) = 1;
  mr_sections : sections (Some (x_answer x)) = sections (Some (x_offer x));
  mr_bundle : d_bundle (x_offer x) = map m_mid (d_media (x_offer x)) /\ d_bundle (x_answer x) = d_bundle (x_offer x);
  mr_roles : forall m, In m (d_media (x_answer x)) -> m_role m = RClient \/ m_role m = RServer;
  mr_media : Forall2 (section_ok T) (d_media (x_offer x)) (d_media (x_answer x))
}.

Lemma exchange_steps : forall fixed T a b x, exchange fixed T a b = Ok x ->
  exists a1 offer a2 b1 answer b2 a3,
    create_offer T a = Ok (a1, offer) /\ set_local_description fixed a1 offer = Ok a2 /\
    set_remote_description fixed T b offer = Ok b1 /\ create_answer b1 = Ok answer /\
    set_local_description fixed b1 answer = Ok b2 /\ set_remote_description fixed T a2 answer = Ok a3 /\
    x = mkExchanged a3 b2 offer answer.
Proof.
  intros fixed T a b x H. unfold exchange in H.
  bind_inv H r Hr. destruct r as [a1 offer]. bind_inv H a2 Ha2. bind_inv H b1 Hb1. bind_inv H answer Han.
  bind_inv H b2 Hb2. bind_inv H a3 Ha3. injection H as <-.
  exists a1, offer, a2, b1, answer, b2, a3. repeat split; assumption.
Qed.

(* what an exchange that returns Ok leaves, whatever the connections were: all of `mirrors` but the media *)
Lemma exchange_shape : forall fixed T a b x, exchange fixed T a b = Ok x ->
  p_state (x_a x) = Stable /\ p_state (x_b x) = Stable /\
  (d_type (x_offer x) = 0 /\ d_type (x_answer x) = 1) /\
  sections (Some (x_answer x)) = sections (Some (x_offer x)) /\
  (d_bundle (x_offer x) = map m_mid (d_media (x_offer x)) /\ d_bundle (x_answer x) = d_bundle (x_offer x)) /\
  (forall m, In m (d_media (x_answer x)) -> m_role m = RClient \/ m_role m = RServer).
Proof.
  intros fixed T a b x H.
  destruct (exchange_steps _ _ _ _ _ H) as [a1 [offer [a2 [b1 [answer [b2 [a3 [H1 [H2 [H3 [H4 [H5 [H6 ->]]]]]]]]]]]]].
  cbn [x_a x_b x_offer x_answer].
  destruct (create_offer_spec _ _ _ _ H1) as [O1 [O2 _]].
  destruct (set_remote_description_spec _ _ _ _ _ H3) as [_ [R3 _]].
  destruct (create_answer_spec _ _ H4) as [_ [A2 [A3 _]]].
  destruct (set_local_description_spec _ _ _ _ H5) as [L1 [L2 _]].
  destruct (validate_answer _ _ _ L1 A2) as [V1 [o [V2 [V3 _]]]]. rewrite R3 in V2. injection V2 as <-.
  destruct (set_remote_description_spec _ _ _ _ _ H6) as [S2 _].
  split; [rewrite S2, A2; reflexivity|]. split; [rewrite L2, A2; reflexivity|]. split; [auto|]. split; [exact V3|]. split.
  - split; [exact O2|]. rewrite A3, O2. exact (proj1 (sections_mids _ _ V3)).
  - intros m Hm. specialize (V1 m Hm). destruct (m_role m); [congruence | left | right]; reflexivity.
Qed.

Lemma exchange_descs : forall fixed T a b x, exchange fixed T a b = Ok x ->
  local_description (x_a x) = Some (x_offer x) /\ remote_description (x_a x) = Some (x_answer x) /\
  local_description (x_b x) = Some (x_answer x) /\ remote_description (x_b x) = Some (x_offer x).
Proof.
  intros fixed T a b x H.
  destruct (exchange_steps _ _ _ _ _ H) as [a1 [offer [a2 [b1 [answer [b2 [a3 [H1 [H2 [H3 [H4 [H5 [H6 ->]]]]]]]]]]]]].
  cbn [x_a x_b x_offer x_answer].
  destruct (set_local_description_spec _ _ _ _ H2) as [_ [_ [A3 _]]].
  destruct (set_remote_description_spec _ _ _ _ _ H6) as [_ [B3 [B4 _]]].
  destruct (set_remote_description_spec _ _ _ _ _ H3) as [_ [C3 _]].
  destruct (set_local_description_spec _ _ _ _ H5) as [_ [_ [D3 D4]]].
  split; [congruence|]. split; [exact B3|]. split; [exact D3 | congruence].
Qed.

Lemma apply_op_same : forall T p o p', apply_op T p o = Ok p' -> same_descs p p' /\ p_seen p' = p_seen p.
Proof.
  intros T p o p' H.
  assert (Hnew : forall d k h, same_descs p (create_transceiver p d k h) /\ p_seen (create_transceiver p d k h) = p_seen p).
  { intros d k h. destruct (create_transceiver_spec p d k h) as [bd [id [_ [_ [Hs _]]]]].
    split; [exact (proj2 Hs) | exact (proj1 Hs)]. }
  destruct o as [k|k d h| |i prefs|i d]; cbn [apply_op] in H.
  - unfold add_track in H. destruct (negb (is_av k)); [discriminate|].
    destruct (find_idx (fun t => (t_kind t =? k) && negb (t_hastrack t)) (p_trs p)) as [i|]; [|injection H as <-; apply Hnew].
    destruct (nth_error (p_trs p) i) as [t|]; [|discriminate]. bind_inv H d Hd. injection H as <-.
    split; [exact (same_descs_refl p) | reflexivity].
  - unfold add_transceiver in H. destruct (negb (is_av k)); [discriminate|]. injection H as <-. apply Hnew.
  - unfold create_data_channel in H. destruct (p_sctp p); injection H as <-; [split; [apply same_descs_refl | reflexivity]|].
    destruct (create_sctp_spec p) as [_ [Hs _]]. split; [exact (proj2 Hs) | exact (proj1 Hs)].
  - unfold pc_set_prefs in H. destruct (nth_error (p_trs p) i) as [t|]; [|discriminate].
    bind_inv H u Hu. injection H as <-. split; [exact (same_descs_refl p) | reflexivity].
  - unfold pc_set_direction in H. destruct (nth_error (p_trs p) i) as [t|]; [|discriminate].
    injection H as <-. split; [exact (same_descs_refl p) | reflexivity].
Qed.

Lemma section_ok_codecs : forall T mo ma, section_ok T mo ma -> is_av (m_kind mo) = true ->
  m_codecs ma <> [] /\
  (forall c, In c (m_codecs ma) -> exists c', In c' (m_codecs mo) /\ accepted (CODECS T (m_kind mo)) c c') /\
  (forall x, In x (m_exts ma) -> In x (m_exts mo)) /\
  (forall p1 r p2, m_codecs ma = p1 ++ r :: p2 -> is_rtx r = true ->
     exists apt b, pget (c_params r) key_apt = Some (PInt apt) /\ In b p1 /\ is_rtx b = false /\ c_pt b = apt) /\
  (exists d_o d_a, m_dir mo = Some d_o /\ m_dir ma = Some d_a /\
                   (sends d_a = true -> recvs d_o = true) /\ (recvs d_a = true -> sends d_o = true)).
Proof.
  intros T mo ma H Hav. destruct (H Hav) as [c0 [prefs [d_o [d_a [d_b [H1 [H2 [H3 [H4 [H5 [H6 H7]]]]]]]]]]].
  split; [exact H3|]. split; [|split; [|split]].
  - intros c Hc. apply (filter_preferred_incl _ _ _ H2) in Hc.
    destruct (find_common_codecs_sublist _ _ _ H1) as [sel [S1 S2]].
    destruct (Forall2_In_r _ _ _ _ _ _ S2 Hc) as [c' [Hc' Hacc]].
    exists c'. split; [eapply sublist_In; eauto | exact Hacc].
  - intros x Hx. rewrite H4 in Hx. apply common_ext_in in Hx. tauto.
  - intros p1 r p2 E Hr. destruct prefs as [|p ps].
    + injection H2 as E2. rewrite <- E2 in E.
      destruct (find_common_codecs_rtx _ _ _ H1 p1 r p2 E Hr) as [apt [b [G1 [G2 [G3 [G4 G5]]]]]].
      exists apt, b. auto.
    + assert (B : pref_blocks c0 (p :: ps) (m_codecs ma)) by (apply filter_preferred_blocks; [discriminate | exact H2]).
      rewrite E in B. destruct (rtx_after_split _ p1 [] r p2 (pref_blocks_rtx _ _ _ B []) Hr) as [c [G0 [G1 G2]]].
      exists (c_pt c), c. auto.
  - exists d_o, d_a. split; [exact H5|]. split; [exact H6|].
    apply and_direction_spec in H7. destruct H7 as [S R]. destruct (reverse_direction_spec d_o) as [RS RR].
    rewrite RS in S. rewrite RR in R. split; intro E.
    + rewrite E in S. symmetry in S. apply andb_true_iff in S. tauto.
    + rewrite E in R. symmetry in R. apply andb_true_iff in R. tauto.
Qed.
