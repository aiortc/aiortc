(* C17: the NACK generator (loss detection of the RTP receiver) does not depend on the origin
   of the RTP sequence numbers: shifting every sequence number by any delta (mod 2^16) - in
   particular so that the stream crosses 65535 -> 0 - yields the same `missed` verdicts and the
   same set of missing packets, shifted. *)
From Coq Require Import ZArith List Bool Lia ZifyBool.
From AV Require Import Lib.Bytes Gen.Utils Gen.RtpConst Model.RtpRecv Proof.SerialP Proof.SctpSsnShiftP.
Import ListNotations.
Local Open Scope Z_scope.

Ltac Zify.zify_post_hook ::= Z.to_euclidean_division_equations.

Section NackShift.
Variable e : Z.
Notation sh := (sh16 e).

Definition shg (g : nackgen) : nackgen := mkNack (option_map sh (max_seq g)) (map sh (missing g)).
Definition gok (g : nackgen) : Prop :=
  match max_seq g with Some m => in16 m | None => True end /\ Forall in16 (missing g).

Lemma sh_add_any a d : uint16_add (sh a) d = sh (uint16_add a d).
Proof. rewrite !uint16_add_mod. unfold sh16. lia. Qed.

Lemma mark_loop_sh : forall fuel target seq miss missed, in16 target -> in16 seq ->
  mark_loop fuel (sh target) (sh seq) (map sh miss) missed =
  option_map (fun p => (map sh (fst p), snd p)) (mark_loop fuel target seq miss missed).
Proof.
  induction fuel as [|f IH]; intros target seq miss missed Ht Hs; cbn [mark_loop]; [reflexivity|].
  rewrite sh16_gt by assumption. destruct (uint16_gt target seq); [|reflexivity].
  rewrite sh_add_any. change (sh seq :: map sh miss) with (map sh (seq :: miss)).
  apply IH; [exact Ht|apply uint16_add_range].
Qed.

Lemma mark_loop_ok : forall fuel target seq miss missed l b, in16 seq -> Forall in16 miss ->
  mark_loop fuel target seq miss missed = Some (l, b) -> Forall in16 l.
Proof.
  induction fuel as [|f IH]; intros target seq miss missed l b Hs Hm H; cbn [mark_loop] in H; [discriminate|].
  destruct (uint16_gt target seq).
  - eapply IH; [| |exact H]; [apply uint16_add_range|constructor; assumption].
  - injection H as <- _. exact Hm.
Qed.

Lemma filter_sh (p q : Z -> bool) : forall l, Forall in16 l -> (forall x, in16 x -> q (sh x) = p x) ->
  filter q (map sh l) = map sh (filter p l).
Proof.
  induction l as [|x l IH]; intros Hl Hpq; [reflexivity|]. inversion Hl as [|? ? Hx Hl']; subst.
  cbn [map filter]. rewrite (Hpq x Hx). destruct (p x); cbn [map]; rewrite IH by assumption; reflexivity.
Qed.

Lemma truncate_sh g : gok g -> truncate (shg g) = shg (truncate g).
Proof.
  destruct g as [ms l]. intros [Hm Hl]. unfold truncate, shg. cbn [max_seq missing] in *. destruct ms as [m|]; cbn [option_map max_seq missing]; [|reflexivity].
  f_equal. rewrite sh_add_any. apply filter_sh; [exact Hl|].
  intros x Hx. rewrite sh16_gt; [reflexivity|apply uint16_add_range|exact Hx].
Qed.

Lemma truncate_ok g : gok g -> gok (truncate g).
Proof.
  intros [Hm Hl]. unfold truncate, gok. destruct (max_seq g) as [m|] eqn:E; cbn [max_seq missing]; [|rewrite E; auto].
  split; [exact Hm|]. apply Forall_forall. intros x Hx. apply filter_In in Hx as [Hx _]. rewrite Forall_forall in Hl. auto.
Qed.

Lemma discard_sh x l : in16 x -> Forall in16 l -> discard (sh x) (map sh l) = map sh (discard x l).
Proof.
  intros Hx Hl. unfold discard. apply filter_sh; [exact Hl|]. intros y Hy. now rewrite sh16_eqb.
Qed.

Lemma nack_add_sh g x : gok g -> in16 x ->
  nack_add (shg g) (sh x) = option_map (fun p => (shg (fst p), snd p)) (nack_add g x) /\
  (forall g' b, nack_add g x = Some (g', b) -> gok g').
Proof.
  intros [Hm Hl] Hx. unfold nack_add. cbn [shg max_seq missing].
  destruct (max_seq g) as [m|] eqn:Em; cbn [option_map].
  - rewrite sh16_gt by assumption. destruct (uint16_gt x m).
    + rewrite sh_add_any, mark_loop_sh by (auto; apply uint16_add_range).
      destruct (mark_loop MARK_FUEL x (uint16_add m 1) (missing g) false) as [[miss missed]|] eqn:Eml; cbn [option_map fst snd].
      * assert (G : gok (mkNack (Some x) miss)).
        { split; [exact Hx|]. eapply mark_loop_ok; [| |exact Eml]; [apply uint16_add_range|exact Hl]. }
        split.
        -- f_equal. f_equal. exact (truncate_sh (mkNack (Some x) miss) G).
        -- intros g' b H. injection H as <- _. now apply truncate_ok.
      * split; [reflexivity|discriminate].
    + assert (G : gok (mkNack (Some m) (discard x (missing g)))).
      { split; [exact Hm|]. apply Forall_forall. intros y Hy. apply filter_In in Hy as [Hy _]. rewrite Forall_forall in Hl. auto. }
      split.
      * cbn [option_map fst snd]. f_equal. f_equal. rewrite discard_sh by assumption.
        exact (truncate_sh (mkNack (Some m) (discard x (missing g))) G).
      * intros g' b H. injection H as <- _. now apply truncate_ok.
  - split; [reflexivity|]. intros g' b H. injection H as <- _. split; [exact Hx|exact Hl].
Qed.

Theorem nack_shift_invariant : forall l g, gok g -> Forall in16 l ->
  nack_trace (shg g) (map sh l) =
  (map (fun p => (fst p, shg (snd p))) (fst (nack_trace g l)), snd (nack_trace g l)).
Proof.
  induction l as [|x l IH]; intros g Hg Hl; [reflexivity|]. inversion Hl as [|? ? Hx Hl']; subst.
  cbn [map nack_trace]. destruct (nack_add_sh g x Hg Hx) as [E Hok]. rewrite E.
  destruct (nack_add g x) as [[g' b]|]; cbn [option_map fst snd]; [|reflexivity].
  rewrite (IH g' (Hok g' b eq_refl) Hl'). destruct (nack_trace g' l) as [t err]. reflexivity.
Qed.
End NackShift.

Theorem nack_origin_independent e l : Forall in16 l ->
  nack_trace nack_init (map (sh16 e) l) =
  (map (fun p => (fst p, shg e (snd p))) (fst (nack_trace nack_init l)), snd (nack_trace nack_init l)).
Proof. intros Hl. apply (nack_shift_invariant e l nack_init); [split; [exact I|constructor]|exact Hl]. Qed.
