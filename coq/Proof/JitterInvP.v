(* Proofs about Model/Jitter.v, part 2: the ring invariant, "never raises",
   frame integrity and PLI-on-discard, proved on the window-level buffer of
   JitterP.v and transported to the model through `run_refines`. *)
From Coq Require Import ZArith List Bool Lia.
From AV Require Import Lib.Sx Lib.Bytes Gen.Utils Gen.JbConst Model.Jitter Proof.JitterP.
Import ListNotations.
Local Open Scope Z_scope.

(* every packet in the window sits at its distance from the origin and has been received *)
Definition Good (H : list pkt) (o : Z) (w : W) : Prop :=
  forall k q, nth_error w k = Some (Some q) -> pseq q = uint16_add o (Z.of_nat k) /\ In q H.

Definition AInv (H : list pkt) (a : jb) : Prop :=
  0 < cap a /\ length (slots a) = Z.to_nat (cap a) /\
  match origin a with
  | None => slots a = repeat None (Z.to_nat (cap a))
  | Some o => 0 <= o < 65536 /\ Good H o (slots a)
  end.

Lemma Good_repeat H o n : Good H o (repeat None n).
Proof.
  intros k q E. apply nth_error_In in E. apply repeat_spec in E. discriminate.
Qed.

Lemma Good_mono H H' o w : incl H H' -> Good H o w -> Good H' o w.
Proof. intros Hi G k q E. destruct (G k q E) as [E1 E2]. split; [exact E1|apply Hi; exact E2]. Qed.

Lemma Good_remove H o w b : (b <= length w)%nat -> Good H o w ->
  Good H (uint16_add o (Z.of_nat b)) (w_remove w b).
Proof.
  intros Hb G k q E. assert (Hk : (k < length w)%nat).
  { apply nth_error_some_lt in E. rewrite w_remove_length in E by exact Hb. exact E. }
  rewrite w_remove_nth in E by lia. destruct (Nat.ltb_spec (k + b) (length w)) as [H1|H1]; [|discriminate].
  destruct (G _ _ E) as [E1 E2]. split; [|exact E2]. rewrite E1, uint16_add_add. f_equal. lia.
Qed.

Lemma Good_set H o w p : seq16 p -> Good H o w -> Good (p :: H) o (placed p o w).
Proof.
  intros Hp G k q E. unfold placed in E. rewrite w_set_nth in E.
  destruct (Nat.eqb_spec k (Z.to_nat (uint16_add (pseq p) (- o)))) as [Ek|Ek]; cbn [andb] in E.
  - destruct (Nat.ltb (Z.to_nat (uint16_add (pseq p) (- o))) (length w)).
    + injection E as <-. split; [|left; reflexivity]. subst k.
      pose proof (uint16_add_range (pseq p) (- o)). rewrite Z2Nat.id by lia.
      symmetry. apply uint16_delta_back. exact Hp.
    + destruct (G _ _ E) as [E1 E2]. split; [exact E1|right; exact E2].
  - destruct (G _ _ E) as [E1 E2]. split; [exact E1|right; exact E2].
Qed.

Definition frame_of (ps : list pkt) (f : frame) : Prop :=
  ps <> [] /\ Forall (fun q => pts q = fts f) ps /\ fdata f = concat (map pdata ps).

Fixpoint consec (ps : list pkt) : Prop :=
  match ps with
  | a :: (b :: _) as t => pseq b = uint16_add (pseq a) 1 /\ consec t
  | _ => True
  end.

(* what the scan of _remove_frame finds in the window w0: the packets ps of the frame f, r of them,
   followed by a packet of another timestamp *)
Definition rf_done (w0 : W) (f : frame) (r : Z) : Prop :=
  exists ps q rest, frame_of ps f /\ w0 = map Some ps ++ Some q :: rest /\ r = Z.of_nat (length ps) /\
                    pts q <> fts f.

Lemma w_rf_spec w : forall pf frames packets rem tsv f r,
  match tsv with
  | None => packets = []
  | Some t => packets <> [] /\ Forall (fun q => pts q = t) packets
  end ->
  w_rf w (Z.of_nat (length packets)) pf None frames packets rem tsv = Some (f, r) ->
  rf_done (map Some packets ++ w) f r.
Proof.
  induction w as [|h t IH]; intros pf frames packets rem tsv f r Hts H; cbn [w_rf] in H; [discriminate|].
  destruct h as [p|]; [|discriminate].
  assert (Hnext : forall ts, Forall (fun q => pts q = ts) (packets ++ [p]) ->
            w_rf t (Z.of_nat (length packets) + 1) pf None frames (packets ++ [p]) rem (Some ts) = Some (f, r) ->
            rf_done (map Some packets ++ Some p :: t) f r).
  { intros ts Hall Hw.
    replace (Z.of_nat (length packets) + 1) with (Z.of_nat (length (packets ++ [p]))) in Hw
      by (rewrite app_length; cbn [length]; lia).
    apply IH in Hw; [|split; [destruct packets; discriminate|exact Hall]].
    rewrite map_app, <- app_assoc in Hw. exact Hw. }
  destruct tsv as [ts|].
  - destruct Hts as [Hne Hall].
    destruct (Z.eqb_spec (pts p) ts) as [Ets|Ets]; cbn [negb] in H.
    + apply (Hnext ts); [|exact H]. apply Forall_app. split; [exact Hall|]. constructor; [exact Ets|constructor].
    + (* timestamp change: the first frame is complete, and is what comes out now or later *)
      assert (E : f = mkFrame ts (concat (map pdata packets)) /\ r = Z.of_nat (length packets)).
      { destruct (frames + 1 >=? pf); [injection H as <- <-; auto|]. exact (w_rf_range _ _ _ _ _ _ _ _ _ _ H). }
      destruct E as [-> ->]. exists packets, p, t. split; [|auto].
      split; [exact Hne|]. split; [exact Hall|reflexivity].
  - subst packets. apply (Hnext (pts p)); [|exact H]. constructor; [reflexivity|constructor].
Qed.

Lemma w_frame_spec w pf f r : w_frame w pf = Some (f, r) -> rf_done w f r.
Proof. exact (w_rf_spec w pf 0 [] 0 None f r eq_refl). Qed.

Lemma consec_of_run o ps :
  (forall j q, nth_error ps j = Some q -> pseq q = uint16_add o (Z.of_nat j)) -> consec ps.
Proof.
  revert o. induction ps as [|a [|b t] IH]; intros o H; cbn [consec]; [exact I|exact I|].
  split.
  - rewrite (H 0%nat a eq_refl), (H 1%nat b eq_refl), uint16_add_add. reflexivity.
  - apply (IH (uint16_add o 1)). intros j q E. rewrite (H (S j) q E), uint16_add_add. f_equal. lia.
Qed.

Lemma Good_run H o ps w j x : Good H o (map Some ps ++ w) -> nth_error ps j = Some x ->
  pseq x = uint16_add o (Z.of_nat j) /\ In x H.
Proof.
  intros G E. apply G. rewrite nth_error_app1 by (rewrite map_length; eapply nth_error_some_lt; exact E).
  rewrite nth_error_map, E. reflexivity.
Qed.

Lemma Good_next H o ps q w : Good H o (map Some ps ++ Some q :: w) ->
  pseq q = uint16_add o (Z.of_nat (length ps)) /\ In q H.
Proof.
  intros G. apply G. rewrite nth_error_app2 by (rewrite map_length; lia).
  rewrite map_length, Nat.sub_diag. reflexivity.
Qed.

Lemma AInv_mono H H' a : incl H H' -> AInv H a -> AInv H' a.
Proof.
  intros Hi (Hc & HL & HO). split; [exact Hc|]. split; [exact HL|]. destruct (origin a); [|exact HO].
  destruct HO as [Ho G]. split; [exact Ho|]. eapply Good_mono; eassumption.
Qed.

Lemma start_good H a p o1 w1 pli : AInv H a -> seq16 p -> start a p o1 w1 pli ->
  0 <= o1 < 65536 /\ length w1 = Z.to_nat (cap a) /\ Good H o1 w1.
Proof.
  intros (_ & HL & HO) Hp HS.
  assert (Hclear : 0 <= pseq p < 65536 /\ length (repeat (@None pkt) (length (slots a))) = Z.to_nat (cap a) /\
                   Good H (pseq p) (repeat None (length (slots a)))).
  { split; [exact Hp|]. split; [rewrite repeat_length; exact HL|apply Good_repeat]. }
  destruct HS as [EO|o EO _ _|o EO|o b EO Hb|]; rewrite ?EO in HO; try exact Hclear.
  - split; [exact Hp|]. split; [exact HL|rewrite HO; apply Good_repeat].
  - destruct HO as [Ho G]. auto.
  - destruct HO as [Ho G]. split; [apply uint16_add_range|].
    split; [rewrite w_remove_length; lia|apply Good_remove; [lia|exact G]].
Qed.

Lemma w_remove_app (l1 l2 : W) n : length l1 = n -> w_remove (l1 ++ l2) n = l2 ++ repeat None n.
Proof. intros <-. unfold w_remove. rewrite skipn_app, skipn_all, Nat.sub_diag. reflexivity. Qed.

Lemma a_tail_cases a p o1 w1 pli :
  a_tail a p o1 w1 pli =
    (mkJb (cap a) (prefetch a) (is_video a) (Some o1) (placed p o1 w1), (pli, None)) \/
  exists f ps q rest,
    frame_of ps f /\ placed p o1 w1 = map Some ps ++ Some q :: rest /\ pts q <> fts f /\
    a_tail a p o1 w1 pli =
      (mkJb (cap a) (prefetch a) (is_video a) (Some (uint16_add o1 (Z.of_nat (length ps))))
            (w_remove (placed p o1 w1) (length ps)), (pli, Some f)).
Proof.
  unfold a_tail.
  destruct (w_frame (placed p o1 w1) (prefetch a)) as [[f r]|] eqn:EF; [right|left; reflexivity].
  destruct (w_frame_spec _ _ _ _ EF) as (ps & q & rest & Hf & Ew & -> & Hts).
  rewrite Nat2Z.id. exists f, ps, q, rest. auto.
Qed.

Lemma placed_keeps H p o1 w1 q : seq16 p -> Good H o1 w1 -> In (Some q) w1 ->
  pseq q = pseq p \/ In (Some q) (placed p o1 w1).
Proof.
  intros Hp G Hin. apply In_nth_error in Hin. destruct Hin as [k Ek].
  destruct (Nat.eq_dec k (Z.to_nat (uint16_add (pseq p) (- o1)))) as [->|Hne].
  - left. destruct (G _ _ Ek) as [E1 _]. rewrite E1.
    pose proof (uint16_add_range (pseq p) (- o1)). rewrite Z2Nat.id by lia.
    apply uint16_delta_back. exact Hp.
  - right. apply (nth_error_In _ k). unfold placed. rewrite w_set_nth.
    destruct (Nat.eqb_spec k (Z.to_nat (uint16_add (pseq p) (- o1)))); [contradiction|]. exact Ek.
Qed.

Definition frame_part (fr : option frame) (ps : list pkt) : Prop :=
  match fr with
  | None => ps = []
  | Some f => frame_of ps f /\ consec ps
  end.

Lemma a_tail_char H a p o1 w1 pli :
  0 < cap a -> seq16 p -> 0 <= o1 < 65536 -> length w1 = Z.to_nat (cap a) -> Good H o1 w1 ->
  AInv (p :: H) (fst (a_tail a p o1 w1 pli)) /\
  exists ps,
    frame_part (snd (snd (a_tail a p o1 w1 pli))) ps /\ incl ps (p :: H) /\
    forall q, In (Some q) w1 ->
              In q ps \/ In (Some q) (slots (fst (a_tail a p o1 w1 pli))) \/ pseq q = pseq p.
Proof.
  intros Hc Hp Ho HL G.
  pose proof (Good_set H o1 w1 p Hp G) as G2.
  assert (HL2 : length (placed p o1 w1) = Z.to_nat (cap a)) by (unfold placed; rewrite w_set_length; exact HL).
  destruct (a_tail_cases a p o1 w1 pli) as [E|(f & ps & q & rest & Hf & Ew & Hts & E)]; rewrite E;
    unfold AInv; cbn [fst snd slots cap origin].
  - split; [auto|]. exists []. split; [reflexivity|]. split; [intros x []|].
    intros x Hx. destruct (placed_keeps H p o1 w1 x Hp G Hx); auto.
  - assert (Hn : (length ps < length (placed p o1 w1))%nat).
    { rewrite Ew, app_length, map_length. cbn [length]. lia. }
    split.
    { split; [exact Hc|]. split; [rewrite w_remove_length; lia|]. split; [apply uint16_add_range|].
      apply Good_remove; [lia|exact G2]. }
    rewrite Ew in G2. exists ps. split; [|split].
    + split; [exact Hf|]. apply (consec_of_run o1). intros j x Ex. exact (proj1 (Good_run _ _ _ _ _ _ G2 Ex)).
    + intros x Hx. apply In_nth_error in Hx. destruct Hx as [j Ej]. exact (proj2 (Good_run _ _ _ _ _ _ G2 Ej)).
    + intros x Hx. destruct (placed_keeps H p o1 w1 x Hp G Hx) as [Hs|Hin]; [auto|].
      rewrite Ew in Hin |- *. apply in_app_or in Hin. destruct Hin as [Hin|Hin].
      * left. apply in_map_iff in Hin. destruct Hin as (y & Ey & Hy). injection Ey as ->. exact Hy.
      * right. left. rewrite (w_remove_app _ _ (length ps)) by apply map_length.
        apply in_or_app. left. exact Hin.
Qed.

Theorem a_add_char H a p :
  AInv H a -> seq16 p ->
  AInv (p :: H) (fst (a_add a p)) /\
  (is_video a = false -> fst (snd (a_add a p)) = false) /\
  exists ps,
    frame_part (snd (snd (a_add a p))) ps /\ incl ps (p :: H) /\
    (is_video a = true -> fst (snd (a_add a p)) = false ->
     forall q, In (Some q) (slots a) ->
       In q ps \/ In (Some q) (slots (fst (a_add a p))) \/ pseq q = pseq p).
Proof.
  intros HI Hp. pose proof (proj1 HI) as Hc.
  destruct (a_add_cases a p Hc) as [E|(o1 & w1 & pli & HS & E)]; rewrite E.
  - cbn [fst snd]. split; [apply (AInv_mono H); [apply incl_tl, incl_refl|exact HI]|].
    split; [reflexivity|]. exists []. split; [reflexivity|]. split; [intros x []|]. auto.
  - destruct (start_good H a p o1 w1 pli HI Hp HS) as (Ho1 & HL1 & G1).
    destruct (a_tail_char H a p o1 w1 pli Hc Hp Ho1 HL1 G1) as (I1 & ps & F1 & In1 & K1).
    rewrite a_tail_flag. split; [exact I1|]. split.
    { intros Hv. destruct (start_flag _ _ _ _ _ HS) as [->| ->]; [reflexivity|exact Hv]. }
    exists ps. split; [exact F1|]. split; [exact In1|].
    intros Hv ->. destruct (start_quiet a p o1 w1 HS Hv) as [-> _]. exact K1.
Qed.

Lemma a_init_inv c pf v : 0 < c -> AInv [] (a_init c pf v).
Proof. intros Hc. unfold AInv, a_init. cbn [slots cap origin]. rewrite repeat_length. auto. Qed.

Lemma a_run_inv l : forall a H,
  AInv H a -> Forall seq16 l -> AInv (rev l ++ H) (fst (a_run a l)) /\ static (fst (a_run a l)) = static a.
Proof.
  induction l as [|p l IH]; intros a H HI HF; cbn [a_run fst rev app]; [auto|].
  inversion HF as [|? ? Hp HF']; subst.
  destruct (a_add_char H a p HI Hp) as (I1 & _).
  rewrite <- app_assoc, <- (a_add_static a p (proj1 HI)). cbn [app]. apply IH; assumption.
Qed.

Lemma a_run_frames l : forall a H n pli f,
  AInv H a -> Forall seq16 l ->
  nth_error (snd (a_run a l)) n = Some (pli, Some f) ->
  exists ps, frame_of ps f /\ consec ps /\ forall q, In q ps -> In q H \/ In q (firstn (S n) l).
Proof.
  induction l as [|p l IH]; intros a H n pli f HI HF E; cbn [a_run snd] in E; [destruct n; discriminate|].
  inversion HF as [|? ? Hp HF']; subst.
  destruct (a_add_char H a p HI Hp) as (I1 & _ & ps & F1 & In1 & _).
  destruct n as [|n]; cbn [nth_error] in E.
  - injection E as E. destruct (a_add a p) as [a1 [pli1 fr1]]. cbn [snd fst] in *. injection E as -> ->.
    destruct F1 as [F1 F2]. exists ps. split; [exact F1|]. split; [exact F2|].
    intros q Hq. apply In1 in Hq. destruct Hq as [<-|Hq]; [right; left; reflexivity|left; exact Hq].
  - destruct (IH (fst (a_add a p)) (p :: H) n pli f I1 HF' E) as (ps' & F1' & F2' & In').
    exists ps'. split; [exact F1'|]. split; [exact F2'|].
    intros q Hq. destruct (In' q Hq) as [[<-|Hq']|Hq'].
    + right. left. reflexivity.
    + left. exact Hq'.
    + right. right. exact Hq'.
Qed.

Definition reaches (c pf : Z) (v : bool) (l : list pkt) (s : jb) (outs : list out) : Prop :=
  exists s0, create c pf v = Ok s0 /\ run s0 l = Ok (s, outs).

Lemma reach_abs c pf v l : cap_ok c -> Forall seq16 l ->
  exists s, reaches c pf v l s (snd (a_run (a_init c pf v) l)) /\ Rep s (fst (a_run (a_init c pf v) l)).
Proof.
  intros Hc HF. destruct (create_rep c pf v Hc) as [E0 R0].
  destruct (run_refines l (mkJb c pf v None (repeat None (Z.to_nat c))) _ R0 HF) as (s & E & R).
  exists s. split; [|exact R]. eexists. split; [exact E0|exact E].
Qed.

Lemma reaches_abs c pf v l s outs : cap_ok c -> Forall seq16 l -> reaches c pf v l s outs ->
  outs = snd (a_run (a_init c pf v) l) /\ Rep s (fst (a_run (a_init c pf v) l)).
Proof.
  intros Hc HF (s0 & E0 & E). destruct (reach_abs c pf v l Hc HF) as (s' & (s0' & E0' & E') & R).
  rewrite E0 in E0'. injection E0' as <-. rewrite E in E'. injection E' as <- <-. auto.
Qed.

Lemma Rep_held s a q : Rep s a -> In (Some q) (slots s) <-> In (Some q) (slots a).
Proof.
  intros (Hc & _ & _ & HO). destruct (origin s) as [o|].
  - exact (ring_In _ _ _ _ _ (cap_ok_pos _ Hc) HO).
  - destruct HO as [-> ->]. reflexivity.
Qed.

(* the ring invariant of the model (C10_inv) *)
Definition ring_inv (s : jb) : Prop :=
  length (slots s) = Z.to_nat (cap s) /\
  forall i q, nth_error (slots s) i = Some (Some q) ->
    exists o, origin s = Some o /\ 0 <= o < 65536 /\
              Z.of_nat i = pseq q mod cap s /\ uint16_add (pseq q) (- o) < cap s.

Lemma rep_ring_inv H s a : Rep s a -> AInv H a ->
  ring_inv s /\ forall q, In (Some q) (slots s) -> In q H.
Proof.
  intros (Hc & _ & Eo & HO) (_ & _ & HA). pose proof (cap_ok_pos _ Hc) as Hpos.
  pose proof (cap_ok_le _ Hc) as Hle.
  rewrite Eo in HA. destruct (origin s) as [o|] eqn:EO.
  - destruct HA as [Ho G].
    assert (Hslot : forall i q, nth_error (slots s) i = Some (Some q) ->
              In q H /\ Z.of_nat i = pseq q mod cap s /\ uint16_add (pseq q) (- o) < cap s).
    { intros i q E. destruct (ring_slot (cap s) o (slots s) _ i _ Hpos HO E) as [E1 E2].
      pose proof (Z.mod_pos_bound (Z.of_nat i - o) (cap s) Hpos) as Hk.
      destruct (G _ _ E1) as [Es Hin]. rewrite Z2Nat.id in Es by lia.
      split; [exact Hin|]. rewrite Es. split.
      - rewrite uint16_add_mod, mod16_mod by exact Hc. symmetry. exact E2.
      - rewrite uint16_add_add, uint16_add_mod.
        replace (o + ((Z.of_nat i - o) mod cap s + - o)) with ((Z.of_nat i - o) mod cap s) by lia.
        rewrite Z.mod_small; lia. }
    split.
    + split; [apply HO|]. intros i q E. exists o. destruct (Hslot i q E) as (_ & E1 & E2). auto.
    + intros q Hin. apply In_nth_error in Hin. destruct Hin as [i E]. exact (proj1 (Hslot i q E)).
  - destruct HO as [HS _]. unfold ring_inv. rewrite HS. split.
    + split; [apply repeat_length|]. intros i q E. apply nth_error_In, repeat_spec in E. discriminate.
    + intros q Hin. apply repeat_spec in Hin. discriminate.
Qed.

Lemma reaches_inv c pf v l s outs : cap_ok c -> Forall seq16 l -> reaches c pf v l s outs ->
  exists a, Rep s a /\ AInv (rev l) a /\ static a = (c, pf, v).
Proof.
  intros Hc HF HR. exists (fst (a_run (a_init c pf v) l)).
  split; [exact (proj2 (reaches_abs c pf v l s outs Hc HF HR))|].
  pose proof (a_run_inv l (a_init c pf v) [] (a_init_inv c pf v (cap_ok_pos _ Hc)) HF) as HI.
  rewrite app_nil_r in HI. exact HI.
Qed.

Theorem jitter_never_raises c pf v l : cap_ok c -> Forall seq16 l ->
  exists s outs, reaches c pf v l s outs /\ length outs = length l.
Proof.
  intros Hc HF. destruct (reach_abs c pf v l Hc HF) as (s & HR & _).
  exists s, (snd (a_run (a_init c pf v) l)). split; [exact HR|].
  clear HR. generalize (a_init c pf v). induction l as [|p l IH]; intros a; [reflexivity|].
  inversion HF; subst. cbn [a_run snd length]. f_equal. apply IH. assumption.
Qed.

Theorem jitter_inv c pf v l s outs : cap_ok c -> Forall seq16 l -> reaches c pf v l s outs ->
  ring_inv s /\ forall q, In (Some q) (slots s) -> In q l.
Proof.
  intros Hc HF HR. destruct (reaches_inv c pf v l s outs Hc HF HR) as (a & R & HI & _).
  destruct (rep_ring_inv _ s a R HI) as [H1 H2]. split; [exact H1|].
  intros q Hq. apply in_rev, H2, Hq.
Qed.

Theorem jitter_frame_integrity c pf v l s outs n pli f :
  cap_ok c -> Forall seq16 l -> reaches c pf v l s outs ->
  nth_error outs n = Some (pli, Some f) ->
  exists ps, frame_of ps f /\ consec ps /\ incl ps (firstn (S n) l).
Proof.
  intros Hc HF HR E. destruct (reaches_abs c pf v l s outs Hc HF HR) as [-> _].
  destruct (a_run_frames l (a_init c pf v) [] n pli f (a_init_inv c pf v (cap_ok_pos _ Hc)) HF E)
    as (ps & F1 & F2 & Hin).
  exists ps. split; [exact F1|]. split; [exact F2|]. intros q Hq. destruct (Hin q Hq) as [[]|Hq']. exact Hq'.
Qed.

Theorem jitter_pli c pf v l s outs p s' pli fr :
  cap_ok c -> Forall seq16 l -> seq16 p -> reaches c pf v l s outs ->
  add s p = Ok (s', (pli, fr)) ->
  (v = false -> pli = false) /\
  (v = true -> pli = false ->
   exists ps, frame_part fr ps /\
     forall q, In (Some q) (slots s) -> In q ps \/ In (Some q) (slots s') \/ pseq q = pseq p).
Proof.
  intros Hc HF Hp HR E. destruct (reaches_inv c pf v l s outs Hc HF HR) as (a & R & HI & Est).
  destruct (add_refines s a p R Hp) as (s1 & E1 & R1). rewrite E in E1. injection E1 as <- E1.
  destruct (a_add_char _ a p HI Hp) as (_ & Ha & ps & F1 & _ & K1).
  rewrite <- E1 in Ha, F1, K1. cbn [fst snd] in Ha, F1, K1. injection Est as _ _ Eva. rewrite Eva in Ha, K1.
  split; [exact Ha|]. intros Hv Hpli. exists ps. split; [exact F1|]. intros q Hq.
  rewrite (Rep_held _ _ q R) in Hq. rewrite (Rep_held _ _ q R1). exact (K1 Hv Hpli q Hq).
Qed.
