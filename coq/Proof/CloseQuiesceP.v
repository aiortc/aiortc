(* Proofs about Model/Close.v (property C19), part 5: what is still live on a transport after
   close() (an in-flight DTLS handshake, the DTLS pump, an ICE start() about to fail) winds down. *)
From Coq Require Import ZArith List Bool Arith Lia.
From AV Require Import Lib.Sx Model.Close Proof.CloseP Proof.CloseInvP Proof.CloseThmP.
Import ListNotations.

(* what may still run on a transport
   whose ICE side has been shut down: a DTLS handshake in progress, the DTLS pump (cancelled, or
   about to read ConnectionError from the closed ICE connection), a start() about to fail *)
Definition tresid (tp : transport) : nat :=
  (match d_state tp with DNew => 3 | DConnecting => 2 | _ => 0 end) +
  (match d_pump tp with PRunning | PCancelling => 1 | _ => 0 end) +
  (if i_starting tp then 1 else 0).

Lemma tps_set_sub c s : c_tps (set_sub c s) = c_tps c.
Proof. unfold set_sub. destruct (c_main c) as [[[? ?] ?]|]; reflexivity. Qed.

(* the steps of the parties that may still be live on the transport strictly decrease tresid *)
Definition tp_event (t : nat) (e : ev) : bool :=
  match e with
  | EPumpEnd t' _ | EDtlsStart t' | EDtlsStartRet t' _ | EIceStartRet t' _ => Nat.eqb t t'
  | _ => false
  end.

Lemma tp_event_ev t e : tp_event t e = true -> ev_tp e = Some t.
Proof. destruct e; try discriminate; cbn; intros H; apply Nat.eqb_eq in H; subst; reflexivity. Qed.

(* transport t0 changes from tp0 to tp0'; seen from transport t, b telling whether it must get cheaper *)
Lemma tresid_upd l t0 tp0 tp0' t tp (b : bool) :
  nth_error l t0 = Some tp0 -> nth_error l t = Some tp -> iquiet tp ->
  (iquiet tp0 -> iquiet tp0' /\ tresid tp0' <= tresid tp0 /\ (b = true -> tresid tp0' < tresid tp0)) ->
  (b = true -> t = t0) ->
  exists tp', nth_error (upd l t0 tp0') t = Some tp' /\ iquiet tp' /\ tresid tp' <= tresid tp /\
              (b = true -> tresid tp' < tresid tp).
Proof.
  intros H0 Ht Hq Hi Hb. rewrite nth_error_upd. destruct (Nat.eqb_spec t t0) as [->|Hne].
  - rewrite H0. rewrite H0 in Ht. injection Ht as ->. destruct (Hi Hq) as (A & B & C). eauto.
  - exists tp. split; [exact Ht|split; [exact Hq|split; [apply Nat.le_refl|]]]. intros Hb'. destruct (Hne (Hb Hb')).
Qed.

Lemma tp_step_tresid e tp tp' :
  tp_step true e tp = Some tp' -> iquiet tp ->
  tresid tp' <= tresid tp /\ (forall t, tp_event t e = true -> tresid tp' < tresid tp).
Proof.
  intros H (Q1 & Q2 & Q3 & Q4 & Q5). unfold tresid.
  destruct e; try discriminate H; cbn [tp_step tp_event] in *; rewrite ?Q1 in H; some_cases H; cbn; rewrite ?E, ?E0.
  all: split; [|try discriminate; intros _ _].
  all: try (apply andb_prop in E; destruct E as [E _]; rewrite E); lia.
Qed.

Lemma tresid_step c e c' t tp :
  step true c e = Some c' -> nth_error (c_tps c) t = Some tp -> iquiet tp ->
  exists tp', nth_error (c_tps c') t = Some tp' /\ iquiet tp' /\ tresid tp' <= tresid tp /\
              (tp_event t e = true -> tresid tp' < tresid tp).
Proof.
  intros HS Ht Hq.
  assert (Hsame : forall e c', c_tps c' = c_tps c -> tp_event t e = false -> exists tp', nth_error (c_tps c') t = Some tp' /\
                    iquiet tp' /\ tresid tp' <= tresid tp /\ (tp_event t e = true -> tresid tp' < tresid tp)).
  { intros e0 c0 -> ->. exists tp. split; [exact Ht|split; [exact Hq|split; [apply Nat.le_refl|intros [=]]]]. }
  apply step_cases in HS. destruct HS; rewrite ?tps_set_sub; try (apply Hsame; reflexivity).
  - apply tresid_upd with tp0; trivial.
    + intros Hq0. destruct (tp_step_tresid _ _ _ Hs Hq0) as [A B].
      split; [eapply iquiet_compat; eauto using tp_step_compat|split; [exact A|apply B]].
    + intros He'. apply tp_event_ev in He'. congruence.
  - apply tresid_upd with tp0; trivial; [|apply Nat.eqb_eq].
    assert (Hs : tp_step true (EPumpEnd t0 2) tp0 = Some (pump_fin tp0)) by (cbn; rewrite Hp; reflexivity).
    intros Hq0. destruct (tp_step_tresid _ _ _ Hs Hq0) as [A B].
    split; [eapply iquiet_compat; eauto using tp_step_compat|split; [exact A|apply B]].
  - apply Hsame; [reflexivity|]. destruct e; try discriminate; reflexivity.
  - apply Hsame; [reflexivity|]. destruct e; try discriminate; reflexivity.
  - destruct Hsc; try (apply Hsame; reflexivity). apply tresid_upd with tp0; trivial; [|discriminate].
    intros (Q1 & _). contradiction.
  - apply tresid_upd with tp0; trivial; [|discriminate].
    unfold iquiet, tresid. cbn. intros (Q1 & Q2 & Q3 & Q4 & Q5). repeat split; trivial; [|discriminate].
    destruct (d_pump tp0); lia.
  - apply tresid_upd with tp0; trivial; [|discriminate].
    unfold iquiet, tresid. cbn. intros (Q1 & Q2 & Q3 & Q4 & Q5). repeat split; trivial. discriminate.
Qed.

Definition tp_live (tp : transport) : Prop :=
  d_pump tp = PRunning \/ d_pump tp = PCancelling \/ d_state tp = DConnecting \/ i_starting tp = true.

Lemma tresid_zero tp : tresid tp = 0 -> ~ tp_live tp /\ d_state tp <> DNew.
Proof.
  unfold tresid, tp_live. destruct (d_state tp), (d_pump tp), (i_starting tp); cbn; intros H; try lia;
    split; try congruence; intros [H1|[H1|[H1|H1]]]; congruence.
Qed.

(* whatever is still live on such a transport can finish by itself *)
Lemma tresid_enabled c t tp :
  nth_error (c_tps c) t = Some tp -> iquiet tp -> tp_live tp ->
  exists e c' tp', step true c e = Some c' /\ nth_error (c_tps c') t = Some tp' /\ tresid tp' < tresid tp.
Proof.
  intros Ht (Q1 & Q2 & Q3 & Q4 & Q5) Hl. unfold tresid.
  destruct (i_starting tp) eqn:Es; [|destruct Hl as [H|[H|[H|H]]]; [| | |congruence]].
  - exists (EIceStartRet t false). cbn [step]. rewrite Ht, Es, Q5. cbn. do 2 eexists. split; [reflexivity|].
    cbn [c_tps set_tp]. rewrite (nth_error_upd_same _ _ _ _ Ht). split; [reflexivity|]. cbn. lia.
  - exists (EPumpEnd t 1). cbn [step]. rewrite Ht, H. do 2 eexists. split; [reflexivity|].
    cbn [c_tps set_tp]. rewrite (nth_error_upd_same _ _ _ _ Ht). split; [reflexivity|]. cbn. rewrite Es. lia.
  - exists (EPumpEnd t 0). cbn [step]. rewrite Ht, H. do 2 eexists. split; [reflexivity|].
    cbn [c_tps set_tp]. rewrite (nth_error_upd_same _ _ _ _ Ht). split; [reflexivity|]. cbn. rewrite Es. lia.
  - exists (EDtlsStartRet t false). cbn [step]. rewrite Ht, H. do 2 eexists. split; [reflexivity|].
    cbn [c_tps set_tp]. rewrite (nth_error_upd_same _ _ _ _ Ht). split; [reflexivity|]. cbn. rewrite Es. lia.
Qed.
