(* C02: no reachable sender state is wedged.  The TSNs of sent-queue ++ outbound-queue
   are always the consecutive run after max(last SACKed, advanced ack point); an
   acceptable SACK for the last sent TSN empties the sent queue and the following
   _transmit moves on; so from EVERY reachable state a fault-free continuation reaches
   quiescence. *)
From Coq Require Import ZArith List Bool Lia ZifyBool Arith.
From AV Require Import Lib.Bytes Gen.Utils Gen.SctpConst Model.SctpTx Proof.SctpTxP Proof.SctpDupP.
From AV Require Proof.SerialP.
Import ListNotations.
Local Open Scope Z_scope.

Ltac Zify.zify_post_hook ::= Z.to_euclidean_division_equations.

Definition tsns (l : list sc) : list Z := map c_tsn l.
Definition qs (s : tx) : list sc := sentq s ++ outq s.

Lemma tsns_app a b : tsns (a ++ b) = tsns a ++ tsns b. Proof. apply map_app. Qed.
Lemma tsns_rev a : tsns (rev a) = rev (tsns a). Proof. apply map_rev. Qed.
Lemma tsns_length a : length (tsns a) = length a. Proof. apply map_length. Qed.

Lemma set_flags_tsn c a b r m n : c_tsn (set_flags c a b r m n) = c_tsn c. Proof. reflexivity. Qed.

Lemma abandon_chunk_tsn fl c sib : c_tsn (snd (abandon_chunk fl c sib)) = c_tsn c.
Proof. reflexivity. Qed.

Lemma mark_until_tsns stop : forall l fl, tsns (snd (mark_until stop fl l)) = tsns l.
Proof.
  induction l as [|c l IH]; intros fl; cbn [mark_until]; [reflexivity|]. destruct (stop c); [reflexivity|].
  specialize (IH (fst (abandon_chunk fl c true))). destruct (mark_until stop _ l) as [fl2 l2].
  cbn [snd tsns map] in *. now rewrite IH.
Qed.

Lemma pull_unsent_tsns : forall oq, tsns (fst (pull_unsent oq)) ++ tsns (snd (pull_unsent oq)) = tsns oq.
Proof.
  induction oq as [|c oq IH]; cbn [pull_unsent]; [reflexivity|].
  destruct (c_last c); cbn [fst snd tsns map app]; [reflexivity|].
  destruct (pull_unsent oq) as [mv rest]. cbn [fst snd tsns map app] in *. now rewrite IH.
Qed.

Lemma mark_side_tsns stop cur fl l : tsns (snd (mark_side stop cur fl l)) = tsns l.
Proof. unfold mark_side. destruct (stop cur); [reflexivity|apply mark_until_tsns]. Qed.

Lemma pull_side_tsns cur post oq : tsns (fst (pull_side cur post oq)) ++ tsns (snd (pull_side cur post oq)) = tsns oq.
Proof. unfold pull_side. destruct (c_last cur || existsb c_last post); [reflexivity|apply pull_unsent_tsns]. Qed.

Lemma maybe_abandon_tsns fl pre cur post oq now :
  let '(ab, fl', pre', cur', post', oq') := maybe_abandon fl pre cur post oq now in
  tsns pre' = tsns pre /\ c_tsn cur' = c_tsn cur /\ tsns post' ++ tsns oq' = tsns post ++ tsns oq.
Proof.
  rewrite maybe_abandon_eq. destruct (c_abandoned cur || negb (should_abandon cur now)); [auto|].
  pose proof (mark_side_tsns c_first cur fl pre) as Hb. destruct (mark_side c_first cur fl pre) as [fl1 pre1].
  pose proof (mark_side_tsns c_last cur fl1 post) as Hf. destruct (mark_side c_last cur fl1 post) as [fl2 post2].
  pose proof (pull_side_tsns cur post oq) as Hu. destruct (pull_side cur post oq) as [mv rest]. cbn [fst snd] in *.
  split; [exact Hb|]. split; [reflexivity|]. rewrite tsns_app, <- app_assoc, Hu, Hf. reflexivity.
Qed.

Lemma strike_tsns : forall n pre post oq cum last_pos htna gaps fl loss now,
  let '(sq', oq', _, _) := strike n pre post oq cum last_pos htna gaps fl loss now in
  tsns sq' ++ tsns oq' = tsns (rev pre ++ post) ++ tsns oq.
Proof.
  induction n as [|n IH]; intros pre post oq cum last_pos htna gaps fl loss now; cbn [strike]; [reflexivity|].
  destruct post as [|c post]; [reflexivity|].
  destruct (uint32_gt (c_tsn c) htna); [reflexivity|].
  assert (Hstep : forall c' pre' post' oq' fl' loss',
            c_tsn c' = c_tsn c -> tsns pre' = tsns pre -> tsns post' ++ tsns oq' = tsns post ++ tsns oq ->
            let '(sq', oq'', _, _) := strike n (c' :: pre') post' oq' cum last_pos htna gaps fl' loss' now in
            tsns sq' ++ tsns oq'' = tsns (rev pre ++ c :: post) ++ tsns oq).
  { intros c' pre' post' oq' fl' loss' Ec Ep Eq. specialize (IH (c' :: pre') post' oq' cum last_pos htna gaps fl' loss' now).
    destruct (strike n (c' :: pre') post' oq' cum last_pos htna gaps fl' loss' now) as [[[sq' oq''] fl''] loss''].
    rewrite IH. cbn [rev]. rewrite !tsns_app, !tsns_rev, Ep. cbn [tsns map]. rewrite Ec, <- !app_assoc. cbn [app]. now rewrite Eq. }
  destruct (negb (in_gaps gaps last_pos (tsn_off cum (c_tsn c)))); [|now apply Hstep].
  destruct (c_misses c + 1 =? 3); [|now apply Hstep].
  pose proof (maybe_abandon_tsns fl pre (set_flags c (c_acked c) (c_abandoned c) (c_retx c) 0 (c_sent_count c)) post oq now) as Hm.
  destruct (maybe_abandon fl pre _ post oq now) as [[[[[ab fl1] pre1] c1] post1] oq1]. destruct Hm as (H1 & H2 & H3).
  now apply Hstep.
Qed.

Lemma t3_mark_tsns : forall n pre post oq fl now,
  let '(sq', oq', _) := t3_mark n pre post oq fl now in
  tsns sq' ++ tsns oq' = tsns (rev pre ++ post) ++ tsns oq.
Proof.
  induction n as [|n IH]; intros pre post oq fl now; cbn [t3_mark]; [reflexivity|].
  destruct post as [|c post]; [reflexivity|].
  pose proof (maybe_abandon_tsns fl pre c post oq now) as Hm.
  destruct (maybe_abandon fl pre c post oq now) as [[[[[ab fl1] pre1] c1] post1] oq1]. destruct Hm as (H1 & H2 & H3).
  set (c2 := if ab then c1 else set_flags c1 (c_acked c1) (c_abandoned c1) true (c_misses c1) (c_sent_count c1)).
  assert (E2 : c_tsn c2 = c_tsn c) by (unfold c2; destruct ab; exact H2).
  specialize (IH (c2 :: pre1) post1 oq1 fl1 now).
  destruct (t3_mark n (c2 :: pre1) post1 oq1 fl1 now) as [[sq' oq'] fl'].
  rewrite IH. cbn [rev]. rewrite !tsns_app, !tsns_rev, H1. cbn [tsns map]. rewrite E2.
  rewrite <- !app_assoc. cbn [app]. f_equal. f_equal. exact H3.
Qed.

Lemma t3_marked_tsns s now : tsns (qs (t3_marked s now)) = tsns (qs s).
Proof.
  unfold t3_marked. pose proof (t3_mark_tsns (length (sentq s)) [] (sentq s) (outq s) (flight s) now) as Hm.
  destruct (t3_mark (length (sentq s)) [] (sentq s) (outq s) (flight s) now) as [[sq oq] fl]. unfold qs. now rewrite !tsns_app.
Qed.

Lemma gap_ack_tsns : forall sq cum last_pos hs gaps fl db htna,
  tsns (fst (fst (fst (gap_ack sq cum last_pos hs gaps fl db htna)))) = tsns sq.
Proof.
  induction sq as [|c sq IH]; intros cum last_pos hs gaps fl db htna; cbn [gap_ack]; [reflexivity|].
  destruct (uint32_gt (c_tsn c) hs); [reflexivity|].
  destruct (in_gaps gaps last_pos (tsn_off cum (c_tsn c)) && negb (c_acked c)).
  - specialize (IH cum last_pos hs gaps (dec fl c) (db + c_book c) (c_tsn c)).
    destruct (gap_ack sq cum last_pos hs gaps (dec fl c) (db + c_book c) (c_tsn c)) as [[[sq2 fl2] db2] h2].
    cbn [fst tsns map] in *. now rewrite IH.
  - specialize (IH cum last_pos hs gaps fl db htna).
    destruct (gap_ack sq cum last_pos hs gaps fl db htna) as [[[sq2 fl2] db2] h2]. cbn [fst tsns map] in *. now rewrite IH.
Qed.

Lemma gap_part_tsns oq sq1 fl1 db1 cum gaps now :
  let '(sq3, oq3, _, _, _) := gap_part oq sq1 fl1 db1 cum gaps now in tsns sq3 ++ tsns oq3 = tsns sq1 ++ tsns oq.
Proof.
  unfold gap_part. destruct gaps as [|g0 gaps']; [reflexivity|].
  set (last_pos := last_off cum sq1). set (hs := highest_seen cum last_pos (g0 :: gaps') cum).
  pose proof (gap_ack_tsns sq1 cum last_pos hs (g0 :: gaps') fl1 db1 cum) as Hg.
  destruct (gap_ack sq1 cum last_pos hs (g0 :: gaps') fl1 db1 cum) as [[[sq2 fl2] db2] htna]. cbn [fst] in Hg.
  pose proof (strike_tsns (length sq2) [] sq2 oq cum last_pos htna (g0 :: gaps') fl2 false now) as Hk.
  destruct (strike (length sq2) [] sq2 oq cum last_pos htna (g0 :: gaps') fl2 false now) as [[[sq3 oq3] fl3] loss].
  cbn [rev app] in Hk. rewrite Hk, Hg. reflexivity.
Qed.

Lemma sacked_tsns s cum gaps now :
  tsns (qs (sacked s cum gaps now)) = tsns (unacked cum (sentq s)) ++ tsns (outq s).
Proof.
  unfold sacked. pose proof (pop_acked_unacked (sentq s) cum (flight s) 0 0) as Eu.
  destruct (pop_acked (sentq s) cum (flight s) 0 0) as [[[sq1 fl1] done] db1]. cbn [fst] in Eu. subst sq1.
  pose proof (gap_part_tsns (outq s) (unacked cum (sentq s)) fl1 db1 cum gaps now) as Hg.
  destruct (gap_part _ _ fl1 db1 cum gaps now) as [[[[sq3 oq3] fl3] db3] loss].
  destruct (cc_part s cum done db3 loss sq3) as [[[[cw ss] pb] fre] frt].
  unfold qs. cbn [sentq outq]. rewrite tsns_app. exact Hg.
Qed.

Lemma retx_loop_tsns : forall sq fl cw frt e t3r,
  let '(sq', _, _, _, _, _) := retx_loop sq fl cw frt e t3r in tsns sq' = tsns sq.
Proof.
  induction sq as [|c sq IH]; intros fl cw frt e t3r; cbn [retx_loop]; [reflexivity|].
  destruct (c_retx c).
  - destruct (negb frt && (cw <=? fl)); [reflexivity|].
    specialize (IH (fl + c_book c) cw false false (t3r || e)).
    destruct (retx_loop sq (fl + c_book c) cw false false (t3r || e)) as [[[[[sq2 a] b] c0] d] o]. unfold tsns in *. cbn [map]. now rewrite IH.
  - specialize (IH fl cw frt false t3r). destruct (retx_loop sq fl cw frt false t3r) as [[[[[sq2 a] b] c0] d] o].
    unfold tsns in *. cbn [map]. now rewrite IH.
Qed.

Lemma new_loop_tsns : forall oq fl cw,
  let '(mv, rest, _, _) := new_loop oq fl cw in tsns mv ++ tsns rest = tsns oq.
Proof.
  induction oq as [|c oq IH]; intros fl cw; cbn [new_loop]; [reflexivity|].
  destruct (fl <? cw); [|reflexivity].
  specialize (IH (fl + c_book c) cw). destruct (new_loop oq (fl + c_book c) cw) as [[[mv rest] fl2] o].
  unfold tsns in *. cbn [map app]. now rewrite IH.
Qed.

Lemma new_side_tsns stop oq fl cw : let '(mv, rest, _, _) := new_side stop oq fl cw in tsns mv ++ tsns rest = tsns oq.
Proof. unfold new_side. destruct stop; [reflexivity|apply new_loop_tsns]. Qed.

Lemma transmit_tsns s : tsns (qs (fst (transmit s))) = tsns (qs s).
Proof.
  rewrite transmit_eq. unfold qs.
  pose proof (retx_loop_tsns (sentq s) (flight s) (tx_cw s) (fr_transmit s) true false) as Hr.
  destruct (retx_loop (sentq s) (flight s) (tx_cw s) (fr_transmit s) true false) as [[[[[sq fl] frt] t3r] stop] o1].
  pose proof (new_side_tsns stop (outq s) fl (tx_cw s)) as Hn. destruct (new_side stop (outq s) fl (tx_cw s)) as [[[mv rest] fl2] o2].
  cbn [fst sentq outq]. rewrite !tsns_app, Hr, <- app_assoc, Hn. reflexivity.
Qed.

Lemma last_In {A} (l : list A) d : l <> [] -> In (List.last l d) l.
Proof. induction l as [|a l IH]; [congruence|]. intros _. destruct l as [|b l]; [now left|]. right. apply IH. discriminate. Qed.

Section Live.
Variable base N : Z.
Hypothesis Hbase : r32 base.
Hypothesis HN : 0 <= N < 2147483648.

Notation offb := (off base).
Notation inwb := (inw base N).

Fixpoint seqfrom (a : Z) (l : list Z) : Prop :=
  match l with [] => True | t :: l' => r32 t /\ offb t = a + 1 /\ seqfrom (a + 1) l' end.

Lemma seqfrom_app l1 : forall a l2, seqfrom a (l1 ++ l2) <-> seqfrom a l1 /\ seqfrom (a + Z.of_nat (length l1)) l2.
Proof.
  induction l1 as [|t l1 IH]; intros a l2; cbn [app seqfrom length].
  - replace (a + Z.of_nat 0) with a by lia. tauto.
  - rewrite IH. replace (a + 1 + Z.of_nat (length l1)) with (a + Z.of_nat (S (length l1))) by lia. tauto.
Qed.

Lemma seqfrom_in a l t : seqfrom a l -> In t l -> r32 t /\ a < offb t <= a + Z.of_nat (length l).
Proof.
  revert a. induction l as [|x l IH]; intros a H Hin; [destruct Hin|].
  cbn [seqfrom length] in *. destruct H as (Hr & Ho & Hs). destruct Hin as [<-|Hin]; [split; [exact Hr|lia]|].
  destruct (IH _ Hs Hin) as [H1 H2]. split; [exact H1|lia].
Qed.

Lemma seqfrom_last l : forall a d, seqfrom a l -> offb d = a -> offb (List.last l d) = a + Z.of_nat (length l).
Proof.
  induction l as [|x l IH]; intros a d H Ed; [cbn; lia|].
  destruct H as (_ & Ho & Hs). rewrite last_cons_default, (IH (a + 1) x Hs Ho). cbn [length]. lia.
Qed.

Lemma seqfrom_inw a l : seqfrom a l -> a + Z.of_nat (length l) <= N -> 0 <= a -> Forall inwb l.
Proof.
  intros H Ht Ha. apply Forall_forall. intros t Hin. destruct (seqfrom_in a l t H Hin) as [Hr Ho].
  split; [exact Hr|lia].
Qed.

Lemma seqfrom_last_inw a l d : seqfrom a l -> a + Z.of_nat (length l) <= N -> 0 <= a -> inwb d -> offb d = a ->
  inwb (List.last l d) /\ offb (List.last l d) = a + Z.of_nat (length l).
Proof.
  intros H Ht Ha Hd Ed. split; [|now apply seqfrom_last]. destruct l as [|x l]; [exact Hd|].
  pose proof (seqfrom_inw a _ H Ht Ha) as F. rewrite Forall_forall in F. apply F, last_In. discriminate.
Qed.

Lemma off_nonneg t : 0 <= offb t. Proof. unfold off, M32. lia. Qed.

Definition floor (s : tx) : Z := if uint32_gt (adv_ack s) (last_sacked s) then adv_ack s else last_sacked s.

Lemma highest_assigned_eq s : highest_assigned s = List.last (tsns (sentq s)) (floor s).
Proof.
  unfold highest_assigned. fold (floor s). rewrite <- (rev_involutive (sentq s)) at 2.
  destruct (rev (sentq s)) as [|c r]; [reflexivity|]. cbn [rev]. rewrite tsns_app. cbn [tsns map]. now rewrite last_last.
Qed.

Record ord (s : tx) : Prop := mkOrd {
  o_ls : inwb (last_sacked s);
  o_av : inwb (adv_ack s);
  o_seq : seqfrom (offb (floor s)) (tsns (qs s));
  o_top : offb (floor s) + Z.of_nat (length (qs s)) <= N }.

Lemma floor_off s : inwb (last_sacked s) -> inwb (adv_ack s) ->
  inwb (floor s) /\ offb (floor s) = Z.max (offb (last_sacked s)) (offb (adv_ack s)).
Proof.
  intros Hl Ha. unfold floor. destruct (uint32_gt (adv_ack s) (last_sacked s)) eqn:G.
  - apply (gt_off base N Hbase HN _ _ Ha Hl) in G. split; [exact Ha|lia].
  - split; [exact Hl|]. destruct (Z_lt_le_dec (offb (last_sacked s)) (offb (adv_ack s))) as [H|H]; [|lia].
    apply (gt_off base N Hbase HN _ _ Ha Hl) in H. congruence.
Qed.

Definition top (s : tx) : Z := offb (floor s) + Z.of_nat (length (qs s)).

(* every operation of the sender drops a prefix of sent queue ++ outbound queue (possibly empty)
   and moves the two ack points so that the later one is the TSN before what is left *)
Lemma ord_drop s s' pre : ord s -> inwb (last_sacked s') -> inwb (adv_ack s') ->
  tsns (qs s) = pre ++ tsns (qs s') ->
  Z.max (offb (last_sacked s')) (offb (adv_ack s')) = offb (floor s) + Z.of_nat (length pre) ->
  ord s' /\ top s' = top s /\ offb (floor s') = offb (floor s) + Z.of_nat (length pre).
Proof.
  intros [Hl Ha Hs Ht] Hl' Ha' E Ef. destruct (floor_off s' Hl' Ha') as [_ Ef']. rewrite Ef in Ef'.
  assert (Elen : length (qs s) = (length pre + length (qs s'))%nat).
  { apply (f_equal (@length Z)) in E. now rewrite app_length, !tsns_length in E. }
  rewrite E in Hs. apply seqfrom_app in Hs as [_ Hs]. unfold top.
  split; [constructor; rewrite ?Ef'; auto; lia|lia].
Qed.

Lemma ord_same s s' : last_sacked s' = last_sacked s -> adv_ack s' = adv_ack s -> tsns (qs s') = tsns (qs s) ->
  ord s -> ord s' /\ top s' = top s.
Proof.
  intros El Ea Et O. pose proof O as [Hl Ha _ _]. destruct (floor_off s Hl Ha) as [_ Ef].
  destruct (ord_drop s s' [] O) as (O' & T & _); rewrite ?El, ?Ea, ?Et; auto. cbn [length]. lia.
Qed.

Lemma transmit_floor s : floor (fst (transmit s)) = floor s.
Proof. destruct (transmit_frame s) as (_ & El & Ea & _). unfold floor. now rewrite El, Ea. Qed.

Lemma ord_transmit s : ord s -> ord (fst (transmit s)) /\ top (fst (transmit s)) = top s.
Proof. destruct (transmit_frame s) as (_ & El & Ea & _). apply ord_same; [exact El|exact Ea|apply transmit_tsns]. Qed.

Lemma ord_update_adv s : ord s ->
  ord (update_adv s) /\ top (update_adv s) = top s /\
  exists k, length (sentq s) = (k + length (sentq (update_adv s)))%nat /\
    offb (floor (update_adv s)) = offb (floor s) + Z.of_nat k.
Proof.
  intros O. pose proof O as [Hl Ha Hs Ht]. destruct (floor_off s Hl Ha) as [Hf Ef].
  assert (H0 : inwb (fst (adv_start s)) /\ offb (fst (adv_start s)) = offb (floor s)).
  { unfold adv_start. destruct (uint32_gte (last_sacked s) (adv_ack s)) eqn:G; cbn [fst].
    - apply (gte_off base N Hbase HN _ _ Hl Ha) in G. split; [exact Hl|lia].
    - split; [exact Ha|]. destruct (Z_le_gt_dec (offb (adv_ack s)) (offb (last_sacked s))) as [H|H]; [|lia].
      apply (gte_off base N Hbase HN _ _ Hl Ha) in H. congruence. }
  destruct H0 as [Hi0 Eo0].
  destruct (pop_abandoned_split (sentq s) (fst (adv_start s)) (snd (adv_start s))) as (pre & Esq & _ & _ & Eadv).
  (* all that matters of the new state: the abandoned head pre is gone, the ack point is its last TSN *)
  assert (E' : last_sacked (update_adv s) = last_sacked s /\
               adv_ack (update_adv s) = List.last (tsns pre) (fst (adv_start s)) /\
               sentq s = pre ++ sentq (update_adv s) /\ outq (update_adv s) = outq s)
    by (rewrite update_adv_eq; cbn [last_sacked adv_ack sentq outq]; auto).
  revert E'. generalize (update_adv s) as s'. intros s' (El & Ea' & Es' & Eo').
  unfold qs in Hs, Ht. rewrite Es', <- app_assoc, tsns_app in Hs. rewrite Es', <- app_assoc, app_length in Ht.
  apply seqfrom_app in Hs as [Hs1 _].
  assert (Hadv : inwb (adv_ack s') /\ offb (adv_ack s') = offb (floor s) + Z.of_nat (length pre)).
  { rewrite Ea'. rewrite <- (tsns_length pre) in Ht |- *.
    apply seqfrom_last_inw; [exact Hs1|lia|apply off_nonneg|exact Hi0|exact Eo0]. }
  destruct Hadv as [Hia Eoa].
  destruct (ord_drop s s' (tsns pre) O) as (O' & T & F).
  - now rewrite El.
  - exact Hia.
  - unfold qs. now rewrite Eo', Es', <- app_assoc, tsns_app.
  - rewrite El, tsns_length. lia.
  - rewrite tsns_length in F. split; [exact O'|]. split; [exact T|]. exists (length pre). now rewrite Es', app_length.
Qed.

(* serial comparison of 32-bit values only looks at the difference of their offsets *)
Lemma off_diff a b : (offb a - offb b) mod M32 = (a - b) mod M32.
Proof. unfold off. rewrite <- Zminus_mod. f_equal. ring. Qed.

Lemma sack_window ls hs cum : inwb ls -> inwb hs -> offb ls <= offb hs -> r32 cum ->
  uint32_gt ls cum = false -> uint32_gte hs cum = true -> inwb cum /\ offb ls <= offb cum <= offb hs.
Proof.
  intros [Hl Hl'] [Hh Hh'] Hle Hc G1 G2.
  assert (X : offb ls <= offb cum <= offb hs); [|split; [split; [exact Hc|lia]|exact X]].
  unfold uint32_gte in G2. apply orb_true_iff in G2 as [G2|G2]; [apply Z.eqb_eq in G2; subst cum; lia|].
  apply not_true_iff_false in G1. rewrite (SerialP.uint32_gt_spec ls cum Hl Hc), <- off_diff in G1.
  rewrite (SerialP.uint32_gt_spec hs cum Hh Hc), <- off_diff in G2.
  pose proof (off_nonneg ls). pose proof (Z.mod_pos_bound (cum - base) M32 eq_refl) as Hx. fold (offb cum) in Hx.
  unfold M32 in *. lia.
Qed.

Lemma hs_off s : ord s ->
  inwb (highest_assigned s) /\ offb (highest_assigned s) = offb (floor s) + Z.of_nat (length (sentq s)).
Proof.
  intros [Hl Ha Hs Ht]. destruct (floor_off s Hl Ha) as [Hf _]. rewrite highest_assigned_eq, <- tsns_length.
  unfold qs in Hs, Ht. rewrite tsns_app in Hs. apply seqfrom_app in Hs as [Hs1 _]. rewrite app_length, <- tsns_length in Ht.
  apply seqfrom_last_inw; [exact Hs1|lia|apply off_nonneg|exact Hf|reflexivity].
Qed.

Lemma unacked_seq cum : inwb cum -> forall sq a, seqfrom a (tsns sq) -> a + Z.of_nat (length sq) <= N -> 0 <= a ->
  offb cum <= a + Z.of_nat (length sq) ->
  exists pre, sq = pre ++ unacked cum sq /\ Z.of_nat (length pre) = Z.max 0 (offb cum - a).
Proof.
  intros Hc. induction sq as [|c sq IH]; intros a Hs Ht Ha Hx; cbn [unacked].
  - exists []. cbn [length app] in *. split; [reflexivity|lia].
  - cbn [tsns map seqfrom length] in Hs, Ht, Hx. destruct Hs as (Hr & Ho & Hs).
    assert (Hic : inwb (c_tsn c)) by (split; [exact Hr|lia]).
    destruct (uint32_gte cum (c_tsn c)) eqn:G.
    + apply (gte_off base N Hbase HN _ _ Hc Hic) in G. destruct (IH (a + 1) Hs ltac:(lia) ltac:(lia) ltac:(lia)) as (pre & E & L).
      exists (c :: pre). cbn [app length]. split; [now f_equal|lia].
    + exists []. cbn [app length]. split; [reflexivity|].
      destruct (Z_le_gt_dec (offb (c_tsn c)) (offb cum)) as [H|H]; [|lia].
      apply (gte_off base N Hbase HN _ _ Hc Hic) in H. congruence.
Qed.

Lemma ord_sacked s cum gaps now : ord s -> r32 cum -> sack_ignored s cum = false ->
  let s1 := sacked s cum gaps now in
  ord s1 /\ top s1 = top s /\ offb (floor s1) = Z.max (offb cum) (offb (floor s)) /\
  Z.of_nat (length (unacked cum (sentq s))) = offb (highest_assigned s) - offb (floor s1).
Proof.
  intros O Hc Ei. cbv zeta. destruct (hs_off s O) as [Hh Eh]. pose proof O as [Hl Ha Hs Ht]. destruct (floor_off s Hl Ha) as [Hf Ef].
  unfold sack_ignored in Ei. apply orb_false_iff in Ei as [G1 G2]. apply negb_false_iff in G2.
  destruct (sack_window _ _ _ Hl Hh ltac:(lia) Hc G1 G2) as [Hic Hx].
  unfold qs in Hs, Ht. rewrite tsns_app in Hs. apply seqfrom_app in Hs as [Hs1 _]. rewrite app_length in Ht.
  destruct (unacked_seq cum Hic (sentq s) _ Hs1 ltac:(lia) (off_nonneg _) ltac:(lia)) as (pre & E & L).
  destruct (sacked_frame s cum gaps now) as (El & Ea & _). pose proof (sacked_tsns s cum gaps now) as Eq.
  revert El Ea Eq. cbv zeta. generalize (sacked s cum gaps now) as s1. intros s1 El Ea Eq.
  destruct (ord_drop s s1 (tsns pre) O) as (O1 & T1 & F1).
  - now rewrite El.
  - now rewrite Ea.
  - rewrite Eq, app_assoc, <- tsns_app, <- E. apply tsns_app.
  - rewrite El, Ea, tsns_length. lia.
  - rewrite tsns_length in F1. apply (f_equal (@length sc)) in E. rewrite app_length in E.
    split; [exact O1|]. split; [exact T1|]. lia.
Qed.

Theorem ord_receive_sack s cum gaps now : ord s -> r32 cum ->
  let s' := fst (receive_sack s cum gaps now) in
  ord s' /\ top s' = top s /\ (sack_ignored s cum = false -> offb cum <= offb (floor s')).
Proof.
  intros O Hc. cbv zeta. rewrite receive_sack_eq. destruct (sack_ignored s cum) eqn:Ei.
  { cbn [fst]. split; [exact O|]. split; [reflexivity|discriminate]. }
  destruct (ord_sacked s cum gaps now O Hc Ei) as (O1 & T1 & F1 & _).
  destruct (ord_update_adv _ O1) as (O2 & T2 & k & _ & F2).
  destruct (ord_transmit _ O2) as [O3 T3]. rewrite transmit_floor.
  split; [exact O3|]. split; [congruence|]. intros _. lia.
Qed.

Lemma ord_t3_expired s now : ord s -> ord (fst (t3_expired s now)) /\ top (fst (t3_expired s now)) = top s.
Proof.
  intros O. rewrite t3_expired_eq. cbn [fst].
  destruct (t3_marked_frame s now) as (El & Ea & _).
  destruct (ord_same s (t3_marked s now) El Ea (t3_marked_tsns s now) O) as [O0 T0]. destruct (ord_update_adv _ O0) as (O1 & T1 & _).
  destruct (ord_same (update_adv (t3_marked s now)) (t3_reset s (update_adv (t3_marked s now))) eq_refl eq_refl eq_refl O1)
    as [O2 T2].
  split; [exact O2|congruence].
Qed.

Lemma ord_run_transmit s : ord s ->
  let s' := fst (step s IRunTransmit) in ord s' /\ top s' = top s /\ floor s' = floor s.
Proof.
  intros O. destruct (ord_transmit s O) as [O1 T1]. cbn [step]. rewrite (surjective_pairing (transmit s)). cbn [fst].
  set (s2 := mkTx _ _ _ _ _ _ _ _ _ _ _ _ _ _).
  destruct (ord_same (fst (transmit s)) s2 eq_refl eq_refl eq_refl O1) as [O2 T2].
  split; [exact O2|]. split; [congruence|apply transmit_floor].
Qed.

(* what the application may hand to _send: the next TSNs, inside the window *)
Definition wf_ord (s : tx) (i : input) : Prop :=
  match i with
  | ISendMsg cs => seqfrom (top s) (tsns cs) /\ top s + Z.of_nat (length cs) <= N
  | ISack cum _ _ => r32 cum
  | _ => True
  end.

Theorem step_ord s i : ord s -> wf_ord s i -> ord (fst (step s i)) /\ top s <= top (fst (step s i)).
Proof.
  intros O W. destruct i as [cs|cum gaps now|now|]; cbn [wf_ord] in W.
  - destruct W as [Wc Wt]. cbn [step]. unfold send.
    set (s0 := with_q s (flight s) (outq s ++ cs) (sentq s)).
    assert (O0 : ord s0 /\ top s0 = top s + Z.of_nat (length cs)).
    { pose proof O as [Hl Ha Hs Ht].
      assert (Ef : floor s0 = floor s) by reflexivity.
      assert (Eq : qs s0 = qs s ++ cs) by (unfold qs, s0, with_q; cbn [sentq outq]; now rewrite app_assoc).
      split.
      - constructor; rewrite ?Ef, ?Eq; auto.
        + rewrite tsns_app. apply seqfrom_app. split; [exact Hs|]. rewrite tsns_length. exact Wc.
        + rewrite app_length. unfold top in Wt. lia.
      - unfold top. rewrite Ef, Eq, app_length. lia. }
    destruct O0 as [O0 T0]. destruct (ord_transmit s0 O0) as [O1 T1]. split; [exact O1|lia].
  - destruct (ord_receive_sack s cum gaps now O W) as (O1 & T1 & _). split; [exact O1|cbn [step]; lia].
  - cbn [step]. destruct (t3 s); [|cbn [fst]; split; [exact O|lia]].
    destruct (ord_t3_expired s now O) as [O1 T1]. split; [exact O1|lia].
  - destruct (ord_run_transmit s O) as (O1 & T1 & _). split; [exact O1|lia].
Qed.

Fixpoint wf_ord_run (s : tx) (is : list input) : Prop :=
  match is with [] => True | i :: is' => wf_ord s i /\ wf_ord_run (fst (step s i)) is' end.

Theorem run_ord : forall is s, ord s -> wf_ord_run s is -> ord (fst (run s is)).
Proof.
  induction is as [|i is IH]; intros s O W; [exact O|]. destruct W as [W1 W2].
  rewrite run_cons. cbn [fst]. apply IH; [now apply step_ord|exact W2].
Qed.

Lemma ord_init t rw : inwb (tsn_minus_one t) -> ord (init t rw).
Proof.
  intros H. constructor; cbn [init last_sacked adv_ack]; auto.
  - unfold qs. cbn. exact I.
  - unfold qs, floor. cbn [init sentq outq adv_ack last_sacked app length]. destruct (uint32_gt _ _); destruct H; lia.
Qed.

Corollary ord_reachable t rw is : inwb (tsn_minus_one t) -> wf_ord_run (init t rw) is -> ord (fst (run (init t rw) is)).
Proof. intros H. apply run_ord, ord_init, H. Qed.

(* what a peer that has received everything sent so far answers, and the pending transmit task *)
Definition ideal_input (s : tx) : option input :=
  match sentq s, outq s with
  | _ :: _, _ => Some (ISack (highest_assigned s) [] 0)
  | [], _ :: _ => Some IRunTransmit
  | [], [] => None
  end.

Fixpoint drain (fuel : nat) (s : tx) : list input :=
  match fuel with
  | O => []
  | S f => match ideal_input s with Some i => i :: drain f (fst (step s i)) | None => [] end
  end.

Definition measure (s : tx) : nat :=
  (2 * length (qs s) - match sentq s with [] => 0 | _ => 1 end)%nat.

Lemma top_length s : top s = offb (floor s) + Z.of_nat (length (sentq s)) + Z.of_nat (length (outq s)).
Proof. unfold top, qs. rewrite app_length. lia. Qed.

(* an acknowledged sent queue is worth more than whatever _transmit then sends *)
Lemma measure_acked s s' : sentq s <> [] -> (length (sentq s') + length (outq s') <= length (outq s))%nat ->
  (measure s' < measure s)%nat.
Proof.
  intros Hne Hl. unfold measure, qs. rewrite !app_length.
  destruct (sentq s); [congruence|]. cbn [length]. destruct (sentq s'); lia.
Qed.

Lemma sack_round s now : SctpTxP.inv s -> ord s -> sentq s <> [] ->
  let s' := fst (step s (ISack (highest_assigned s) [] now)) in
  SctpTxP.inv s' /\ ord s' /\ (measure s' < measure s)%nat /\ top s' = top s /\ floor s' = highest_assigned s.
Proof.
  intros I O Hne. cbv zeta. split; [apply step_inv; [exact I|exact Logic.I]|]. cbn [step]. rewrite receive_sack_eq.
  destruct (hs_off s O) as [Hh Eh]. pose proof O as [Hl Ha _ _]. destruct (floor_off s Hl Ha) as [_ Ef].
  set (cum := highest_assigned s) in *.
  assert (Hni : sack_ignored s cum = false).
  { unfold sack_ignored. fold cum. apply orb_false_iff. split.
    - destruct (uint32_gt (last_sacked s) cum) eqn:G; [|reflexivity].
      apply (gt_off base N Hbase HN _ _ Hl Hh) in G. lia.
    - apply negb_false_iff. unfold uint32_gte. now rewrite Z.eqb_refl. }
  rewrite Hni. destruct (ord_sacked s cum [] now O (proj1 Hh) Hni) as (O1 & T1 & F1 & L1). cbv zeta in *. fold cum in L1.
  (* nothing is outstanding any more, so the ack point stays *)
  rewrite <- (sacked_nogaps s cum now) in L1.
  destruct (ord_update_adv _ O1) as (O2 & T2 & k & K2 & F2). destruct (ord_transmit _ O2) as [O3 T3].
  pose proof (transmit_floor (update_adv (sacked s cum [] now))) as F3.
  revert O3 T3 F3. generalize (fst (transmit (update_adv (sacked s cum [] now)))) as s'. intros s' O3 T3 F3.
  split; [exact O3|]. split; [|split; [congruence|]].
  - pose proof (top_length s'). pose proof (top_length s). rewrite F3 in *. apply measure_acked; [exact Hne|lia].
  - pose proof O3 as [Hl3 Ha3 _ _]. destruct (floor_off _ Hl3 Ha3) as [Hf3 _]. apply (off_inj base N); auto. rewrite F3. lia.
Qed.

Lemma kick s : SctpTxP.inv s -> ord s -> sentq s = [] -> outq s <> [] ->
  let s' := fst (step s IRunTransmit) in
  SctpTxP.inv s' /\ ord s' /\ (measure s' < measure s)%nat /\ top s' = top s /\ floor s' = floor s.
Proof.
  intros I O He Hne. cbv zeta. pose proof (step_inv s IRunTransmit I Logic.I) as I1.
  destruct (ord_run_transmit s O) as (O1 & T1 & F1). cbv zeta in *.
  assert (Hp : pending_tx (fst (step s IRunTransmit)) = false) by (cbn [step]; now destruct (transmit s)).
  revert I1 O1 T1 F1 Hp. generalize (fst (step s IRunTransmit)) as s'. intros s' I1 O1 T1 F1 Hp.
  split; [exact I1|]. split; [exact O1|]. split; [|split; [exact T1|exact F1]].
  (* nothing is queued behind an empty sent queue once the task has run *)
  pose proof (i_oq _ I1) as Hq. rewrite Hp in Hq. rewrite (top_length s'), (top_length s), F1, He in T1.
  unfold measure, qs. rewrite He, !app_length. cbn [length] in *.
  destruct (outq s); [congruence|]. destruct (sentq s'); [|cbn [length] in *; lia].
  destruct (outq s'); [cbn [length] in *; lia|]. destruct Hq; congruence.
Qed.

Theorem drain_ok : forall fuel s, SctpTxP.inv s -> ord s -> (measure s <= fuel)%nat ->
  let s' := fst (run s (drain fuel s)) in sentq s' = [] /\ outq s' = [].
Proof.
  induction fuel as [|f IH]; intros s I O Hm; cbv zeta; cbn [drain].
  - cbn [run fst]. unfold measure, qs in Hm. rewrite app_length in Hm.
    destruct (sentq s) as [|c sq]; destruct (outq s) as [|d oq]; cbn [length] in Hm; try lia. auto.
  - unfold ideal_input. destruct (sentq s) as [|c sq] eqn:Es.
    + destruct (outq s) as [|d oq] eqn:Eo; [auto|].
      destruct (kick s I O Es ltac:(rewrite Eo; discriminate)) as (I1 & O1 & M1 & _).
      rewrite run_cons. cbn [fst]. apply IH; auto. lia.
    + destruct (sack_round s 0 I O ltac:(rewrite Es; discriminate)) as (I1 & O1 & M1 & _).
      rewrite run_cons. cbn [fst]. apply IH; auto. lia.
Qed.

Lemma drain_wf : forall fuel s, Forall wf_input (drain fuel s).
Proof.
  induction fuel as [|f IH]; intros s; cbn [drain]; [constructor|].
  destruct (ideal_input s) as [i|] eqn:E; [|constructor]. constructor; [|apply IH].
  unfold ideal_input in E. destruct (sentq s); destruct (outq s); try discriminate; injection E as <-; exact Logic.I.
Qed.
End Live.

(* From EVERY reachable sender state -- after any history of sends, SACKs (any cumulative TSN, any
   gap blocks), T3 expiries and transmit runs -- the continuation in which the peer acknowledges
   what has been sent and the pending transmit task runs reaches quiescence in at most
   2 * (outstanding + queued) inputs: nothing outstanding, nothing queued, flight size 0. *)
Theorem never_wedged base N t rw ins :
  r32 base -> 0 <= N < 2147483648 -> inw base N (tsn_minus_one t) ->
  Forall wf_input ins -> wf_ord_run base N (init t rw) ins ->
  let s := fst (run (init t rw) ins) in
  let cont := drain (2 * length (sentq s ++ outq s)) s in
  let s' := fst (run s cont) in
  Forall wf_input cont /\ sentq s' = [] /\ outq s' = [] /\ flight s' = 0.
Proof.
  intros Hb HN Ht Hw Ho s cont s'.
  pose proof (inv_reachable t rw ins Hw) as I. pose proof (ord_reachable base N Hb HN t rw ins Ht Ho) as O.
  split; [apply drain_wf|].
  assert (Hm : (measure s <= 2 * length (sentq s ++ outq s))%nat) by (unfold measure, qs; lia).
  destruct (drain_ok base N Hb HN _ s I O Hm) as [E1 E2]. fold cont in E1, E2. fold s' in E1, E2.
  split; [exact E1|]. split; [exact E2|].
  pose proof (run_inv cont s I (drain_wf _ s)) as I'. fold s' in I'. pose proof (i_fl s' I') as F. rewrite E1 in F. cbn in F. lia.
Qed.
