(* Lemmas about Model/SctpWire.v, part 5: corrupted packets and the checksum.
   A valid packet altered by a burst of <= 32 bits (CRC bit order: least
   significant bit of each byte first) that does not touch the checksum field,
   or by any change confined to the checksum field, is rejected by
   parse_packet.  A burst that straddles a boundary of the field can be
   self-consistent: concrete witness. *)
From Coq Require Import ZArith List Bool Lia ZifyBool.
From AV Require Import Lib.Bytes Lib.BytesP Gen.SctpConst Model.Crc32c Model.SctpWire
  Proof.Crc32cP Proof.SctpWireP Proof.SctpWireRtP.
Import ListNotations.
Local Open Scope Z_scope.

Ltac Zify.zify_post_hook ::= Z.to_euclidean_division_equations.

Lemma skipn_add {T} b : forall a (l : list T), skipn a (skipn b l) = skipn (b + a) l.
Proof.
  induction b as [|b IH]; intros a l; [reflexivity|].
  destruct l as [|x l]; [now rewrite !skipn_nil|]. apply IH.
Qed.

Lemma split_field d :
  (12 <= length d)%nat ->
  d = slice d 0 8 ++ slice d 8 12 ++ from d 12 /\
  length (slice d 0 8) = 8%nat /\ length (slice d 8 12) = 4%nat.
Proof.
  intros H. rewrite !slice_length. repeat split; try lia.
  unfold slice, from. cbn [skipn Nat.sub]. rewrite <- (firstn_skipn 8 d) at 1. f_equal.
  rewrite <- (firstn_skipn 4 (skipn 8 d)) at 1. now rewrite skipn_add.
Qed.

Lemma slice_to_end l a : slice l a (length l) = from l a.
Proof. unfold slice, from. rewrite <- skipn_length. apply firstn_all. Qed.

Lemma checksum_input_length d : (12 <= length d)%nat -> length (checksum_input d) = length d.
Proof.
  intros H. unfold checksum_input. rewrite !app_length, slice_length, from_length. cbn [length]. lia.
Qed.

Lemma slice_xor p e a b : slice (xor_bytes p e) a b = xor_bytes (slice p a b) (slice e a b).
Proof. unfold slice. now rewrite xor_bytes_skipn, xor_bytes_firstn. Qed.

Lemma checksum_input_xor p e :
  length e = length p ->
  checksum_input (xor_bytes p e) = xor_bytes (checksum_input p) (checksum_input e).
Proof.
  intros Hl. unfold checksum_input, from. rewrite slice_xor, xor_bytes_skipn.
  now rewrite xor_bytes_app by (rewrite !slice_length; lia).
Qed.

Lemma u32le_field d : (12 <= length d)%nat -> u32le d 8 = u32le (slice d 8 12) 0.
Proof.
  intros H. destruct (split_field d H) as (E & L1 & L2).
  pose proof (u32le_app_r (slice d 0 8) (slice d 8 12 ++ from d 12) 0) as G.
  rewrite <- E, L1 in G. cbn [Nat.add] in G. rewrite G.
  destruct (slice d 8 12) as [|a [|b [|c [|x [|y f]]]]]; try discriminate. reflexivity.
Qed.

Lemma checksum_okb_xor p e :
  length e = length p -> (12 <= length p)%nat ->
  checksum_okb (xor_bytes p e) =
  match u32le (xor_bytes (slice p 8 12) (slice e 8 12)) 0 with
  | Some c => c =? crc32c (xor_bytes (checksum_input p) (checksum_input e))
  | None => false
  end.
Proof.
  intros Hl Hp. unfold checksum_okb.
  now rewrite u32le_field, slice_xor, checksum_input_xor by (rewrite ?xor_bytes_length; lia).
Qed.

Lemma checksum_okb_field p :
  checksum_okb p = true -> (12 <= length p)%nat /\ u32le (slice p 8 12) 0 = Some (crc32c (checksum_input p)).
Proof.
  unfold checksum_okb. intros H.
  assert (Hp : (12 <= length p)%nat).
  { unfold u32le in H. destruct (u8 p 8); [|discriminate]. destruct (u8 p (1 + 8)); [|discriminate].
    destruct (u8 p (2 + 8)); [|discriminate]. destruct (u8 p (3 + 8)) eqn:E; [|discriminate]. apply u8_lt in E. lia. }
  split; [exact Hp|]. rewrite <- u32le_field by exact Hp.
  destruct (u32le p 8); [|discriminate]. apply Z.eqb_eq in H. now subst.
Qed.

Lemma burst_outside_rejected p e :
  length e = length p -> checksum_okb p = true ->
  slice e 8 12 = [0; 0; 0; 0] -> burst e ->
  parse_packet (xor_bytes p e) = ValueErr.
Proof.
  intros Hl Hok Hz Hb. apply parse_packet_bad_checksum. destruct (checksum_okb_field p Hok) as [Hp Hc].
  rewrite checksum_okb_xor, Hz by assumption. destruct (split_field p Hp) as (_ & _ & L2).
  change [0; 0; 0; 0] with (zeros 4). rewrite xor_bytes_zeros_r, Hc by lia.
  assert (Ee : checksum_input e = e).
  { destruct (split_field e ltac:(lia)) as (E & _ & _). rewrite Hz in E. unfold checksum_input. now rewrite <- E. }
  rewrite Ee. apply Z.eqb_neq. intros H. symmetry in H. revert H.
  apply crc32c_burst; [|exact Hb]. rewrite checksum_input_length; lia.
Qed.

Lemma lxor_byte a b : 0 <= a < 256 -> 0 <= b < 256 -> 0 <= Z.lxor a b < 256.
Proof.
  intros Ha Hb. assert (H0 : 0 <= Z.lxor a b) by (apply Z.lxor_nonneg; lia). split; [exact H0|].
  destruct (Z.eq_dec (Z.lxor a b) 0) as [E|E]; [lia|].
  change 256 with (2 ^ 8). apply Z.log2_lt_pow2; [lia|].
  eapply Z.le_lt_trans; [apply Z.log2_lxor; lia|].
  apply Z.max_lub_lt.
  - destruct (Z.eq_dec a 0) as [->|]; [reflexivity|]. apply Z.log2_lt_pow2; lia.
  - destruct (Z.eq_dec b 0) as [->|]; [reflexivity|]. apply Z.log2_lt_pow2; lia.
Qed.

Lemma lxor_fix a x : Z.lxor a x = a -> x = 0.
Proof.
  intros H. assert (E : Z.lxor a (Z.lxor a x) = Z.lxor a a) by now rewrite H.
  now rewrite <- Z.lxor_assoc, Z.lxor_nilpotent, Z.lxor_0_l in E.
Qed.

Lemma digit_unique x y x' y' :
  0 <= x < 256 -> 0 <= x' < 256 -> x + y * 256 = x' + y' * 256 -> x = x' /\ y = y'.
Proof. lia. Qed.

Lemma u32le_xor_changes f g :
  bytes_ok f -> bytes_ok g -> length f = 4%nat -> length g = 4%nat -> g <> [0; 0; 0; 0] ->
  u32le (xor_bytes f g) 0 <> u32le f 0.
Proof.
  intros Hf Hg Lf Lg Hne.
  destruct f as [|a [|b [|c [|d [|? f]]]]]; try discriminate.
  destruct g as [|w [|x [|y [|z [|? g]]]]]; try discriminate.
  repeat (apply bytes_ok_cons in Hf; destruct Hf as [? Hf]).
  repeat (apply bytes_ok_cons in Hg; destruct Hg as [? Hg]).
  cbn [xor_bytes u32le u8 nth_error Nat.add]. intros Heq. injection Heq as Heq.
  destruct (digit_unique (Z.lxor a w) (Z.lxor b x + Z.lxor c y * 256 + Z.lxor d z * 65536) a (b + c * 256 + d * 65536))
    as [E1 Heq1]; [now apply lxor_byte|assumption|lia|].
  destruct (digit_unique (Z.lxor b x) (Z.lxor c y + Z.lxor d z * 256) b (c + d * 256))
    as [E2 Heq2]; [now apply lxor_byte|assumption|lia|].
  destruct (digit_unique (Z.lxor c y) (Z.lxor d z) c d) as [E3 E4]; [now apply lxor_byte|assumption|lia|].
  apply lxor_fix in E1, E2, E3, E4. subst. now apply Hne.
Qed.

Lemma field_change_rejected p e :
  bytes_ok p -> bytes_ok e -> length e = length p -> checksum_okb p = true ->
  slice e 0 8 = zeros 8 -> from e 12 = zeros (length e - 12) -> slice e 8 12 <> [0; 0; 0; 0] ->
  parse_packet (xor_bytes p e) = ValueErr.
Proof.
  intros Hp He Hl Hok Z1 Z2 Hne. apply parse_packet_bad_checksum. destruct (checksum_okb_field p Hok) as [Lp Hc].
  rewrite checksum_okb_xor by assumption.
  destruct (split_field p Lp) as (_ & _ & L2). destruct (split_field e ltac:(lia)) as (_ & _ & L2e).
  pose proof (u32le_xor_changes (slice p 8 12) (slice e 8 12) (bytes_ok_slice _ _ _ Hp)
                (bytes_ok_slice _ _ _ He) L2 L2e Hne) as Hch.
  assert (Ez : checksum_input e = zeros (length (checksum_input p))).
  { unfold checksum_input at 1. rewrite Z1, Z2, checksum_input_length by exact Lp.
    unfold zeros. change [0; 0; 0; 0] with (repeat 0 4). rewrite <- !repeat_app. f_equal. lia. }
  rewrite Ez, xor_bytes_zeros_r by lia. rewrite Hc in Hch.
  destruct (u32le (xor_bytes (slice p 8 12) (slice e 8 12)) 0) as [c'|]; [|reflexivity].
  apply Z.eqb_neq. intros ->. now apply Hch.
Qed.

Lemma bits_z_z_bits n : forall x, 0 <= x -> bits_z (z_bits n x) = x mod 2 ^ Z.of_nat n.
Proof.
  induction n as [|n IH]; intros x Hx; [cbn [z_bits bits_z]; now rewrite Z.mod_1_r|].
  cbn [z_bits bits_z]. rewrite IH by (apply Z.div_pos; lia).
  rewrite Nat2Z.inj_succ, Z.pow_succ_r by lia.
  rewrite (Z.rem_mul_r x 2 (2 ^ Z.of_nat n)) by lia.
  rewrite <- Z.bit0_odd, Z.bit0_mod. lia.
Qed.

Lemma bits_z_false n : bits_z (repeat false n) = 0.
Proof. induction n as [|n IH]; [reflexivity|]. cbn [repeat bits_z Z.b2z]. lia. Qed.

Lemma byte_bits_false_inv x : 0 <= x < 256 -> byte_bits x = repeat false 8 -> x = 0.
Proof.
  intros Hx H. apply (f_equal bits_z) in H. unfold byte_bits in H.
  rewrite bits_z_z_bits, bits_z_false in H by lia. change (2 ^ Z.of_nat 8) with 256 in H. lia.
Qed.

Lemma app_inj_len {T} (a : list T) : forall b c d,
  length a = length c -> a ++ b = c ++ d -> a = c /\ b = d.
Proof.
  induction a as [|x a IH]; intros b [|y c] d Hl H; try discriminate; [now split|].
  injection H as -> H. injection Hl as Hl. now destruct (IH b c d Hl H) as [-> ->].
Qed.

Lemma bytes_bits_false_inv l : bytes_ok l -> bytes_bits l = repeat false (8 * length l) -> l = zeros (length l).
Proof.
  induction l as [|x l IH]; intros Hok H; [reflexivity|].
  apply bytes_ok_cons in Hok. destruct Hok as [Hx Hl].
  unfold bytes_bits in *. cbn [flat_map length] in H.
  replace (8 * S (length l))%nat with (8 + 8 * length l)%nat in H by lia.
  rewrite repeat_app in H. apply app_inj_len in H.
  - destruct H as [H1 H2]. unfold zeros. cbn [length repeat]. f_equal.
    + now apply byte_bits_false_inv.
    + now apply IH.
  - now rewrite byte_bits_length, repeat_length.
Qed.

Lemma skipn_repeat {T} (x : T) n : forall k, skipn n (repeat x k) = repeat x (k - n).
Proof.
  induction n as [|n IH]; intros k; [now rewrite Nat.sub_0_r|].
  destruct k as [|k]; [reflexivity|]. apply IH.
Qed.
Lemma firstn_repeat {T} (x : T) n : forall k, firstn n (repeat x k) = repeat x (Nat.min n k).
Proof.
  induction n as [|n IH]; intros k; [reflexivity|].
  destruct k as [|k]; [reflexivity|]. cbn [repeat firstn Nat.min]. f_equal. apply IH.
Qed.

Lemma window_segment_false k w m j n :
  (j + n <= k \/ k + length w <= j)%nat -> (j + n <= k + length w + m)%nat ->
  firstn n (skipn j (repeat false k ++ w ++ repeat false m)) = repeat false n.
Proof.
  intros [H|H] Hn.
  - rewrite skipn_app, skipn_repeat, repeat_length. replace (j - k)%nat with 0%nat by lia. cbn [skipn].
    rewrite firstn_app, firstn_repeat, repeat_length. replace (n - (k - j))%nat with 0%nat by lia.
    cbn [firstn]. rewrite app_nil_r. f_equal. lia.
  - rewrite app_assoc, skipn_app, skipn_all2, app_length, repeat_length by (rewrite app_length, repeat_length; lia).
    cbn [app]. rewrite skipn_repeat, firstn_repeat. f_equal. lia.
Qed.

Lemma bytes_bits_firstn n l : (n <= length l)%nat -> bytes_bits (firstn n l) = firstn (8 * n) (bytes_bits l).
Proof.
  intros H. assert (L : length (bytes_bits (firstn n l)) = (8 * n)%nat) by now rewrite bytes_bits_length, firstn_length_le.
  rewrite <- (firstn_skipn n l) at 2. rewrite bytes_bits_app, firstn_app, L, Nat.sub_diag, <- L, firstn_all.
  symmetry. apply app_nil_r.
Qed.

Lemma bytes_bits_skipn n l : (n <= length l)%nat -> bytes_bits (skipn n l) = skipn (8 * n) (bytes_bits l).
Proof.
  intros H. assert (L : length (bytes_bits (firstn n l)) = (8 * n)%nat) by now rewrite bytes_bits_length, firstn_length_le.
  rewrite <- (firstn_skipn n l) at 2. now rewrite bytes_bits_app, skipn_app, L, Nat.sub_diag, <- L, skipn_all.
Qed.

Lemma window_slice_zero e k w m a b :
  bytes_ok e -> bytes_bits e = repeat false k ++ w ++ repeat false m ->
  (a <= b <= length e)%nat -> (8 * b <= k \/ k + length w <= 8 * a)%nat ->
  slice e a b = zeros (b - a).
Proof.
  intros Hok Hb Hab Hpos.
  assert (Ltot : (k + length w + m = 8 * length e)%nat).
  { apply (f_equal (@length bool)) in Hb. rewrite bytes_bits_length, !app_length, !repeat_length in Hb. lia. }
  assert (L : length (slice e a b) = (b - a)%nat) by (rewrite slice_length; lia).
  rewrite <- L. apply bytes_bits_false_inv; [now apply bytes_ok_slice|]. rewrite L. unfold slice.
  rewrite bytes_bits_firstn, bytes_bits_skipn, Hb by (rewrite ?skipn_length; lia).
  apply window_segment_false; lia.
Qed.

(* C08_burst_detected, window entirely outside the checksum field *)
Lemma burst_window_outside_rejected p e k w m :
  bytes_ok e -> length e = length p -> checksum_okb p = true ->
  bytes_bits e = repeat false k ++ w ++ repeat false m -> (length w <= 32)%nat -> In true w ->
  (k + length w <= 64 \/ 96 <= k)%nat ->
  parse_packet (xor_bytes p e) = ValueErr.
Proof.
  intros Hok Hl Hc Hb Hw Hin Hpos. destruct (checksum_okb_field p Hc) as [Lp _].
  apply burst_outside_rejected; [exact Hl|exact Hc| |now exists k, w, m].
  apply (window_slice_zero e k w m 8 12 Hok Hb); lia.
Qed.

(* ... and window entirely inside it *)
Lemma burst_window_inside_rejected p e k w m :
  bytes_ok p -> bytes_ok e -> length e = length p -> checksum_okb p = true ->
  bytes_bits e = repeat false k ++ w ++ repeat false m -> In true w ->
  (64 <= k /\ k + length w <= 96)%nat ->
  parse_packet (xor_bytes p e) = ValueErr.
Proof.
  intros Hp Hok Hl Hc Hb Hin [Hk1 Hk2]. destruct (checksum_okb_field p Hc) as [Lp _].
  assert (Z1 : slice e 0 8 = zeros 8) by (apply (window_slice_zero e k w m 0 8 Hok Hb); lia).
  assert (Z3 : from e 12 = zeros (length e - 12)).
  { rewrite <- slice_to_end. apply (window_slice_zero e k w m 12 (length e) Hok Hb); lia. }
  apply field_change_rejected; try assumption.
  (* were the field zero as well, e would be zero, with no bit set *)
  intros Z2. destruct (split_field e ltac:(lia)) as (E & _ & _).
  rewrite E, Z1, Z2, Z3 in Hb. change [0; 0; 0; 0] with (zeros 4) in Hb.
  rewrite !bytes_bits_app, !bytes_bits_zeros, <- !repeat_app in Hb.
  assert (Hin' : In true (repeat false k ++ w ++ repeat false m)) by (apply in_or_app; right; apply in_or_app; now left).
  rewrite <- Hb in Hin'. apply repeat_spec in Hin'. discriminate.
Qed.

Definition k6_packet : bytes := [19; 136; 19; 136; 0; 0; 0; 1; 200; 249; 200; 205; 11; 0; 0; 4].
Definition k6_error : bytes := [0; 0; 0; 0; 0; 0; 128; 84; 69; 3; 25; 0; 0; 0; 0; 0].
Definition k6_window : bits := skipn 55 (firstn 85 (bytes_bits k6_error)).

Lemma k6_packet_checksum_ok : checksum_okb k6_packet = true.
Proof. vm_compute. reflexivity. Qed.

(* K6: the statement of burst_window_outside_rejected without its hypothesis on the position of the
   window is false: a valid COOKIE-ACK packet, a non-zero error pattern confined to the 30 bits
   55..84 (9 bits of the verification tag, 21 bits of the checksum), accepted by parse_packet *)
Lemma burst_straddling_witness :
  bytes_ok k6_packet /\ bytes_ok k6_error /\ length k6_error = length k6_packet /\
  checksum_okb k6_packet = true /\
  bytes_bits k6_error = repeat false 55 ++ k6_window ++ repeat false 43 /\
  (length k6_window <= 32)%nat /\ In true k6_window /\
  parse_packet (xor_bytes k6_packet k6_error) = Ok (5000, 5000, 32853, [CPlain 11 0 []]).
Proof.
  split; [apply bytes_okb_ok; reflexivity|]. split; [apply bytes_okb_ok; reflexivity|].
  split; [reflexivity|]. split; [exact k6_packet_checksum_ok|]. split; [vm_compute; reflexivity|].
  split; [vm_compute; lia|]. split; [vm_compute; tauto|]. vm_compute. reflexivity.
Qed.
