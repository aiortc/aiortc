(* The case structure of the reassembly scan pop_loop (Model/SctpRecv.v) as an inductive graph,
   and the common shape of the two stream loops of _receive_forward_tsn_chunk. *)
From Coq Require Import ZArith List Bool.
From AV Require Import Lib.Bytes Gen.Utils Gen.SctpConst Model.SctpRecv.
Import ListNotations.
Local Open Scope Z_scope.

(* c continues a message: as the first fragment of a new candidate run, or as the expected next
   chunk of the run being collected.  (r, e, o) is that run before c joins it. *)
Definition joins (run : run_state) (c : chunk) (seq : Z) (r : list chunk) (e : Z) (o : bool) : Prop :=
  match run with
  | None => first c = true /\ negb (unordered c) && uint16_gt (sseq c) seq = false /\
            r = [] /\ e = tsn c /\ o = negb (unordered c)
  | Some x => x = (r, e, o) /\ (tsn c =? e) = true
  end.

(* the scan ends: nothing left, an ordered chunk that cannot start a delivery now, or a TSN gap
   in an ordered run *)
Definition stops (run : run_state) (rest : list chunk) (seq : Z) : Prop :=
  match rest, run with
  | [], _ => True
  | c :: _, None => unordered c = false /\ (first c = false \/ uint16_gt (sseq c) seq = true)
  | c :: _, Some (_, e, o) => (tsn c =? e) = false /\ o = true
  end.

Inductive pops : list chunk -> run_state -> list chunk -> Z -> list chunk * Z * list message -> Prop :=
| pops_stop kept run rest seq : stops run rest seq ->
    pops kept run rest seq (retained kept run rest, seq, [])
| pops_skip kept c rest seq res : first c = false -> unordered c = true ->
    pops (c :: kept) None rest seq res -> pops kept None (c :: rest) seq res
| pops_restart kept r e c rest seq res : (tsn c =? e) = false ->
    pops (r ++ kept) None (c :: rest) seq res -> pops kept (Some (r, e, false)) (c :: rest) seq res
| pops_more kept run c rest seq r e o res : joins run c seq r e o -> last c = false ->
    pops kept (Some (c :: r, tsn_plus_one e, o)) rest seq res -> pops kept run (c :: rest) seq res
| pops_msg kept run c rest seq r e o l s ms : joins run c seq r e o -> last c = true ->
    pops kept None rest (if o && (sseq c =? seq) then uint16_add seq 1 else seq) (l, s, ms) ->
    pops kept run (c :: rest) seq (l, s, (sid c, ppid c, join_data (rev (c :: r))) :: ms).

(* A gap in an unordered run sends the scan back to the same chunk with no run: the case without
   a run is settled first, for every `kept`, and the case with a run falls back on it. *)
Lemma pop_loop_pops : forall rest kept run seq, pops kept run rest seq (pop_loop kept run rest seq).
Proof.
  induction rest as [|c rest IH]; intros kept run seq; [apply pops_stop; exact I|].
  assert (Hjoin : forall kept0 run0 r e o, joins run0 c seq r e o ->
    pops kept0 run0 (c :: rest) seq
      (if last c
       then let '(l, s, ms) := pop_loop kept0 None rest (if o && (sseq c =? seq) then uint16_add seq 1 else seq) in
            (l, s, (sid c, ppid c, join_data (rev (c :: r))) :: ms)
       else pop_loop kept0 (Some (c :: r, tsn_plus_one e, o)) rest seq)).
  { intros kept0 run0 r e o J. destruct (last c) eqn:El.
    - pose proof (IH kept0 None (if o && (sseq c =? seq) then uint16_add seq 1 else seq)) as H.
      destruct (pop_loop kept0 None rest _) as [[l s] ms]. exact (pops_msg _ _ _ _ _ _ _ _ _ _ _ J El H).
    - exact (pops_more _ _ _ _ _ _ _ _ _ J El (IH _ _ _)). }
  assert (HNone : forall kept0, pops kept0 None (c :: rest) seq (pop_loop kept0 None (c :: rest) seq)).
  { intros kept0. cbn [pop_loop]. destruct (first c) eqn:Ef; cbn [negb].
    - destruct (negb (unordered c) && uint16_gt (sseq c) seq) eqn:Eg.
      + apply andb_prop in Eg as [Eu Eg]. apply negb_true_iff in Eu. apply pops_stop. cbn [stops]. auto.
      + apply (Hjoin kept0 None [] (tsn c) (negb (unordered c))). cbn [joins]. auto.
    - destruct (unordered c) eqn:Eu; cbn [negb].
      + apply pops_skip; [exact Ef|exact Eu|apply IH].
      + apply pops_stop. cbn [stops]. auto. }
  destruct run as [[[r e] o]|]; [|apply HNone].
  cbn [pop_loop]. destruct (tsn c =? e) eqn:Et; cbn [negb].
  - apply (Hjoin kept (Some (r, e, o)) r e o). cbn [joins]. auto.
  - destruct o.
    + apply pops_stop. cbn [stops]. auto.
    + apply pops_restart; [exact Et|apply HNone].
Qed.

Lemma pops_fun kept run rest seq res : pops kept run rest seq res -> pop_loop kept run rest seq = res.
Proof.
  induction 1 as [kept run rest seq Hs|kept c rest seq res Hf Hu _ IH|kept r e c rest seq res Ht _ IH
                 |kept run c rest seq r e o res J El _ IH|kept run c rest seq r e o l s ms J El _ IH].
  - destruct rest as [|c rest]; [reflexivity|]. cbn [pop_loop]. destruct run as [[[r e] o]|]; cbn [stops] in Hs.
    + destruct Hs as [-> ->]. reflexivity.
    + destruct Hs as [-> Hs]. cbn [negb andb]. destruct Hs as [->| ->]; [reflexivity|]. destruct (first c); reflexivity.
  - cbn [pop_loop]. rewrite Hf, Hu. exact IH.
  - cbn [pop_loop]. rewrite Ht. exact IH.
  - destruct run as [x|]; cbn [joins] in J.
    + destruct J as [-> Ht]. cbn [pop_loop]. rewrite Ht, El. exact IH.
    + destruct J as (Hf & Hg & -> & -> & ->). cbn [pop_loop]. rewrite Hf, Hg, El. exact IH.
  - destruct run as [x|]; cbn [joins] in J.
    + destruct J as [-> Ht]. cbn [pop_loop]. rewrite Ht, El, IH. reflexivity.
    + destruct J as (Hf & Hg & -> & -> & ->). cbn [pop_loop]. rewrite Hf, Hg, El, IH. reflexivity.
Qed.

(* ---- the stream loops of FORWARD-TSN: poll the named streams, each from a sequence number that
   depends on the stream and on the list entry *)
Fixpoint poll (seq_of : stream -> Z -> Z) (strs : list (Z * stream)) (l : list (Z * Z))
  : list (Z * stream) * list message :=
  match l with
  | [] => (strs, [])
  | (id, sq) :: l' =>
      let st := get_stream strs id in
      let '(l2, seq2, ms) := pop_messages (reasm st) (seq_of st sq) in
      let '(strs2, ms2) := poll seq_of (set_stream strs id (mkStream l2 seq2)) l' in
      (strs2, ms ++ ms2)
  end.

Definition fwd_seq (st : stream) (sq : Z) : Z :=
  if uint16_gte sq (sseq_expected st) then uint16_add sq 1 else sseq_expected st.

Lemma fwd_streams_poll : forall l strs, fwd_streams strs l = poll fwd_seq strs l.
Proof.
  induction l as [|[id sq] l IH]; intros strs; cbn [fwd_streams poll]; [reflexivity|].
  fold (fwd_seq (get_stream strs id) sq). destruct (pop_messages _ _) as [[l2 seq2] ms]. now rewrite IH.
Qed.

Lemma repop_streams_poll : forall l strs, repop_streams strs l = poll (fun st _ => sseq_expected st) strs l.
Proof.
  induction l as [|[id sq] l IH]; intros strs; cbn [repop_streams poll]; [reflexivity|].
  destruct (pop_messages _ _) as [[l2 seq2] ms]. now rewrite IH.
Qed.
