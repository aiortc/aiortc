(* C11 x C16: what reaches the decoder is, byte for byte, what left the encoder.  A whole sent
   frame, depayloaded packet by packet and concatenated by the jitter buffer (C11), is the
   encoder's buffer when its payloads are the packetiser's output (C16). *)
From Coq Require Import ZArith List Bool Lia.
From AV Require Import Lib.Bytes Model.Rtp.
From AV Require Lib.CodecX Model.Jitter Model.RtpRecv Model.Vp8 Model.H264 Proof.RtpRecvP Proof.RtpLinkP Proof.Vp8P Proof.H264PStap.
Import ListNotations.
Local Open Scope Z_scope.

Module V := AV.Model.RtpRecv. Module VP := AV.Proof.RtpRecvP. Module LP := AV.Proof.RtpLinkP.
Module X := AV.Lib.CodecX.

Definition frame_bytes (k : V.ckind) (g : list rtp) : bytes := concat (map AV.Model.Jitter.pdata (map (LP.jp k) g)).

Lemma vp8_depayload_nil d : AV.Model.Vp8.depayload [] <> X.Ok d.
Proof. vm_compute. discriminate. Qed.

Lemma h264_depayload_nil d : AV.Model.H264.depayload [] <> X.Ok d.
Proof. vm_compute. discriminate. Qed.

(* the receiver depayloads every packet of a frame (an empty payload would bypass the depayloader, but
   the depayloaders reject it) and the jitter buffer concatenates: that is `all` on the payload list *)
Lemma frame_bytes_all k (dp : bytes -> X.result bytes) (all : list bytes -> X.result bytes) :
  (forall p, V.depayload k p = dp p) -> (forall d, dp [] <> X.Ok d) -> all [] = X.Ok [] ->
  (forall p tl, all (p :: tl) = X.bind (dp p) (fun d => X.bind (all tl) (fun r => X.Ok (d ++ r)))) ->
  forall g buffer, all (map payload g) = X.Ok buffer -> frame_bytes k g = buffer.
Proof.
  intros Hk Hnil H0 Hc. unfold frame_bytes. induction g as [|x g IH]; intros buffer H; cbn [map concat] in *.
  - rewrite H0 in H. now injection H as <-.
  - rewrite Hc in H. unfold X.bind in H. destruct (dp (payload x)) as [d| | |] eqn:Ed; try discriminate.
    destruct (all (map payload g)) as [r| | |]; try discriminate. injection H as <-.
    rewrite (IH r eq_refl). f_equal.
    unfold LP.jp, VP.jpkt_of, VP.data_of, V.payload_data. cbn [AV.Model.Jitter.pdata].
    destruct (payload x) as [|b p'] eqn:Ep; [destruct (Hnil d Ed)|]. rewrite Hk, Ed. reflexivity.
Qed.

Lemma vp8_frame_bytes g buffer :
  AV.Proof.Vp8P.vp8_depay_all (map payload g) = X.Ok buffer -> frame_bytes V.KVp8 g = buffer.
Proof.
  apply (frame_bytes_all V.KVp8 AV.Model.Vp8.depayload); try reflexivity. exact vp8_depayload_nil.
Qed.

Lemma h264_frame_bytes g out :
  AV.Proof.H264PStap.depay_all (map payload g) = X.Ok out -> frame_bytes V.KH264 g = out.
Proof.
  apply (frame_bytes_all V.KH264 AV.Model.H264.depayload); try reflexivity. exact h264_depayload_nil.
Qed.

(* every WHOLE frame at the decoder is the buffer of one encoded frame *)
Theorem vp8_whole_is_encoder_output (sframes : list (list rtp)) (bufs : list (bytes * Z)) d :
  Forall2 (fun g bp => 0 <= snd bp < 32768 /\ AV.Model.Vp8.packetize (fst bp) (snd bp) = X.Ok (map payload g)) sframes bufs ->
  VP.whole_data (LP.jframes V.KVp8 sframes) d -> exists bp, In bp bufs /\ d = fst bp.
Proof.
  intros HF (g' & Hin & ->). unfold LP.jframes in Hin. apply in_map_iff in Hin as (g & <- & Hg).
  induction HF as [|g0 bp sf bs [Hpid Hp] HF IH]; [destruct Hg|].
  destruct Hg as [->|Hg].
  - exists bp. split; [now left|].
    destruct (AV.Proof.Vp8P.vp8_packetize_spec (fst bp) (snd bp) Hpid) as (pk & E1 & E2). rewrite Hp in E1. injection E1 as <-.
    exact (vp8_frame_bytes g _ (AV.Proof.Vp8P.vp8_packets_lossless _ _ _ E2)).
  - destruct (IH Hg) as (bp' & Hb & E). exists bp'. split; [now right|exact E].
Qed.

Theorem h264_whole_is_encoder_output (sframes : list (list rtp)) (nalss : list (list bytes)) d :
  Forall2 (fun g nals => Forall AV.Proof.H264PStap.valid_nal nals /\ AV.Model.H264.packetize nals = X.Ok (map payload g)) sframes nalss ->
  VP.whole_data (LP.jframes V.KH264 sframes) d ->
  exists nals, In nals nalss /\ d = concat (map (fun n => AV.Model.H264.START_CODE ++ n) nals).
Proof.
  intros HF (g' & Hin & ->). unfold LP.jframes in Hin. apply in_map_iff in Hin as (g & <- & Hg).
  induction HF as [|g0 nals sf ns [Hv Hp] HF IH]; [destruct Hg|].
  destruct Hg as [->|Hg].
  - exists nals. split; [now left|].
    destruct (AV.Proof.H264PStap.packetize_spec nals Hv) as (pk & E1 & E2). rewrite Hp in E1. injection E1 as <-.
    exact (h264_frame_bytes g _ (AV.Proof.H264PStap.packets_of_lossless nals _ E2 Hv)).
  - destruct (IH Hg) as (n' & Hb & E). exists n'. split; [now right|exact E].
Qed.
