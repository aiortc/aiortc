(* Proofs about Model/Aimd.v (property C15): the AIMD controller never raises
   and keeps its estimates within the clamp / 85 % bounds. *)
From Coq Require Import ZArith List Bool Lia.
From AV Require Import Lib.Sx Model.RateCounter Model.Aimd Proof.RateCounterP.
Import ListNotations.
Local Open Scope Z_scope.

Lemma init_step_keeps s et now :
  last_change (init_step s et now) = last_change s /\ near_max (init_step s et now) = near_max s /\
  latest (init_step s et now) = latest s /\ rtt (init_step s et now) = rtt s /\
  st (init_step s et now) = st s.
Proof.
  unfold init_step. destruct (cb_init s), et as [e|], (first_time s) as [ft|]; cbn [negb];
    try destruct (3000 <? now - ft); cbn; auto.
Qed.

Lemma init_step_cb s et now :
  cb (init_step s et now) = cb s \/
  (et = Some (cb (init_step s et now)) /\ cb_init (init_step s et now) = true).
Proof.
  unfold init_step. destruct (cb_init s), et as [e|], (first_time s) as [ft|]; cbn [negb];
    try destruct (3000 <? now - ft); cbn; auto.
Qed.

Lemma state_step_keeps s u now :
  cb (state_step s u now) = cb s /\ cb_init (state_step s u now) = cb_init s /\
  near_max (state_step s u now) = near_max s /\ latest (state_step s u now) = latest s /\
  rtt (state_step s u now) = rtt s.
Proof.
  unfold state_step. destruct (is_normal u && is_hold (st s)), (is_over u), (is_under u); cbn; auto.
Qed.

Lemma state_step_st s u now :
  st (state_step s u now) =
  match u with
  | Normal => if is_hold (st s) then Increase else st s
  | Underusing => Hold
  | Overusing => Decrease
  end.
Proof. destruct s as [c i ft lc nm la rt st0]. destruct u, st0; reflexivity. Qed.

Lemma state_step_last_change s u now :
  last_change (state_step s u now) = if is_normal u && is_hold (st s) then Some now else last_change s.
Proof. destruct s as [c i ft lc nm la rt st0]. destruct u, st0; reflexivity. Qed.

Lemma helper_step_keeps s et :
  cb (helper_step s et) = cb s /\ cb_init (helper_step s et) = cb_init s /\
  last_change (helper_step s et) = last_change s /\ near_max (helper_step s et) = near_max s /\
  rtt (helper_step s et) = rtt s /\ st (helper_step s et) = st s /\
  latest (helper_step s et) = throughput_of s et.
Proof. unfold helper_step, throughput_of. destruct et; cbn; auto 10. Qed.

Lemma bitrate_step_latest s now f s' r : bitrate_step s now f = Ok (s', r) -> latest s' = latest s.
Proof.
  unfold bitrate_step, finish.
  destruct (st s), (near_max s && negb (f_clear f)), (last_change s), (near_max_rate_increase_raises s);
    intros H; try discriminate; injection H as <- _; reflexivity.
Qed.

Lemma update_latest s u et now f s' r :
  update s u et now f = Ok (s', r) -> latest s' = latest s \/ et = Some (latest s').
Proof.
  unfold update. destruct (init_step_keeps s et now) as (_ & _ & T1 & _).
  destruct (negb (cb_init (init_step s et now)) && negb (is_over u)).
  - intros [= <- _]. left. exact T1.
  - intros H. apply bitrate_step_latest in H. rewrite H.
    destruct (helper_step_keeps (state_step (init_step s et now) u now) et) as (_ & _ & _ & _ & _ & _ & T3).
    destruct (state_step_keeps (init_step s et now) u now) as (_ & _ & _ & T2 & _).
    rewrite T3. unfold throughput_of. destruct et as [e|]; [right; reflexivity|left; congruence].
Qed.

(* what keeps the additive branch from raising; needs no assumption on clocks,
   throughputs or float inputs *)
Definition AInv0 (s : aimd) : Prop :=
  rtt s = 200 /\ (near_max s = true -> last_change s <> None).

Lemma AInv0_init : AInv0 aimd_init.
Proof. split; [reflexivity|discriminate]. Qed.

Lemma packets_per_frame_pos c : 1 <= packets_per_frame c.
Proof. unfold packets_per_frame. lia. Qed.

Lemma no_zero_division s : rtt s = 200 -> near_max_rate_increase_raises s = false.
Proof.
  intros H. unfold near_max_rate_increase_raises. rewrite H.
  pose proof (packets_per_frame_pos (cb s)).
  destruct (Z.eqb_spec (packets_per_frame (cb s)) 0); [lia|reflexivity].
Qed.

(* new_bitrate before the clamp *)
Definition proposed (s : aimd) (f : fl) : Z :=
  match st s with
  | Hold => cb s
  | Increase => cb s + if near_max s && negb (f_clear f) then f_ai f else f_mi f
  | Decrease => f_d85 f
  end.

Lemma bitrate_step_spec s now f :
  AInv0 s ->
  let e := Z.min (proposed s f) (Z.max (f_c15 f + 10000) (cb s)) in
  exists s', bitrate_step s now f = Ok (s', Some e) /\ AInv0 s' /\ cb s' = e.
Proof.
  intros [Hr Hnm]. unfold bitrate_step, finish, proposed. destruct (st s); cbv zeta.
  - eexists. split; [reflexivity|]. split; [split; assumption|reflexivity].
  - destruct (near_max s && negb (f_clear f)) eqn:Enm.
    + apply andb_true_iff in Enm. destruct (last_change s); [|now destruct Hnm].
      rewrite (no_zero_division s Hr).
      eexists. split; [reflexivity|]. split; [split; [exact Hr|discriminate]|reflexivity].
    + eexists. split; [reflexivity|]. split; [split; [exact Hr|discriminate]|reflexivity].
  - eexists. split; [reflexivity|]. split; [split; [exact Hr|discriminate]|reflexivity].
Qed.

Lemma AInv0_init_step s et now : AInv0 s -> AInv0 (init_step s et now).
Proof.
  intros HI. destruct (init_step_keeps s et now) as (L & N & _ & T & _). unfold AInv0. now rewrite L, N, T.
Qed.

Lemma AInv0_steps s u et now : AInv0 s -> AInv0 (helper_step (state_step s u now) et).
Proof.
  intros [Hr Hnm].
  destruct (state_step_keeps s u now) as (_ & _ & N2 & _ & R2).
  destruct (helper_step_keeps (state_step s u now) et) as (_ & _ & L3 & N3 & R3 & _).
  split; [congruence|]. rewrite N3, N2, L3, state_step_last_change.
  destruct (is_normal u && is_hold (st s)); [discriminate|exact Hnm].
Qed.

(* admissible float-rounded inputs of one update call, relative to the
   throughput T that the call uses:  c15 = int(1.5 * T), d85 = round(0.85 * T),
   and the two increments are not negative (the implementation computes
   mi = int(max(.., 1000)) and ai = int(dt * max(4000, ..) / 1000) with dt >= 0;
   the check run asserts the sharper mi >= 1000 and 4 dt <= ai <= 32 dt
   whenever the increments are used) *)
Definition fl_in_range (f : fl) (T : Z) : Prop :=
  -2 <= f_c15 f * 2 - T * 3 <= 2 /\
  -51 <= f_d85 f * 100 - T * 85 <= 51 /\
  0 <= f_mi f /\
  0 <= f_ai f.

Definition estimate_spec (s : aimd) (u : usage) (f : fl) (e : Z) : Prop :=
  0 <= e /\ (cb s < e -> e <= f_c15 f + 10000) /\ (u = Overusing -> e <= f_d85 f).

(* what a call that returned r has done: None is the wait for initialisation *)
Definition update_post (s : aimd) (u : usage) (et : option Z) (f : fl) (s' : aimd) (r : option Z) : Prop :=
  match r with
  | None => cb s' = cb s /\ latest s' = latest s /\ u <> Overusing
  | Some e => cb s' = e /\ latest s' = throughput_of s et /\
              (0 <= cb s -> 0 <= throughput_of s et -> fl_in_range f (throughput_of s et) ->
               estimate_spec s u f e)
  end.

(* update() never raises; an estimate is the proposed bitrate clamped by
   max(c15 + 10000, current bitrate), where the current bitrate is the old one
   or, in the initialising call, the throughput T itself (and T <= c15 + 1) *)
Lemma update_spec s u et now f :
  AInv0 s -> exists s' r, update s u et now f = Ok (s', r) /\ AInv0 s' /\ update_post s u et f s' r.
Proof.
  intros HI. unfold update. apply (AInv0_init_step s et now) in HI as H1.
  destruct (init_step_keeps s et now) as (_ & _ & T1 & _).
  pose proof (init_step_cb s et now) as C1.
  revert H1 T1 C1. generalize (init_step s et now) as s1. intros s1 H1 T1 C1.
  destruct (negb (cb_init s1) && negb (is_over u)) eqn:Ewait.
  - exists s1, None. split; [reflexivity|]. split; [exact H1|].
    apply andb_true_iff in Ewait. destruct Ewait as [Ei Eo].
    destruct C1 as [C1|[_ C1]]; [|rewrite C1 in Ei; discriminate].
    split; [exact C1|]. split; [exact T1|]. intros ->. discriminate.
  - destruct (state_step_keeps s1 u now) as (C2 & _ & _ & T2 & _).
    destruct (helper_step_keeps (state_step s1 u now) et) as (C3 & _ & _ & _ & _ & S3 & T3).
    destruct (bitrate_step_spec _ now f (AInv0_steps s1 u et now H1)) as (s' & E & HI' & Hcb).
    set (s3 := helper_step (state_step s1 u now) et) in *.
    assert (HT : latest s' = throughput_of s et).
    { rewrite (bitrate_step_latest _ _ _ _ _ E), T3. unfold throughput_of. now rewrite T2, T1. }
    exists s', (Some (Z.min (proposed s3 f) (Z.max (f_c15 f + 10000) (cb s3)))).
    split; [exact E|]. split; [exact HI'|]. split; [exact Hcb|]. split; [exact HT|].
    intros Hcb0 HT0 (Fc & Fd & Fm & Fa).
    assert (Hcb3 : cb s3 = cb s \/ cb s3 = throughput_of s et).
    { rewrite C3, C2. destruct C1 as [C1|[-> _]]; [now left|now right]. }
    assert (Hp : 0 <= proposed s3 f).
    { unfold proposed. destruct (st s3); [|destruct (near_max s3 && negb (f_clear f))|]; lia. }
    split; [lia|]. split; [lia|]. intros ->.
    unfold proposed. rewrite S3, state_step_st. lia.
Qed.

Theorem aimd_never_raises : forall cs, exists s outs, run aimd_init cs = (s, outs, 0).
Proof.
  intros cs. generalize aimd_init, AInv0_init.
  induction cs as [|c cs IH]; intros s HI; cbn [run]; [eauto|].
  destruct (update_spec s (c_usage c) (c_et c) (c_now c) (c_fl c) HI) as (s1 & r & -> & HI1 & _).
  destruct (IH s1 HI1) as (s2 & outs & ->). eauto.
Qed.
