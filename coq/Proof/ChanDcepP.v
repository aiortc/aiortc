(* C13: the DCEP DATA_CHANNEL_OPEN message round-trips for every label / protocol
   (byte strings = UTF-8 encodings) and every reliability setting. *)
From Coq Require Import ZArith List Bool Lia.
From AV Require Import Lib.Bytes Lib.BytesP Gen.SctpConst Model.Chan.
Import ListNotations.
Local Open Scope Z_scope.

Definition wf_chan (c : chan) : Prop :=
  len (ch_label c) < 65536 /\ len (ch_proto c) < 65536 /\
  match ch_maxrt c, ch_maxlt c with
  | Some r, None => 0 <= r < 4294967296
  | None, Some l => 0 <= l < 4294967296
  | None, None => True
  | Some _, Some _ => False     (* rejected by RTCPeerConnection.createDataChannel *)
  end.

(* what the parser reads off the wire layout of an OPEN message: message type, channel type,
   priority, reliability parameter, the two lengths, then label and protocol *)
Lemma dcep_parse_layout t r label proto : 0 <= t < 256 -> 0 <= r < 4294967296 -> len label < 65536 -> len proto < 65536 ->
  let hdr := be8 DATA_CHANNEL_OPEN ++ be8 t ++ be16 0 ++ be32 r ++ be16 (len label) ++ be16 (len proto) in
  dcep_parse_open (hdr ++ label ++ proto) =
  Some (mkOpen (Z.land t 128 =? 0) (if Z.land t 3 =? 1 then Some r else None)
               (if Z.land t 3 =? 1 then None else if Z.land t 3 =? 2 then Some r else None) label proto).
Proof.
  intros Ht Hr Hl Hp hdr. pose proof (len_nonneg label). pose proof (len_nonneg proto).
  unfold dcep_parse_open.
  (* each field follows a prefix of hdr; hdr is a list of 12 explicit cells, so regrouping it is conversion *)
  rewrite (u8_at (be8 DATA_CHANNEL_OPEN) t _ Ht : u8 (hdr ++ label ++ proto) 1 = _).
  rewrite (u32_at (be8 DATA_CHANNEL_OPEN ++ be8 t ++ be16 0) r _ Hr : u32 (hdr ++ label ++ proto) 4 = _).
  rewrite (u16_at (be8 DATA_CHANNEL_OPEN ++ be8 t ++ be16 0 ++ be32 r) (len label) _ ltac:(lia) : u16 (hdr ++ label ++ proto) 8 = _).
  rewrite (u16_at (be8 DATA_CHANNEL_OPEN ++ be8 t ++ be16 0 ++ be32 r ++ be16 (len label)) (len proto) _ ltac:(lia) : u16 (hdr ++ label ++ proto) 10 = _).
  unfold len. rewrite !Nat2Z.id.
  rewrite (slice_app_mid hdr).
  pose proof (slice_app_mid (hdr ++ label) proto []) as S2. rewrite app_nil_r, <- app_assoc in S2.
  change (length (hdr ++ label)) with (12 + length label)%nat in S2. rewrite S2. reflexivity.
Qed.

Theorem dcep_open_roundtrip c : wf_chan c ->
  hd 0 (dcep_open c) = DATA_CHANNEL_OPEN /\ 12 <= len (dcep_open c) /\
  dcep_parse_open (dcep_open c) =
    Some (mkOpen (ch_ordered c) (ch_maxrt c) (ch_maxlt c) (ch_label c) (ch_proto c)).
Proof.
  intros (Hl & Hp & Hrel).
  split; [reflexivity|]. split.
  { unfold len. change (length (dcep_open c)) with (12 + length (ch_label c ++ ch_proto c))%nat. lia. }
  refine (eq_trans (dcep_parse_layout _ _ (ch_label c) (ch_proto c) _ _ Hl Hp) _).
  - destruct (ch_ordered c), (ch_maxrt c), (ch_maxlt c); lia.
  - destruct (ch_maxrt c), (ch_maxlt c); lia.
  - destruct (ch_ordered c), (ch_maxrt c), (ch_maxlt c); try contradiction; reflexivity.
Qed.
