(* Sender (Model/RtpSend.v): consecutive numbering, one timestamp per frame, marker on the last
   packet; the retransmission history holds exactly the last RTP_HISTORY_SIZE sends; _retransmit. *)
From Coq Require Import ZArith List Bool Lia ZifyBool.
From AV Require Import Lib.Bytes Lib.RtpX Gen.Utils Gen.RtpConst Model.Rtp Model.RtpSend Proof.SerialP.
From AV Require Proof.RtpPktP.
Import ListNotations.
Local Open Scope Z_scope.
Ltac Zify.zify_post_hook ::= Z.to_euclidean_division_equations.

Lemma hget_hremove h k k' : hget (hremove h k) k' = if k' =? k then None else hget h k'.
Proof.
  induction h as [|[k0 v] h IH]; cbn [hremove hget]; [destruct (k' =? k); reflexivity|].
  destruct (Z.eqb_spec k k0) as [->|Hne].
  - rewrite IH. destruct (Z.eqb_spec k' k0); reflexivity.
  - cbn [hget]. rewrite IH. destruct (Z.eqb_spec k' k0) as [->|]; [|reflexivity].
    destruct (Z.eqb_spec k0 k); [congruence|reflexivity].
Qed.

Lemma hget_hset h k v k' : hget (hset h k v) k' = if k' =? k then Some v else hget h k'.
Proof. unfold hset. cbn [hget]. rewrite hget_hremove. destruct (k' =? k); reflexivity. Qed.

(* rlog = the media packets sent so far, newest first *)
Definition pkt_ok (s : sender) (p : rtp) : Prop :=
  in16 (sequence_number p) /\ padding_size p = 0 /\ payload_type p = s_pt s /\ ssrc p = s_ssrc s.

Definition SInv (s : sender) (rlog : list rtp) : Prop :=
  in16 (s_seq s) /\
  (forall i p, nth_error rlog i = Some p ->
     sequence_number p = uint16_add (s_seq s) (- (Z.of_nat i + 1)) /\ pkt_ok s p) /\
  (forall k p, hget (s_hist s) k = Some p <->
     exists i, (i < 128)%nat /\ nth_error rlog i = Some p /\ k = sequence_number p mod rtp_RTP_HISTORY_SIZE).

(* the fields no operation writes *)
Definition static (s : sender) : Z * Z * Z * option Z := (s_pt s, s_ssrc s, s_rtx_ssrc s, s_rtx_pt s).

Lemma pkt_ok_static s s' p : static s' = static s -> pkt_ok s' p -> pkt_ok s p.
Proof. intros E. injection E as E1 E2 _ _. unfold pkt_ok. rewrite E1, E2. auto. Qed.

(* among the last RTP_HISTORY_SIZE sends only the oldest shares its slot with the next packet *)
Lemma log_slot a i : in16 a -> (i < 128)%nat ->
  (uint16_add a (- (Z.of_nat i + 1)) mod rtp_RTP_HISTORY_SIZE = a mod rtp_RTP_HISTORY_SIZE <-> i = 127%nat).
Proof. intros Ha Hi. rewrite uint16_add_mod. unfold rtp_RTP_HISTORY_SIZE, in16 in *. lia. Qed.

Lemma SInv_push s rlog q :
  SInv s rlog -> sequence_number q = s_seq s -> pkt_ok s q ->
  SInv (set_seq_hist s (uint16_add (s_seq s) 1) (hset (s_hist s) (sequence_number q mod rtp_RTP_HISTORY_SIZE) q))
       (q :: rlog).
Proof.
  intros (Hs & Hlog & Hh) Eq Hq. unfold SInv, set_seq_hist. cbn [s_seq s_hist].
  (* `clear` before `lia` below: the slot equations in the context would each be split into quotient
     and remainder *)
  split; [apply uint16_add_range|]. split.
  - intros [|i] p E; cbn [nth_error] in E.
    + injection E as <-. split; [|exact Hq]. rewrite Eq, uint16_add_add. symmetry. exact (uint16_add_0 _ Hs).
    + destruct (Hlog i p E) as [E1 E2]. split; [|exact E2]. rewrite E1, uint16_add_add. f_equal. clear. lia.
  - intros k p. rewrite hget_hset, Eq. destruct (Z.eqb_spec k (s_seq s mod rtp_RTP_HISTORY_SIZE)) as [->|Hne].
    + split.
      * intros E. injection E as <-. exists 0%nat. rewrite Eq. split; [apply Nat.lt_0_succ|]. split; reflexivity.
      * intros ([|i] & Hi & E & Ek); cbn [nth_error] in E; [congruence|]. exfalso.
        destruct (Hlog i p E) as [E1 _]. rewrite E1 in Ek. symmetry in Ek. apply (log_slot _ _ Hs) in Ek; clear - Hi Ek; lia.
    + rewrite Hh. split.
      * intros (i & Hi & E & Ek). exists (S i). split; [|split; assumption].
        destruct (Hlog i p E) as [E1 _]. rewrite Ek, E1 in Hne.
        assert (Hi' : i <> 127%nat) by (intros H127; exact (Hne (proj2 (log_slot _ _ Hs Hi) H127))). clear - Hi Hi'. lia.
      * intros ([|i] & Hi & E & Ek); cbn [nth_error] in E.
        -- injection E as <-. rewrite Eq in Ek. contradiction.
        -- exists i. split; [clear - Hi; lia|]. split; assumption.
Qed.

Definition numbered (base : Z) (l : list rtp) : Prop :=
  forall k p, nth_error l k = Some p -> sequence_number p = uint16_add base (Z.of_nat k).

Lemma numbered_app base l1 l2 :
  numbered base (l1 ++ l2) <-> numbered base l1 /\ numbered (uint16_add base (Z.of_nat (length l1))) l2.
Proof.
  split.
  - intros H. split; intros k p E.
    + apply H. rewrite nth_error_app1; [exact E|]. apply nth_error_Some. congruence.
    + rewrite uint16_add_add, <- Nat2Z.inj_add. apply H. rewrite nth_error_app2 by lia.
      rewrite Nat.add_comm, Nat.add_sub. exact E.
  - intros [H1 H2] k p E. destruct (Nat.lt_ge_cases k (length l1)) as [Hk|Hk].
    + rewrite nth_error_app1 in E by exact Hk. exact (H1 k p E).
    + rewrite nth_error_app2 in E by exact Hk. rewrite (H2 _ p E), uint16_add_add. f_equal. lia.
Qed.

(* the packets of payloads i, i+1, ... of a frame of n *)
Definition frame_shape (s : sender) (timestamp : Z) (n i : nat) (l : list rtp) : Prop :=
  numbered (s_seq s) l /\
  forall j p, nth_error l j = Some p ->
    Rtp.timestamp p = timestamp /\ pkt_ok s p /\ csrc p = [] /\
    marker p = (if Nat.eqb (i + j) (n - 1) then 1 else 0).

Lemma send_payloads_spec pl : forall s rlog timestamp audio n i,
  SInv s rlog ->
  let r := send_payloads s timestamp audio n i pl in
  SInv (fst r) (rev (snd r) ++ rlog) /\ static (fst r) = static s /\
  s_seq (fst r) = uint16_add (s_seq s) (Z.of_nat (length (snd r))) /\
  length (snd r) = length pl /\ frame_shape s timestamp n i (snd r).
Proof.
  induction pl as [|[pld ntp] pl IH]; intros s rlog timestamp audio n i HI; cbn [send_payloads].
  - cbn [fst snd rev app length]. split; [exact HI|]. split; [reflexivity|].
    split; [symmetry; exact (uint16_add_0 _ (proj1 HI))|]. split; [reflexivity|].
    split; intros [|j] p E; discriminate.
  - set (q := mk_packet s timestamp audio n i pld ntp).
    assert (Hq : pkt_ok s q) by (split; [exact (proj1 HI)|repeat split]).
    pose proof (SInv_push s rlog q HI eq_refl Hq) as HI1. change (sequence_number q) with (s_seq s) in HI1.
    specialize (IH _ _ timestamp audio n (S i) HI1).
    destruct (send_payloads _ timestamp audio n (S i) pl) as [s2 out]. cbn [fst snd] in *.
    destruct IH as (I2 & St & Sq & Hlen & Hnum & Hsh).
    split; [cbn [rev]; rewrite <- app_assoc; exact I2|]. split; [exact St|].
    split; [rewrite Sq; cbn [s_seq set_seq_hist length]; rewrite uint16_add_add; f_equal; lia|].
    split; [cbn [length]; rewrite Hlen; reflexivity|]. split.
    + apply (numbered_app (s_seq s) [q] out). split; [|exact Hnum]. intros [|[|j]] p E; [|discriminate..].
      injection E as <-. symmetry. exact (uint16_add_0 _ (proj1 HI)).
    + intros [|j] p E; cbn [nth_error] in E.
      * injection E as <-. rewrite Nat.add_0_r. split; [reflexivity|]. split; [exact Hq|]. split; reflexivity.
      * rewrite <- Nat.add_succ_comm. exact (Hsh j p E).
Qed.

Lemma lookup_spec s rlog x p : SInv s rlog ->
  (lookup s x = Some p <-> exists i, (i < 128)%nat /\ nth_error rlog i = Some p /\ sequence_number p = x).
Proof.
  intros (_ & _ & Hh). unfold lookup. split.
  - destruct (hget (s_hist s) (x mod rtp_RTP_HISTORY_SIZE)) as [q|] eqn:E; [|discriminate].
    destruct (Z.eqb_spec (sequence_number q) x) as [Ex|]; [|discriminate]. intros H. injection H as <-.
    apply Hh in E. destruct E as (i & Hi & E & _). exists i. auto.
  - intros (i & Hi & E & Ex).
    assert (Eh : hget (s_hist s) (x mod rtp_RTP_HISTORY_SIZE) = Some p).
    { apply Hh. exists i. rewrite Ex. auto. }
    rewrite Eh. rewrite (proj2 (Z.eqb_eq _ _) Ex). reflexivity.
Qed.

Definition SInv_rtx (s : sender) : Prop := True.

Lemma set_rtx_seq_inv s rlog x : SInv s rlog -> SInv (set_rtx_seq s x) rlog.
Proof. intros H. exact H. Qed.

(* C07's two RTX theorems as one: wrapping succeeds, sets the RTX fields, and unwraps to the packet *)
Lemma rtx_roundtrip p pt sq ss : in16 (sequence_number p) -> padding_size p = 0 ->
  exists r, wrap_rtx p pt sq ss = Ok r /\ payload_type r = pt /\ sequence_number r = sq /\ ssrc r = ss /\
            unwrap_rtx r (payload_type p) (ssrc p) = Ok p.
Proof.
  intros Hs Hp. destruct (RtpPktP.rtx_inverse p pt sq ss Hs) as (r & Hw & E1 & E2 & E3 & _).
  destruct (RtpPktP.rtx_inverse_exact p pt sq ss Hs Hp) as (r' & Hw' & Hu).
  rewrite Hw in Hw'. injection Hw' as <-. exists r. auto.
Qed.

(* everything _retransmit does, for EVERY integer argument *)
Theorem retransmit_spec s rlog x : SInv s rlog ->
  match lookup s x with
  | None => retransmit s x = Ok (s, [])
  | Some p =>
      match s_rtx_pt s with
      | None => retransmit s x = Ok (s, [p])
      | Some pt =>
          exists r, wrap_rtx p pt (s_rtx_seq s) (s_rtx_ssrc s) = Ok r /\
                    retransmit s x = Ok (set_rtx_seq s (uint16_add (s_rtx_seq s) 1), [r]) /\
                    payload_type r = pt /\ sequence_number r = s_rtx_seq s /\ ssrc r = s_rtx_ssrc s /\
                    unwrap_rtx r (payload_type p) (ssrc p) = Ok p
      end
  end.
Proof.
  intros HI. unfold retransmit. destruct (lookup s x) as [p|] eqn:EL; [|reflexivity].
  destruct (s_rtx_pt s) as [pt|]; [|reflexivity].
  apply (lookup_spec s rlog x p HI) in EL. destruct EL as (i & _ & E & _).
  destruct HI as (_ & Hlog & _). destruct (Hlog i p E) as [_ (Hs & Hp & _)].
  destruct (rtx_roundtrip p pt (s_rtx_seq s) (s_rtx_ssrc s) Hs Hp) as (r & Hw & Hr).
  exists r. split; [exact Hw|]. rewrite Hw. cbn [bind]. auto.
Qed.

Lemma set_rtx_seq_same s : set_rtx_seq s (s_rtx_seq s) = s.
Proof. destruct s. reflexivity. Qed.

Lemma retransmit_state s x s' l : retransmit s x = Ok (s', l) -> exists rs, s' = set_rtx_seq s rs.
Proof.
  unfold retransmit. destruct (lookup s x) as [p|]; [destruct (s_rtx_pt s) as [pt|]|].
  - destruct (wrap_rtx p pt (s_rtx_seq s) (s_rtx_ssrc s)) as [r| | |]; cbn [bind]; try discriminate.
    intros E. injection E as <- _. eexists. reflexivity.
  - intros E. injection E as <- _. exists (s_rtx_seq s). symmetry. apply set_rtx_seq_same.
  - intros E. injection E as <- _. exists (s_rtx_seq s). symmetry. apply set_rtx_seq_same.
Qed.

Lemma handle_nack_state lost : forall s s' l, handle_nack s lost = Ok (s', l) -> exists rs, s' = set_rtx_seq s rs.
Proof.
  induction lost as [|x lost IH]; intros s s' l; cbn [handle_nack].
  - intros E. injection E as <- _. exists (s_rtx_seq s). symmetry. apply set_rtx_seq_same.
  - destruct (retransmit s x) as [[s1 l1]| | |] eqn:E1; cbn [bind fst snd]; try discriminate.
    destruct (handle_nack s1 lost) as [[s2 l2]| | |] eqn:E2; cbn [bind fst snd]; try discriminate.
    intros E. injection E as <- _. destruct (retransmit_state _ _ _ _ E1) as [rs1 ->].
    destruct (IH _ _ _ E2) as [rs2 ->]. exists rs2. reflexivity.
Qed.

Lemma retransmit_ok s rlog x : SInv s rlog -> exists s1 l1, retransmit s x = Ok (s1, l1).
Proof.
  intros HI. pose proof (retransmit_spec s rlog x HI) as H.
  destruct (lookup s x); [destruct (s_rtx_pt s); [destruct H as (r0 & _ & H & _)|]|]; eauto.
Qed.

Lemma handle_nack_ok lost : forall s rlog, SInv s rlog ->
  exists rs l, handle_nack s lost = Ok (set_rtx_seq s rs, l).
Proof.
  induction lost as [|x lost IH]; intros s rlog HI; cbn [handle_nack].
  - exists (s_rtx_seq s), []. rewrite set_rtx_seq_same. reflexivity.
  - destruct (retransmit_ok s rlog x HI) as (s1 & l1 & E1). rewrite E1. cbn [bind fst snd].
    destruct (retransmit_state _ _ _ _ E1) as [rs1 ->].
    destruct (IH _ rlog (set_rtx_seq_inv s rlog rs1 HI)) as (rs2 & l2 & E2). rewrite E2.
    eexists; eexists; reflexivity.
Qed.

Definition sent_frames (outs : list out) : list (list rtp) :=
  flat_map (fun o => match o with Sent (p :: l) => [p :: l] | _ => [] end) outs.

Lemma media_sent_frames outs : media outs = concat (sent_frames outs).
Proof.
  induction outs as [|o outs IH]; [reflexivity|]. cbn [media sent_frames flat_map]. fold (media outs) (sent_frames outs).
  destruct o as [[|p l]|l]; cbn [app concat]; rewrite IH; reflexivity.
Qed.

Definition one_frame (s : sender) (l : list rtp) : Prop :=
  exists t, Forall (fun p => Rtp.timestamp p = t /\ pkt_ok s p /\ csrc p = []) l /\
            forall j p, nth_error l j = Some p -> marker p = if Nat.eqb j (length l - 1) then 1 else 0.

Lemma one_frame_static s s' l : static s' = static s -> one_frame s' l -> one_frame s l.
Proof.
  intros St (t & HF & HM). exists t. split; [|exact HM].
  eapply Forall_impl; [|exact HF]. intros p (H1 & H2 & H3). split; [exact H1|]. split; [|exact H3].
  exact (pkt_ok_static s s' p St H2).
Qed.

Lemma frame_shape_one_frame s ts l : frame_shape s ts (length l) 0 l -> one_frame s l.
Proof.
  intros [_ HS]. exists ts. split.
  - apply Forall_forall. intros p Hin. apply In_nth_error in Hin. destruct Hin as [j E].
    destruct (HS j p E) as (E1 & E2 & E3 & _). auto.
  - intros j p E. exact (proj2 (proj2 (proj2 (HS j p E)))).
Qed.

Theorem run_spec ops : forall s rlog, SInv s rlog ->
  exists s' outs, run s ops = Ok (s', outs) /\ SInv s' (rev (media outs) ++ rlog) /\ static s' = static s /\
    numbered (s_seq s) (media outs) /\ Forall (one_frame s) (sent_frames outs) /\
    s_seq s' = uint16_add (s_seq s) (Z.of_nat (length (media outs))).
Proof.
  induction ops as [|o ops IH]; intros s rlog HI; cbn [run].
  - exists s, []. split; [reflexivity|]. split; [exact HI|]. split; [reflexivity|].
    split; [intros [|k] p E; discriminate|]. split; [constructor|].
    symmetry. exact (uint16_add_0 _ (proj1 HI)).
  - destruct o as [f|lost]; cbn [step].
    + unfold send_frame.
      pose proof (send_payloads_spec (ef_payloads f) s rlog (uint32_add (s_ts_origin s) (ef_ts f)) (ef_audio f)
                    (length (ef_payloads f)) 0 HI) as H.
      destruct (send_payloads s _ _ _ _ _) as [s1 l]. cbn [fst snd] in H.
      destruct H as (I1 & St1 & Sq1 & HL & Hsh). cbn [bind fst snd]. rewrite <- HL in Hsh.
      destruct (IH s1 _ I1) as (s2 & outs & E2 & I2 & St2 & N2 & F2 & Sq2). rewrite E2. cbn [bind fst snd].
      eexists; eexists. split; [reflexivity|]. cbn [media flat_map]. fold (media outs).
      rewrite rev_app_distr, <- app_assoc. split; [exact I2|]. split; [rewrite St2; exact St1|].
      rewrite Sq1 in N2. split; [exact (proj2 (numbered_app _ _ _) (conj (proj1 Hsh) N2))|]. split.
      * cbn [sent_frames flat_map]. fold (sent_frames outs).
        assert (F2' : Forall (one_frame s) (sent_frames outs)).
        { eapply Forall_impl; [|exact F2]. intros x. apply one_frame_static. exact St1. }
        destruct l as [|p l]; [exact F2'|]. cbn [app]. constructor; [|exact F2'].
        exact (frame_shape_one_frame s _ _ Hsh).
      * rewrite Sq2, Sq1, app_length, uint16_add_add, Nat2Z.inj_add. reflexivity.
    + destruct (handle_nack_ok lost s rlog HI) as (rs & l & E1). rewrite E1. cbn [bind fst snd].
      destruct (IH _ _ (set_rtx_seq_inv s rlog rs HI)) as (s2 & outs & E2 & H2). rewrite E2. cbn [bind fst snd].
      eexists; eexists. split; [reflexivity|]. exact H2.
Qed.

Lemma SInv_start s : in16 (s_seq s) -> s_hist s = [] -> SInv s [].
Proof.
  intros Hs Hh. split; [exact Hs|]. split.
  - intros i p E. destruct i; discriminate.
  - intros k p. rewrite Hh. cbn [hget]. split; [discriminate|].
    intros (i & _ & E & _). destruct i; discriminate.
Qed.

Lemma In_firstn_nth {A} (l : list A) n x :
  In x (firstn n l) <-> exists i, (i < n)%nat /\ nth_error l i = Some x.
Proof.
  revert n. induction l as [|h t IH]; intros n.
  - rewrite firstn_nil. split; [intros []|]. intros (i & _ & E). destruct i; discriminate.
  - destruct n as [|n]; [cbn [firstn]; split; [intros []|intros (i & Hi & _); lia]|].
    cbn [firstn In]. rewrite IH. split.
    + intros [->|(i & Hi & E)]; [exists 0%nat; split; [lia|reflexivity]|exists (S i); split; [lia|exact E]].
    + intros (i & Hi & E). destruct i as [|i]; cbn [nth_error] in E; [left; congruence|].
      right. exists i. split; [lia|exact E].
Qed.

Definition recent (n : nat) (log : list rtp) : list rtp := firstn n (rev log).

(* C11_history *)
Theorem history_spec s0 ops :
  in16 (s_seq s0) -> s_hist s0 = [] ->
  exists s outs,
    run s0 ops = Ok (s, outs) /\
    forall x,
      (forall p, lookup s x = Some p <-> In p (recent 128 (media outs)) /\ sequence_number p = x) /\
      match lookup s x with
      | None => retransmit s x = Ok (s, [])
      | Some p =>
          match s_rtx_pt s0 with
          | None => retransmit s x = Ok (s, [p])
          | Some pt =>
              exists r, wrap_rtx p pt (s_rtx_seq s) (s_rtx_ssrc s0) = Ok r /\
                        retransmit s x = Ok (set_rtx_seq s (uint16_add (s_rtx_seq s) 1), [r]) /\
                        payload_type r = pt /\ sequence_number r = s_rtx_seq s /\ ssrc r = s_rtx_ssrc s0 /\
                        unwrap_rtx r (payload_type p) (ssrc p) = Ok p
          end
      end.
Proof.
  intros Hs Hh. destruct (run_spec ops s0 [] (SInv_start s0 Hs Hh)) as (s & outs & E & HI & St & _).
  rewrite app_nil_r in HI. exists s, outs. split; [exact E|]. intros x. split.
  - intros p. rewrite (lookup_spec s _ x p HI). unfold recent. rewrite In_firstn_nth.
    split; [intros (i & H1 & H2 & H3); split; [exists i; auto|exact H3]|
            intros [(i & H1 & H2) H3]; exists i; auto].
  - pose proof (retransmit_spec s _ x HI) as H. injection St as _ _ E1 E2.
    rewrite E1, E2 in H. exact H.
Qed.

(* C11 sender side: numbering *)
Theorem stream_spec s0 ops s outs :
  in16 (s_seq s0) -> s_hist s0 = [] -> run s0 ops = Ok (s, outs) ->
  numbered (s_seq s0) (media outs) /\ Forall (one_frame s0) (sent_frames outs) /\
  media outs = concat (sent_frames outs) /\ Forall (fun l => l <> []) (sent_frames outs).
Proof.
  intros Hs Hh ER. destruct (run_spec ops s0 [] (SInv_start s0 Hs Hh)) as (s' & outs' & E & _ & _ & N & F & _).
  rewrite ER in E. injection E as <- <-. split; [exact N|]. split; [exact F|]. split; [apply media_sent_frames|].
  clear. induction outs as [|o outs IH]; [constructor|]. cbn [sent_frames flat_map]. fold (sent_frames outs).
  destruct o as [[|p l]|l]; cbn [app]; [exact IH| |exact IH]. constructor; [discriminate|exact IH].
Qed.
