(* Totality of the offer/answer exchange between well-formed connections (C03_exchange_succeeds). *)
From Coq Require Import ZArith List Bool Lia.
From AV Require Import Model.Nego Proof.NegoP Proof.NegoExP Proof.NegoWfP Proof.NegoCodecP.
Import ListNotations.
Local Open Scope Z_scope.

(* the codec part of setRemoteDescription for section m succeeds on a transceiver with these preferences *)
Definition good (T : tables) (prefs : list cap) (m : media) : Prop :=
  m_dir m <> None /\
  exists c0 common, find_common_codecs (CODECS T (m_kind m)) (m_codecs m) = Ok c0 /\
                    filter_preferred_codecs c0 prefs = Ok common /\ common <> [].

(* every audio/video section of `all` can be negotiated on a new transceiver and on each of its candidates in trs *)
Definition good_all (T : tables) (all : list media) (trs : list transceiver) : Prop :=
  forall m, In m all -> is_av (m_kind m) = true ->
    good T [] m /\ forall t, In t trs -> cand (m_kind m) (m_mid m) t -> good T (t_preferred t) m.

Lemma remote_av_total : forall T ty m i p0 all,
  good_all T all (p_trs p0) -> In m all -> is_av (m_kind m) = true -> exists p', remote_av T ty m i p0 = Ok p'.
Proof.
  intros T ty m i p0 all G Hm Hav. destruct (G m Hm Hav) as [Gn Gc]. destruct (locate m p0) as [p1 k] eqn:El.
  destruct (locate_cases _ _ _ _ El) as [l1 [t0 [l2 [E1 [<- [Hc [_ Hp]]]]]]]. rewrite (remote_av_eq _ _ _ _ _ _ _ _ _ El E1).
  assert (Hg : good T (t_preferred t0) m).
  { destruct Hp as [->|[_ [_ [_ ->]]]]; [apply Gc; [rewrite E1; apply in_elt | exact Hc] | exact Gn]. }
  destruct Hg as [Hd [c0 [common [F1 [F2 F3]]]]]. rewrite F1. cbn [bind]. rewrite F2. cbn [bind].
  destruct common as [|c cs]; [congruence|]. destruct (m_dir m); [|congruence]. eexists. reflexivity.
Qed.

Lemma NoDup_map_inj : forall A B (f : A -> B) l x y, NoDup (map f l) -> In x l -> In y l -> f x = f y -> x = y.
Proof.
  induction l as [|a l IH]; intros x y Hnd Hx Hy E; [destruct Hx|]. cbn [map] in Hnd. inversion Hnd as [|? ? Hn Hnd']; subst.
  destruct Hx as [->|Hx]; destruct Hy as [->|Hy]; auto.
  - exfalso. apply Hn. rewrite E. apply in_map. exact Hy.
  - exfalso. apply Hn. rewrite <- E. apply in_map. exact Hx.
Qed.

(* the transceiver a section lands on keeps its preferences, and is a candidate for no other section *)
Lemma good_all_av : forall T ty all m i p0 p', remote_av T ty m i p0 = Ok p' ->
  good_all T all (p_trs p0) -> NoDup (map m_mid all) -> In m all -> good_all T all (p_trs p').
Proof.
  intros T ty all m i p0 p' H G Hnd Hm m' Hm' Hav. destruct (G m' Hm' Hav) as [Gn Gc]. split; [exact Gn|].
  destruct (remote_av_inv _ _ _ _ _ _ H) as [p1 [l1 [t0 [t3 [l2 [B1 [B5 [_ [B0 [[_ [B8 _]] [_ [_ [B11 ->]]]]]]]]]]]]].
  assert (G1 : forall t, In t (l1 ++ t0 :: l2) -> cand (m_kind m') (m_mid m') t -> good T (t_preferred t) m').
  { destruct B0 as [->|[_ [E [-> Ep]]]]; [rewrite <- B1; exact Gc|].
    intros t Hin Hc. apply in_app_or in Hin. destruct Hin as [Hin|[<-|[]]]; [apply Gc; [rewrite E; exact Hin | exact Hc] | rewrite Ep; exact Gn]. }
  cbn [p_trs set_transports set_trs]. apply (In_replace _ _ l1 t0 t3 l2 G1). intros [_ [Hc'|Hc']]; [congruence|].
  rewrite B8 in Hc'. inversion Hc'. assert (m' = m) by (eapply NoDup_map_inj; eauto). subst m'.
  rewrite B11. apply G1; [apply in_elt | exact B5].
Qed.

Lemma remote_media_total : forall T ty all, NoDup (map m_mid all) ->
  forall ms i p, incl ms all -> good_all T all (p_trs p) -> exists p', remote_media T ty ms i p = Ok p'.
Proof.
  intros T ty all Hnd. induction ms as [|m ms IH]; intros i p Hinc G; cbn [remote_media]; [eexists; reflexivity|].
  assert (Hinc' : incl ms all) by (intros x Hx; apply Hinc; right; exact Hx).
  assert (Hm : In m all) by (apply Hinc; left; reflexivity).
  destruct (is_av (m_kind m)) eqn:Eav.
  - destruct (remote_av_total T ty m i (set_seen p (sadd (m_mid m) (p_seen p))) all G Hm Eav) as [p1 Hp1].
    rewrite Hp1. cbn [bind]. apply IH; [exact Hinc' | exact (good_all_av _ _ _ _ _ _ _ Hp1 G Hnd Hm)].
  - destruct (m_kind m =? 2); [|apply IH; auto].
    destruct (remote_app_total ty m i (set_seen p (sadd (m_mid m) (p_seen p)))) as [p1 Hp1]. rewrite Hp1. cbn [bind].
    apply IH; [exact Hinc'|]. apply remote_app_frame in Hp1. destruct Hp1 as [-> _]. exact G.
Qed.

Lemma set_remote_description_total : forall (Q : Z -> list cap -> Prop) fixed T p d s0, (forall k, Q k []) ->
  validate_description p d false = Ok tt ->
  wfs Q p s0 -> at_pos (secs_of (d_media d)) 0 s0 -> secs_ok (secs_of (d_media d)) ->
  d_bundle d = map m_mid (d_media d) -> good_all T (d_media d) (p_trs p) ->
  exists p', set_remote_description fixed T p d = Ok p'.
Proof.
  intros Q fixed T p d s0 HQ Hv W Hext Hok Hb G. unfold set_remote_description. rewrite Hv. cbn [bind].
  pose proof Hok as [Hnd [_ Hk]]. pose proof (rinv_start _ _ _ _ W Hext Hnd) as R0. rewrite secs_of_mids in Hnd.
  destruct (remote_media_total T (d_type d) (d_media d) Hnd (d_media d) 0 p (incl_refl _) G) as [p1 Hp1].
  rewrite Hp1. cbn [bind].
  pose proof (remote_media_rinv Q T (d_type d) s0 _ HQ Hok _ _ _ _ Hp1 (at_pos_refl _ _) R0) as R1. cbn [Nat.add] in R1.
  (* the transport of the first BUNDLE member exists *)
  assert (Hab : exists p2, apply_bundle fixed (d_bundle d) p1 = Ok p2).
  { rewrite Hb. unfold apply_bundle. destruct (d_media d) as [|m0 ms]; [eexists; reflexivity|]. cbn [map].
    assert (H0 : live_at (secs_of (m0 :: ms)) (length (m0 :: ms)) s0 0 (m_kind m0, m_mid m0)) by (split; [reflexivity | left; cbn; lia]).
    destruct (Hk (m_kind m0, m_mid m0) (or_introl eq_refl)) as [Hav|H2]; cbn [fst] in *.
    - destruct (li_sec _ _ (ri_ali _ _ _ _ _ R1) _ _ _ H0 Hav) as [t [Hin Hm]].
      destruct (find_mid_some _ _ _ Hin Hm) as [t' [Hf _]]. rewrite Hf.
      destruct (p_sctp p1) as [s|]; [destruct (opt_eqb Z.eqb (s_mid s) (Some (m_mid m0)))|]; eexists; reflexivity.
    - rewrite H2 in H0. destruct (ri_sctp_sec _ _ _ _ _ R1 _ _ H0) as [s [Hs Hm]].
      rewrite Hs, Hm. cbn [opt_eqb]. rewrite Z.eqb_refl. eexists. reflexivity. }
  destruct Hab as [p2 Hp2]. rewrite Hp2. cbn [bind]. eexists. reflexivity.
Qed.

Lemma answer_media_total : forall Q T p ss ms, wfs Q p ss ->
  (forall m, In m ms -> In (m_kind m, m_mid m) ss) ->
  (forall m, In m ms -> is_av (m_kind m) = true ->
     exists t, In t (p_trs p) /\ negotiated T 0 m t) ->
  exists out, answer_media p ms = Ok out /\ secs_of out = secs_of ms /\
              (forall x, In x out -> m_role x <> RAuto).
Proof.
  intros Q T p ss ms W. pose proof W as [W1 W2 W3 W4 W5 W6 W7 W8 W9].
  induction ms as [|m ms IH]; intros Hss Hneg; cbn [answer_media].
  - exists []. split; [reflexivity|]. split; [reflexivity | intros x []].
  - destruct IH as [rest [E [Es Er]]]; [intros x Hx; apply Hss; right; exact Hx | intros x Hx; apply Hneg; right; exact Hx|].
    unfold secs_of in *. cbn [map].
    destruct (is_av (m_kind m)) eqn:Eav.
    + destruct (Hneg m (or_introl eq_refl) Eav) as [t [Hin [Hk [Hm [c0 [md [_ [_ [_ [_ [_ Hod]]]]]]]]]]]. cbn [Z.eqb] in Hod.
      rewrite (find_mid_unique _ _ _ _ W4 Hin Hm). rewrite Hod.
      destruct (and_direction_total (t_direction t) (reverse_direction md)) as [dd Hdd]. rewrite Hdd. cbn [bind]. rewrite Hm.
      destruct (W7 t Hin) as [tr Htr]. rewrite Htr. rewrite E. cbn [bind].
      eexists. split; [reflexivity|]. split; [cbn [map m_kind m_mid media_for_transceiver]; rewrite Es, Hk; reflexivity|].
      intros x [<-|Hx]; [cbn; destruct (tr_role tr); discriminate | apply Er; exact Hx].
    + assert (H2 : m_kind m = 2).
      { destruct (W3 _ (Hss m (or_introl eq_refl))) as [E2|E2]; cbn [fst] in E2; [congruence | exact E2]. }
      pose proof (Hss m (or_introl eq_refl)) as Hin. rewrite H2 in Hin.
      destruct (W5 _ Hin) as [s [Hs Hm]]. rewrite Hs, Hm.
      destruct (W8 s Hs) as [tr Htr]. rewrite Htr. rewrite E. cbn [bind].
      eexists. split; [reflexivity|]. split; [cbn [map m_kind m_mid media_for_sctp]; rewrite Es, H2; reflexivity|].
      intros x [<-|Hx]; [cbn; destruct (tr_role tr); discriminate | apply Er; exact Hx].
Qed.

Lemma sections_eqb_refl : forall a, sections_eqb a a = true.
Proof. induction a as [|[x y] a IH]; cbn; [reflexivity|]. unfold section_eqb. cbn. rewrite !Z.eqb_refl, IH. reflexivity. Qed.

Lemma validate_answer_ok : forall p d o (is_local : bool), d_type d = 1 ->
  p_state p = (if is_local then HaveRemoteOffer else HaveLocalOffer) ->
  (if is_local then remote_description p else local_description p) = Some o ->
  secs_of (d_media o) = secs_of (d_media d) -> (forall x, In x (d_media d) -> m_role x <> RAuto) ->
  validate_description p d is_local = Ok tt.
Proof.
  intros p d o is_local Ht Hst Ho Hsec Hroles. unfold validate_description. rewrite Ht, Hst, Ho. cbn [Z.eqb Pos.eqb andb].
  replace (existsb (fun m => match m_role m with RAuto => true | _ => false end) (d_media d)) with false.
  - unfold sections. cbn [desc_media]. fold (secs_of (d_media d)). fold (secs_of (d_media o)). rewrite Hsec, sections_eqb_refl.
    destruct is_local; reflexivity.
  - symmetry. apply not_true_is_false. intro Ex. apply existsb_exists in Ex. destruct Ex as [x [Hx Hx']].
    specialize (Hroles x Hx). destruct (m_role x); [congruence | discriminate | discriminate].
Qed.

Lemma local_directions_total : forall trs, exists trs', local_directions true trs = Ok trs'.
Proof.
  induction trs as [|t ts [ts' E]]; cbn [local_directions]; [eexists; reflexivity|].
  destruct (t_offerDirection t) as [o|].
  - destruct (and_direction_total (t_direction t) o) as [d Hd]. rewrite Hd. cbn [bind]. rewrite E. cbn [bind]. eexists. reflexivity.
  - cbn [bind]. rewrite E. cbn [bind]. eexists. reflexivity.
Qed.

Definition prefs_drawn (T : tables) (p : pc) : Prop :=
  forall t, In t (p_trs p) -> drawn (CODECS T (t_kind t)) (t_preferred t) /\ has_real (t_preferred t).

Definition prefs_compat (a b : pc) : Prop :=
  forall ta tb, In ta (p_trs a) -> In tb (p_trs b) -> t_kind ta = t_kind tb -> compatible (t_preferred ta) (t_preferred tb).

(* preferences with which a transceiver of kind k can answer the offerer a *)
Definition answerable (T : tables) (a : pc) (k : Z) (pb : list cap) : Prop :=
  drawn (CODECS T k) pb /\ has_real pb /\ forall ta, In ta (p_trs a) -> t_kind ta = k -> compatible (t_preferred ta) pb.

Lemma answerable_nil : forall T a k, answerable T a k [].
Proof. intros T a k. split; [intros q []|]. split; [intro Hne; congruence | intros ta _ _; right; left; reflexivity]. Qed.

(* both rounds of the codec negotiation of an offered section: the answerer's with preferences pb, and the
   offerer's own (preferences pa, on the transceiver that carries the section) with what was answered *)
Definition negotiable (T : tables) (a : pc) (trs2 : list transceiver) (m : media) : Prop :=
  m_dir m <> None /\
  exists pa, (forall t2, In t2 trs2 -> t_mid t2 = Some (m_mid m) -> t_preferred t2 = pa) /\
    forall pb, answerable T a (m_kind m) pb ->
      exists N M, find_common_codecs (CODECS T (m_kind m)) (m_codecs m) = Ok (m_codecs m) /\
                  filter_preferred_codecs (m_codecs m) pb = Ok N /\ N <> [] /\
                  find_common_codecs (CODECS T (m_kind m)) N = Ok N /\
                  filter_preferred_codecs N pa = Ok M /\ M <> [].

Lemma offered_negotiable : forall T a trs2 ss m, tables_ok T = true -> prefs_drawn T a -> aligned trs2 ss ->
  offered_by T (p_trs a) trs2 m -> is_av (m_kind m) = true -> negotiable T a trs2 m.
Proof.
  intros T a trs2 ss m HT Da A Hob Hav. destruct (Hob Hav) as [Hd [ta [t2 [Hina [Ek [Hin2 [Hmid [Ep Hoff]]]]]]]].
  split; [exact Hd|]. exists (t_preferred ta). split.
  - intros t Hin Hm. rewrite (aligned_same_mid _ _ _ _ _ A Hin Hin2 Hm Hmid). exact Ep.
  - intros pb [Dpb [Rpb Cpb]]. destruct (Da ta Hina) as [Dta Rta]. rewrite Ek in Dta.
    destruct (nego_ok_tables T (m_kind m) (t_preferred ta) pb HT Dta Dpb Rta Rpb (Cpb ta Hina Ek)) as [O [N [M [E1 E2]]]].
    rewrite Hoff in E1. injection E1 as <-. exists N, M. exact E2.
Qed.

Lemma answerer_phase : forall (Q : Z -> list cap -> Prop) T b s0 offer, (forall k, Q k []) ->
  wfs Q b s0 -> p_state b = Stable -> d_type offer = 0 -> d_bundle offer = map m_mid (d_media offer) ->
  at_pos (secs_of (d_media offer)) 0 s0 -> secs_ok (secs_of (d_media offer)) -> good_all T (d_media offer) (p_trs b) ->
  exists b1 answer b2,
    set_remote_description true T b offer = Ok b1 /\ create_answer b1 = Ok answer /\
    set_local_description true b1 answer = Ok b2 /\
    wfs Q b1 (secs_of (d_media offer)) /\ secs_of (d_media offer) = secs_of (d_media answer) /\
    (forall x, In x (d_media answer) -> m_role x <> RAuto) /\
    (forall m, In m (d_media offer) -> is_av (m_kind m) = true -> exists t, In t (p_trs b1) /\ negotiated T 0 m t).
Proof.
  intros Q T b s0 offer HQ W Hst O1 O2 Hext Hok G.
  assert (Hv : validate_description b offer false = Ok tt) by (unfold validate_description; rewrite O1, Hst; reflexivity).
  destruct (set_remote_description_total Q true T b offer s0 HQ Hv W Hext Hok O2 G) as [b1 H3].
  pose proof (set_remote_description_wfs Q true T b offer b1 s0 HQ H3 W Hext Hok) as Wb1.
  destruct (set_remote_description_spec _ _ _ _ _ H3) as [R2 [R3 [_ R8]]]. rewrite O1 in R2, R8. cbn [Z.eqb] in R2.
  assert (Hneg : forall m, In m (d_media offer) -> is_av (m_kind m) = true -> exists t, In t (p_trs b1) /\ negotiated T 0 m t).
  { apply R8. rewrite <- secs_of_mids. exact (proj1 Hok). }
  destruct (answer_media_total Q T b1 _ (d_media offer) Wb1 (fun m Hm => in_map _ _ _ Hm) Hneg) as [out [Eout [Es Er]]].
  set (answer := mkDesc 1 out (map m_mid out)).
  assert (Esa : secs_of (d_media offer) = secs_of (d_media answer)) by (symmetry; exact Es).
  destruct (set_local_answer_eq Q true b1 answer) as [p4 [_ [_ [_ [_ E5]]]]];
    [rewrite <- Esa; exact Wb1 | reflexivity | exact (validate_answer_ok b1 answer offer true eq_refl R2 R3 Esa Er)|].
  destruct (local_directions_total (p_trs b1)) as [trs' Htrs']. rewrite Htrs' in E5.
  exists b1, answer. eexists. split; [exact H3|]. split; [unfold create_answer; rewrite R2, R3, Eout; reflexivity|].
  split; [exact E5|]. auto.
Qed.

Theorem exchange_ok : forall T a b, tables_ok T = true -> wf T a -> wf T b -> S a = S b ->
  prefs_drawn T a -> prefs_drawn T b -> prefs_compat a b -> exists x, exchange true T a b = Ok x.
Proof.
  intros T a b HT Wa Wb Hsync Da Db Hc.
  destruct (offer_codecs_total T (p_trs a) HT) as [trs0 Hoc].
  destruct (offer_phase true T a trs0 Wa Hoc) as [a1 [offer [a2 [G1 [G2 [G3 [G4 [G8 G9]]]]]]]].
  destruct (create_offer_spec _ _ _ _ G1) as [O1 [O2 _]]. pose proof (wfs_secs_ok _ _ _ G3) as Hok.
  assert (NEG : forall m, In m (d_media offer) -> is_av (m_kind m) = true -> negotiable T a (p_trs a2) m).
  { rewrite Forall_forall in G9. intros m Hm Hav. exact (offered_negotiable _ _ _ _ _ HT Da (ws_al _ _ _ G3) (G9 m Hm) Hav). }
  assert (Wb0 : wfs (answerable T a) b (S b)).
  { apply (wfs_prefs _ _ _ _ (wf_wfs_S _ _ Wb)). intros t Hin. destruct (Db t Hin) as [Dt Rt].
    split; [exact Dt|]. split; [exact Rt|]. intros ta Hina Ek. exact (Hc ta t Hina Hin Ek). }
  assert (Gb : good_all T (d_media offer) (p_trs b)).
  { intros m Hm Hav. destruct (NEG m Hm Hav) as [Hd [pa [_ Hneg]]].
    assert (Hg : forall pb, answerable T a (m_kind m) pb -> good T pb m).
    { intros pb Hpb. destruct (Hneg pb Hpb) as [N [M [E1 [E2 [E3 _]]]]]. split; [exact Hd|]. exists (m_codecs m), N. auto. }
    split; [apply Hg; apply answerable_nil|]. intros t Hin [Hk _]. apply Hg. rewrite <- Hk. exact (ws_prefs _ _ _ Wb0 t Hin). }
  rewrite Hsync in G4.
  destruct (answerer_phase _ T b (S b) offer (answerable_nil T a) Wb0 (wf_state _ _ Wb) O1 O2 G4 Hok Gb)
    as [b1 [answer [b2 [H3 [H4 [H5 [Wb1 [Esa [Er Hneg1]]]]]]]]].
  (* setRemoteDescription(answer) on the offerer: every answered section is linked to the offered one *)
  destruct (set_local_description_spec _ _ _ _ G2) as [_ [L2 [L3 _]]]. rewrite O1 in L2. cbn [Z.eqb] in L2.
  destruct (create_answer_spec _ _ H4) as [_ [At [Ab [o [Ho Hrel]]]]].
  destruct (set_remote_description_spec _ _ _ _ _ H3) as [_ [R3 _]]. rewrite R3 in Ho. injection Ho as <-.
  assert (Ga : good_all T (d_media answer) (p_trs a2)).
  { intros ma Hma Hav. destruct (Forall2_In_l _ _ _ _ _ _ Hrel Hma) as [mo [Hmo Hr]].
    destruct Hr as [[Havo [tb [dd [tr [F1 [F2 [F3 E]]]]]]]|[Havo [s [mid [tr [_ [_ [_ E]]]]]]]]; rewrite E in *; [|cbn in Hav; discriminate].
    cbn [media_for_transceiver m_kind m_mid m_codecs m_dir] in *.
    destruct (Hneg1 mo Hmo Havo) as [t' [Hin' [Hk' [Hm' [c0 [md [N1 [N2 _]]]]]]]].
    rewrite (find_mid_unique _ _ _ _ (ws_al _ _ _ Wb1) Hin' Hm') in F1. injection F1 as <-.
    destruct (NEG mo Hmo Havo) as [_ [pa [Hpa Hneg]]].
    destruct (Hneg (t_preferred t')) as [N [M [E1 [E2 [E3 [E4 [E5 E6]]]]]]]; [rewrite <- Hk'; exact (ws_prefs _ _ _ Wb1 t' Hin')|].
    rewrite E1 in N1. injection N1 as <-. rewrite E2 in N2. injection N2 as EN.
    unfold good. cbn [media_for_transceiver m_kind m_codecs m_dir]. rewrite Hk', <- EN.
    split; [split; [discriminate | exists N, N; auto]|].
    intros t Hin [_ [Hmid|Hmid]]; [destruct (G8 t Hin Hmid)|]. rewrite (Hpa t Hin Hmid). split; [discriminate | exists N, M; auto]. }
  destruct (set_remote_description_total _ true T a2 answer (secs_of (d_media offer)) (prefs_valid_nil T)
              (validate_answer_ok a2 answer offer false At L2 L3 Esa Er) G3) as [a3 H6]; rewrite <- ?Esa; auto.
  { apply at_pos_refl. }
  eexists. unfold exchange. rewrite G1. cbn [bind]. rewrite G2. cbn [bind].
  rewrite H3. cbn [bind]. rewrite H4. cbn [bind]. rewrite H5. cbn [bind]. rewrite H6. reflexivity.
Qed.
