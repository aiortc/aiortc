(* C01: the sender's numbering satisfies the hypothesis of the ordered-delivery theorem.
   For ANY list of messages on any streams, ordered or not, the ordered messages of one
   stream st -- as fragmented by _send -- have consecutive stream sequence numbers, B/E
   flags by position, and TSN offsets that increase along and across messages. *)
From Coq Require Import ZArith List Bool Lia ZifyBool Arith.
From AV Require Import Lib.Bytes Gen.Utils Gen.SctpConst Model.SctpRecv Model.SctpSend Proof.SerialP
  Proof.SctpSendP Proof.SctpDupP Proof.SctpOrderP.
Import ListNotations.
Local Open Scope Z_scope.

Ltac Zify.zify_post_hook ::= Z.to_euclidean_division_equations.

Definition selected (st : Z) (m : outmsg) : bool := o_ordered m && Z.eqb (o_sid m) st.

Fixpoint sel (st : Z) (s : sstate) (ms : list outmsg) : list (list chunk) :=
  match ms with
  | [] => []
  | m :: ms' => if selected st m then snd (send_msg s m) :: sel st (fst (send_msg s m)) ms'
                else sel st (fst (send_msg s m)) ms'
  end.

Fixpoint sel_offs (st base : Z) (s : sstate) (ms : list outmsg) : list Z :=
  match ms with
  | [] => [off base (local_tsn s)]
  | m :: ms' => if selected st m then off base (local_tsn s) :: sel_offs st base (fst (send_msg s m)) ms'
                else sel_offs st base (fst (send_msg s m)) ms'
  end.

Lemma seq_get_set_same l k v : seq_get (seq_set l k v) k = v.
Proof.
  induction l as [|[k' w] l IH]; cbn [seq_set seq_get]; [now rewrite Z.eqb_refl|].
  destruct (Z.eqb_spec k k') as [->|Hne]; cbn [seq_get]; [now rewrite Z.eqb_refl|].
  destruct (Z.eqb_spec k k'); [contradiction|exact IH].
Qed.
Lemma seq_get_set_other l k v k' : k' <> k -> seq_get (seq_set l k v) k' = seq_get l k'.
Proof.
  intros Hne. induction l as [|[a w] l IH]; cbn [seq_set seq_get].
  - destruct (Z.eqb_spec k' k); [contradiction|reflexivity].
  - destruct (Z.eqb_spec k a) as [->|Hk]; cbn [seq_get].
    + destruct (Z.eqb_spec k' a); [contradiction|reflexivity].
    + destruct (Z.eqb_spec k' a); [reflexivity|exact IH].
Qed.

Section Sender.
Variable base N : Z.
Hypothesis HN : 0 <= N < 2147483648.
Variable st : Z.

Lemma off_advance : forall n t, inw base N t -> off base t + Z.of_nat n <= N ->
  inw base N (tsn_advance n t) /\ off base (tsn_advance n t) = off base t + Z.of_nat n.
Proof.
  induction n as [|n IH]; intros t Ht Hw; cbn [tsn_advance]; [split; [exact Ht|lia]|].
  destruct (plus_one_off base N HN t Ht ltac:(lia)) as [H1 H2].
  destruct (IH (tsn_plus_one t) H1 ltac:(lia)) as [H3 H4]. split; [exact H3|lia].
Qed.

(* window: everything still to be sent fits below N *)
Definition fits (s : sstate) (ms : list outmsg) : Prop :=
  r32 (local_tsn s) /\ off base (local_tsn s) + Z.of_nat (total_frags ms) <= N.

Lemma fits_inw s ms : fits s ms -> inw base N (local_tsn s).
Proof. intros [Hr Hw]. split; [exact Hr|lia]. Qed.

Lemma fits_step s m ms : fits s (m :: ms) ->
  fits (fst (send_msg s m)) ms /\
  off base (local_tsn (fst (send_msg s m))) = off base (local_tsn s) + Z.of_nat (fragments_count (o_data m)).
Proof.
  intros F. pose proof (fits_inw _ _ F) as Hi. destruct F as [_ Hw]. cbn [total_frags fold_right] in Hw.
  change (fold_right _ 0%nat ms) with (total_frags ms) in Hw.
  destruct (off_advance (fragments_count (o_data m)) (local_tsn s) Hi ltac:(lia)) as [[H1 _] H2].
  split; [split; [exact H1|]|exact H2]. cbn [send_msg fst local_tsn]. lia.
Qed.

(* the offsets still to come begin at or beyond the sender's TSN *)
Lemma sel_offs_hd : forall ms s, fits s ms -> off base (local_tsn s) <= nth 0 (sel_offs st base s ms) 0.
Proof.
  induction ms as [|m ms IH]; intros s F; cbn [sel_offs]; [cbn [nth]; lia|].
  destruct (fits_step s m ms F) as [F1 E1]. specialize (IH _ F1). destruct (selected st m); [cbn [nth]|]; lia.
Qed.

(* the chunks of one ordered message of stream st, sent from TSN t with sequence number sq *)
Lemma frag_loop_ok o s0 j n data t sq pp : inw base N t -> off base t + Z.of_nat n <= N -> sq = ssn s0 j -> o j = off base t ->
  forall i c, nth_error (frag_loop n data t st sq false pp true) i = Some c ->
    chunk_ok base N o s0 j i (frag_loop n data t st sq false pp true) c.
Proof.
  intros Ht Hw Hsq Ho i c Hc. pose proof (frag_loop_length st sq pp false n data t true) as Lf.
  assert (Hi : (i < n)%nat) by (rewrite <- Lf; apply nth_error_Some; congruence).
  apply frag_loop_nth in Hc as (H1 & _ & H3 & H4 & H5 & H6 & _).
  destruct (off_advance i t Ht ltac:(lia)) as [A1 A2].
  constructor; [exact H4|now rewrite H3|exact H5|now rewrite H6, Lf|now rewrite H1|].
  unfold offc. now rewrite H1, A2, Ho.
Qed.

Lemma ssn_shift s0 j : ssn (uint16_add s0 1) j = ssn s0 (S j).
Proof. unfold ssn. rewrite uint16_add_mod. lia. Qed.

Theorem sender_wf : forall ms s, fits s ms -> Forall (fun m => o_data m <> []) ms ->
  0 <= seq_get (stream_seq s) st < 65536 ->
  forall j f, nth_error (sel st s ms) j = Some f ->
    f <> [] /\
    nth j (sel_offs st base s ms) 0 + Z.of_nat (length f) <= nth (S j) (sel_offs st base s ms) 0 /\
    forall i c, nth_error f i = Some c ->
      chunk_ok base N (fun j => nth j (sel_offs st base s ms) 0) (seq_get (stream_seq s) st) j i f c.
Proof.
  induction ms as [|m ms IH]; intros s F Hd Hs j f Hj; [destruct j; discriminate|].
  pose proof (Forall_inv Hd) as Hm. pose proof (Forall_inv_tail Hd) as Hd'. cbv beta in Hm.
  destruct (fits_step s m ms F) as [F1 E1].
  cbn [sel sel_offs] in *. destruct (selected st m) eqn:Es.
  - unfold selected in Es. apply andb_true_iff in Es as [Eo Ei]. apply Z.eqb_eq in Ei.
    assert (Hs1 : seq_get (stream_seq (fst (send_msg s m))) st = uint16_add (seq_get (stream_seq s) st) 1).
    { unfold send_msg. cbn [fst stream_seq]. rewrite Eo, Ei. apply seq_get_set_same. }
    destruct j as [|j]; cbn [nth_error] in Hj.
    + (* the message itself *)
      assert (Ef : snd (send_msg s m) = frag_loop (fragments_count (o_data m)) (o_data m) (local_tsn s) st
                                                  (seq_get (stream_seq s) st) false (o_ppid m) true)
        by (unfold send_msg; cbn [snd]; now rewrite Eo, Ei).
      rewrite Ef in Hj. injection Hj as <-. rewrite frag_loop_length. destruct (fragments_count_bounds (o_data m) Hm) as [Hn1 _].
      pose proof (proj2 F) as Fw. cbn [total_frags fold_right] in Fw.
      split; [intros E; apply (f_equal (@length chunk)) in E; rewrite frag_loop_length in E; cbn in E; lia|]. split.
      * pose proof (sel_offs_hd ms _ F1). cbn [nth]. lia.
      * apply frag_loop_ok; [exact (fits_inw _ _ F)|lia|unfold ssn; lia|reflexivity].
    + (* a later message: one sequence number and one offset further on *)
      assert (Hs1r : 0 <= seq_get (stream_seq (fst (send_msg s m))) st < 65536).
      { rewrite Hs1. apply uint16_add_range. }
      destruct (IH _ F1 Hd' Hs1r j f Hj) as (I1 & I2 & I3).
      split; [exact I1|]. split; [exact I2|].
      intros i c Hc. destruct (I3 i c Hc) as [K1 K2 K3 K4 K5 K6]. constructor; auto.
      now rewrite K2, Hs1, ssn_shift.
  - assert (Hs1 : seq_get (stream_seq (fst (send_msg s m))) st = seq_get (stream_seq s) st).
    { unfold send_msg. cbn [fst stream_seq]. unfold selected in Es. destruct (o_ordered m); [|reflexivity].
      cbn [andb] in Es. apply seq_get_set_other. intros E. rewrite E, Z.eqb_refl in Es. discriminate. }
    rewrite <- Hs1. apply IH; auto. now rewrite Hs1.
Qed.
(* from a fresh association *)
Corollary sender_wf_start t0 ms : r32 t0 -> off base t0 + Z.of_nat (total_frags ms) <= N -> Forall (fun m => o_data m <> []) ms ->
  forall j f, nth_error (sel st (mkS t0 []) ms) j = Some f ->
    f <> [] /\
    nth j (sel_offs st base (mkS t0 []) ms) 0 + Z.of_nat (length f) <= nth (S j) (sel_offs st base (mkS t0 []) ms) 0 /\
    forall i c, nth_error f i = Some c -> chunk_ok base N (fun j => nth j (sel_offs st base (mkS t0 []) ms) 0) 0 j i f c.
Proof. intros Ht Hf Hd. apply (sender_wf ms (mkS t0 []) (conj Ht Hf) Hd). cbn. lia. Qed.
End Sender.
