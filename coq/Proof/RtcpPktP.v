(* Proofs about Model/Rtcp.v, part 2: every RTCP packet class and compound packets
   round-trip through __bytes__ / RtcpPacket.parse. *)
From Coq Require Import ZArith List Bool Lia.
From AV Require Import Lib.Bytes Lib.BytesP Lib.RtpX Gen.RtpConst Model.Rtcp Proof.RtpBitsP Proof.RtcpP.
Import ListNotations.
Local Open Scope Z_scope.

Ltac Zify.zify_post_hook ::= Z.to_euclidean_division_equations.

(* ================================================================ well-formed values *)
Definition is_u32 (x : Z) : Prop := 0 <= x < 4294967296.

Definition wf_rinfo (r : rinfo) : Prop :=
  is_u32 (ri_ssrc r) /\ 0 <= ri_fraction_lost r < 256 /\
  -8388608 <= ri_packets_lost r < 8388608 /\
  is_u32 (ri_highest_sequence r) /\ is_u32 (ri_jitter r) /\ is_u32 (ri_lsr r) /\ is_u32 (ri_dlsr r).

Definition wf_sinfo (s : sinfo) : Prop :=
  0 <= si_ntp s < 18446744073709551616 /\ is_u32 (si_rtp s) /\ is_u32 (si_packets s) /\
  is_u32 (si_octets s).

Definition wf_item (i : sdes_item) : Prop :=
  1 <= fst i < 256 /\ bytes_ok (snd i) /\ (length (snd i) <= 255)%nat.

Definition wf_chunk (c : sdes_chunk) : Prop := is_u32 (fst c) /\ Forall wf_item (snd c).

Fixpoint items_size (items : list sdes_item) : nat :=
  match items with [] => O | i :: l => (2 + length (snd i) + items_size l)%nat end.
Fixpoint chunks_size (chunks : list sdes_chunk) : nat :=
  match chunks with [] => O | c :: l => (4 + items_size (snd c) + 2 + chunks_size l)%nat end.

Definition wf_rtcp (p : rtcp) : Prop :=
  match p with
  | Sr ssrc info reports =>
      is_u32 ssrc /\ wf_sinfo info /\ Forall wf_rinfo reports /\ (length reports <= 31)%nat
  | Rr ssrc reports => is_u32 ssrc /\ Forall wf_rinfo reports /\ (length reports <= 31)%nat
  | Sdes chunks =>
      Forall wf_chunk chunks /\ (length chunks <= 31)%nat /\ Z.of_nat (chunks_size chunks) <= 262140
  | Bye sources => Forall is_u32 sources /\ (length sources <= 31)%nat
  | Rtpfb fmt ssrc media lost =>
      0 <= fmt <= 31 /\ is_u32 ssrc /\ is_u32 media /\ nack_canonical lost /\
      zlen lost <= 65532
  | Psfb fmt ssrc media fci =>
      0 <= fmt <= 31 /\ is_u32 ssrc /\ is_u32 media /\ bytes_ok fci /\
      (length fci mod 4 = 0)%nat /\ len fci <= 262132
  end.

(* ================================================================ fixed-layout records *)
Lemma rinfo_roundtrip r :
  wf_rinfo r -> exists b, rinfo_bytes r = Ok b /\ length b = 24%nat /\ bytes_ok b /\ rinfo_parse b = Ok r.
Proof.
  destruct r as [ssrc fl pl hs jit lsr dlsr].
  unfold wf_rinfo, is_u32. cbn [ri_ssrc ri_fraction_lost ri_packets_lost ri_highest_sequence ri_jitter ri_lsr ri_dlsr].
  intros (H1 & H2 & H3 & H4 & H5 & H6 & H7).
  unfold rinfo_bytes. cbn [ri_ssrc ri_fraction_lost ri_packets_lost ri_highest_sequence ri_jitter ri_lsr ri_dlsr].
  rewrite !u32ok_intro, u8ok_intro by assumption. cbn [andb].
  destruct (packets_lost_roundtrip pl H3) as [Hp Hu]. rewrite Hp. cbn [bind].
  eexists. split; [reflexivity|]. split; [reflexivity|]. split.
  { repeat (apply bytes_ok_app; split); auto using be32_ok, be8_ok, be24_ok. }
  (* every field is read at the end of the literal prefix that precedes it *)
  set (data := be32 ssrc ++ _). unfold rinfo_parse.
  change (length data) with 24%nat. change (slice data 5 8) with (be24 pl).
  rewrite (u32_at [] ssrc _ H1 : u32 data 0 = _), (u8_at (be32 ssrc) fl _ H2 : u8 data 4 = _).
  rewrite (u32_at (be32 ssrc ++ be8 fl ++ be24 pl) hs _ H4 : u32 data 8 = _).
  rewrite (u32_at (be32 ssrc ++ be8 fl ++ be24 pl ++ be32 hs) jit _ H5 : u32 data 12 = _).
  rewrite (u32_at (be32 ssrc ++ be8 fl ++ be24 pl ++ be32 hs ++ be32 jit) lsr _ H6 : u32 data 16 = _).
  rewrite (u32_at (be32 ssrc ++ be8 fl ++ be24 pl ++ be32 hs ++ be32 jit ++ be32 lsr) dlsr [] H7 : u32 data 20 = _).
  cbn [Nat.eqb negb]. now rewrite Hu.
Qed.

Lemma sinfo_roundtrip s :
  wf_sinfo s -> exists b, sinfo_bytes s = Ok b /\ length b = 20%nat /\ bytes_ok b /\ sinfo_parse b = Ok s.
Proof.
  destruct s as [ntp rt pc oc]. unfold wf_sinfo, is_u32. cbn [si_ntp si_rtp si_packets si_octets].
  intros (H1 & H2 & H3 & H4).
  unfold sinfo_bytes. cbn [si_ntp si_rtp si_packets si_octets].
  rewrite u64ok_intro, !u32ok_intro by assumption. cbn [andb].
  eexists. split; [reflexivity|]. split; [reflexivity|]. split.
  { repeat (apply bytes_ok_app; split); auto using be32_ok, be64_ok. }
  unfold sinfo_parse.
  change (length _) with 20%nat. cbn [Nat.eqb negb].
  rewrite u64_be64 by assumption.
  rewrite (u32_at (be64 ntp) rt) by assumption.
  (* the fields are literal byte lists, so regrouping them is a conversion *)
  change (be64 ntp ++ be32 rt ++ be32 pc ++ be32 oc) with ((be64 ntp ++ be32 rt) ++ be32 pc ++ be32 oc).
  rewrite (u32_at (be64 ntp ++ be32 rt) pc) by assumption.
  change ((be64 ntp ++ be32 rt) ++ be32 pc ++ be32 oc) with ((be64 ntp ++ be32 rt ++ be32 pc) ++ be32 oc ++ []).
  now rewrite (u32_at (be64 ntp ++ be32 rt ++ be32 pc) oc) by assumption.
Qed.

Lemma rinfos_roundtrip l :
  Forall wf_rinfo l ->
  exists b, rinfos_bytes l = Ok b /\ length b = (24 * length l)%nat /\ bytes_ok b /\
            forall tail, rinfos_parse (length l) (b ++ tail) = Ok l.
Proof.
  induction 1 as [|r l Hr _ (b & Hb & Hlen & Hok & Hparse)]; cbn [rinfos_bytes length].
  - exists []. repeat split; auto using bytes_ok_nil.
  - destruct (rinfo_roundtrip r Hr) as (a & Ha & Hla & Hoka & Hpa).
    rewrite Ha, Hb. cbn [bind]. exists (a ++ b). split; [reflexivity|].
    split; [rewrite app_length; lia|]. split; [apply bytes_ok_app; auto|].
    intros tail. cbn [rinfos_parse]. rewrite <- app_assoc.
    rewrite (firstn_app_exact' a) by lia. rewrite (skipn_app_exact' a) by lia.
    rewrite Hpa, Hparse. reflexivity.
Qed.

(* ================================================================ the common header *)
Lemma pack_rtcp_ok pt count payload :
  0 <= count <= 31 -> 0 <= pt < 256 -> len payload mod 4 = 0 -> len payload / 4 < 65536 ->
  pack_rtcp_packet pt count payload =
    Ok ([128 + count; pt] ++ be16 (len payload / 4) ++ payload).
Proof.
  intros Hc Hp Hm Hw. unfold pack_rtcp_packet. rewrite Hm. cbn [Z.eqb negb].
  change (Z.shiftl 2 6) with 128.
  rewrite (lor_add 128 count 5) by (change (2 ^ 5) with 32; lia).
  assert (Hl := len_nonneg payload).
  rewrite !u8ok_intro, u16ok_intro by lia. cbn [andb]. unfold be8.
  replace ((128 + count) mod 256) with (128 + count) by lia.
  replace (pt mod 256) with pt by lia. reflexivity.
Qed.

(* one iteration of RtcpPacket.parse on a packet produced by pack_rtcp_packet *)
Lemma parse_loop_step f pt count payload tail :
  0 <= count <= 31 -> 0 <= pt < 256 -> len payload mod 4 = 0 -> len payload / 4 < 65536 ->
  rtcp_parse_loop (S f) (([128 + count; pt] ++ be16 (len payload / 4) ++ payload) ++ tail) =
    (do pkt <- rtcp_parse_one pt payload count;
     do more <- rtcp_parse_loop f tail;
     Ok (match pkt with Some p => p :: more | None => more end)).
Proof.
  intros Hc Hp Hm Hw. assert (Hl := len_nonneg payload).
  unfold be16. cbn [app rtcp_parse_loop].
  replace (Nat.ltb (length _) 4) with false by (symmetry; apply Nat.ltb_ge; cbn [length]; lia).
  cbn [u8 u16 nth_error].
  rewrite Z.shiftr_div_pow2 by lia. change (2 ^ 6) with 64.
  replace ((128 + count) / 64 =? 2) with true by (symmetry; apply Z.eqb_eq; lia). cbn [negb].
  rewrite Z.shiftr_div_pow2 by lia. rewrite land_1, land_31. change (2 ^ 5) with 32.
  replace (((128 + count) / 32) mod 2) with 0 by lia.
  replace ((128 + count) mod 32) with count by lia.
  cbn [skipn].
  replace (((len payload / 4 / 256) mod 256 * 256 + (len payload / 4) mod 256) * 4) with (len payload) by lia.
  unfold len at 1 2 3. rewrite Nat2Z.id.
  rewrite app_length.
  replace (Nat.ltb (length payload + length tail) (length payload)) with false
    by (symmetry; apply Nat.ltb_ge; lia).
  rewrite firstn_app_exact, skipn_app_exact.
  unfold strip_padding. cbn [Z.eqb bind]. reflexivity.
Qed.

(* a payload that its class parser accepts, put under the common header: the bytes,
   and what one iteration of RtcpPacket.parse makes of them *)
Definition parses_as (p : rtcp) (b : bytes) : Prop :=
  bytes_ok b /\ (4 <= length b)%nat /\
  forall f tail, rtcp_parse_loop (S f) (b ++ tail) = (do more <- rtcp_parse_loop f tail; Ok (p :: more)).

Lemma rtcp_packet_step pt count payload p :
  0 <= count <= 31 -> 0 <= pt < 256 -> len payload mod 4 = 0 -> len payload / 4 < 65536 ->
  bytes_ok payload -> rtcp_parse_one pt payload count = Ok (Some p) ->
  exists b, pack_rtcp_packet pt count payload = Ok b /\ parses_as p b.
Proof.
  intros Hc Hp Hm Hw Hok Hone. rewrite pack_rtcp_ok by assumption. eexists. split; [reflexivity|].
  split; [|split].
  - repeat (apply bytes_ok_app; split); auto using be16_ok.
    repeat (apply Forall_cons; [unfold byte_ok; lia|]). constructor.
  - rewrite !app_length, length_be16. cbn [length]. lia.
  - intros f tail. rewrite parse_loop_step by assumption. now rewrite Hone.
Qed.

(* ================================================================ per-class payload parsers *)
Lemma bye_parse_bytes sources b :
  be32s sources = Ok b -> bye_parse b (zlen sources) = Ok (Bye sources).
Proof.
  intros H. unfold bye_parse. rewrite len_length, (be32s_length _ _ H), zlen_length.
  rewrite (proj2 (Z.ltb_ge _ _)), Nat2Z.id by lia.
  now rewrite (u32s_at' b [] sources b [] 0 _ (eq_sym (app_nil_r b)) H eq_refl eq_refl).
Qed.

Lemma psfb_parse_bytes fmt ssrc media fci :
  is_u32 ssrc -> is_u32 media ->
  psfb_parse (be32 ssrc ++ be32 media ++ fci) fmt = Ok (Psfb fmt ssrc media fci).
Proof.
  intros H1 H2. unfold psfb_parse.
  rewrite u32_be32, (u32_at (be32 ssrc) media) by assumption.
  now rewrite (from_at' _ (be32 ssrc ++ be32 media) fci 8) by (now rewrite <- ?app_assoc).
Qed.

Lemma rr_parse_bytes ssrc reports b :
  is_u32 ssrc -> length b = (24 * length reports)%nat ->
  (forall tail, rinfos_parse (length reports) (b ++ tail) = Ok reports) ->
  rr_parse (be32 ssrc ++ b) (zlen reports) = Ok (Rr ssrc reports).
Proof.
  intros H1 Hlen Hparse.
  unfold rr_parse. rewrite len_length, app_length, length_be32, Hlen, zlen_length.
  rewrite (proj2 (Z.eqb_eq _ _)) by lia. cbn [negb]. rewrite u32_be32, Nat2Z.id by assumption.
  rewrite (skipn_app_exact' (be32 ssrc)) by reflexivity.
  now rewrite <- (app_nil_r b), Hparse.
Qed.

Lemma sr_parse_bytes ssrc info reports a b :
  is_u32 ssrc -> length a = 20%nat -> sinfo_parse a = Ok info ->
  length b = (24 * length reports)%nat ->
  (forall tail, rinfos_parse (length reports) (b ++ tail) = Ok reports) ->
  sr_parse (be32 ssrc ++ a ++ b) (zlen reports) = Ok (Sr ssrc info reports).
Proof.
  intros H1 Hla Hpa Hlen Hparse.
  unfold sr_parse. rewrite len_length, !app_length, length_be32, Hlen, Hla, zlen_length.
  rewrite (proj2 (Z.eqb_eq _ _)) by lia. cbn [negb]. rewrite u32_be32, Nat2Z.id by assumption.
  rewrite (slice_at' _ (be32 ssrc) a b) by (rewrite ?length_be32, ?Hla; reflexivity).
  rewrite Hpa. cbn [bind].
  rewrite app_assoc, (skipn_app_exact' (be32 ssrc ++ a)) by (rewrite app_length, length_be32, Hla; reflexivity).
  now rewrite <- (app_nil_r b), Hparse.
Qed.

Lemma rtpfb_parse_bytes fmt ssrc media a lost :
  is_u32 ssrc -> is_u32 media -> (length a mod 4 = 0)%nat -> nack_parse a = Ok lost ->
  rtpfb_parse (be32 ssrc ++ be32 media ++ a) fmt = Ok (Rtpfb fmt ssrc media lost).
Proof.
  intros H1 H2 Hm Hp. unfold rtpfb_parse.
  rewrite len_length, !app_length, !length_be32.
  apply Nat.mod_divides in Hm as [k Hk]; [|lia].
  rewrite (proj2 (Z.eqb_eq _ _)) by lia. cbn [Nat.ltb Nat.leb orb negb].
  rewrite u32_be32, (u32_at (be32 ssrc) media) by assumption.
  rewrite app_assoc, (skipn_app_exact' (be32 ssrc ++ be32 media)) by reflexivity.
  now rewrite Hp.
Qed.

(* ---- SDES *)
Lemma sdes_items_roundtrip items :
  Forall wf_item items ->
  exists a, sdes_items_bytes items = Ok a /\ length a = items_size items /\ bytes_ok a /\
    forall fuel post, (length items < fuel)%nat ->
      sdes_items_parse fuel (a ++ 0 :: 0 :: post) = Ok (items, post).
Proof.
  induction 1 as [|[t v] items (Ht & Hv & Hl) _ (r & Hr & IHl & IHok & IHp)]; cbn [sdes_items_bytes].
  - exists []. repeat split; [apply bytes_ok_nil|].
    intros [|f] post Hf; [cbn in Hf; lia|]. cbn [app sdes_items_parse].
    now rewrite (proj2 (Z.ltb_ge _ _)) by apply len_nonneg.
  - cbn [fst snd] in *. rewrite !u8ok_intro, Hr by (unfold len; lia). cbn [andb bind].
    eexists. split; [reflexivity|]. split; [|split].
    + cbn [items_size snd]. rewrite !app_length, IHl, !length_be8. lia.
    + repeat (apply bytes_ok_app; split); auto using be8_ok.
    + intros [|f] post Hf; [cbn in Hf; lia|].
      unfold be8. rewrite !Z.mod_small, <- !app_assoc by (unfold len; lia).
      cbn [app sdes_items_parse].
      assert (H0 := len_nonneg (r ++ 0 :: 0 :: post)).
      rewrite len_app, (proj2 (Z.ltb_ge _ _)), (proj2 (Z.eqb_neq _ _)) by lia.
      unfold len. rewrite Nat2Z.id, firstn_app_exact, skipn_app_exact.
      now rewrite IHp by (cbn [length] in Hf; lia).
Qed.

Lemma items_length_size items : (length items <= items_size items)%nat.
Proof. induction items as [|i l IHl]; cbn [length items_size]; lia. Qed.

Lemma sdes_chunks_roundtrip chunks :
  Forall wf_chunk chunks ->
  exists b, sdes_chunks_bytes chunks = Ok b /\ length b = chunks_size chunks /\ bytes_ok b /\
    forall tail, sdes_chunks_parse (length chunks) (b ++ tail) = Ok chunks.
Proof.
  induction 1 as [|[ssrc items] chunks (Hs & Hi) _ (r & Hr & IHl & IHok & IHp)]; cbn [sdes_chunks_bytes].
  - exists []. repeat split. apply bytes_ok_nil.
  - cbn [fst snd] in *. destruct (sdes_items_roundtrip items Hi) as (a & Ha & Hla & Hoka & Hpa).
    rewrite u32ok_intro, Ha, Hr by exact Hs. cbn [bind].
    eexists. split; [reflexivity|]. split; [|split].
    + cbn [chunks_size snd]. rewrite !app_length, Hla, IHl, length_be32. cbn [length]. lia.
    + repeat (apply bytes_ok_app; split); auto using be32_ok, bytes_ok_zeros.
      apply (bytes_ok_zeros 2).
    + intros tail. cbn [length sdes_chunks_parse].
      rewrite (proj2 (Nat.ltb_ge _ _)) by (rewrite !app_length, length_be32; lia).
      rewrite <- !app_assoc, u32_be32, (skipn_app_exact' (be32 ssrc)) by (reflexivity || exact Hs).
      cbn [app]. rewrite Hpa by (rewrite !app_length, Hla; assert (Hsz := items_length_size items); lia).
      cbn [bind]. now rewrite IHp.
Qed.

Lemma pad4_spec a :
  exists z, pad4 a = a ++ zeros z /\ len (pad4 a) mod 4 = 0 /\ (z <= 3)%nat.
Proof.
  unfold pad4. exists (Z.to_nat ((- len a) mod 4)). split; [reflexivity|].
  assert (Hl := len_nonneg a). split; [|lia].
  rewrite len_app. unfold len at 2. rewrite length_zeros, Z2Nat.id by lia. lia.
Qed.

(* ---- RTPFB: every list of 16-bit numbers serialises; it parses back as nack_parsed *)
Lemma rtpfb_roundtrip fmt ssrc media lost :
  0 <= fmt <= 31 -> is_u32 ssrc -> is_u32 media -> Forall (fun p => 0 <= p < 65536) lost ->
  zlen lost <= 65532 ->
  exists b, rtcp_bytes (Rtpfb fmt ssrc media lost) = Ok b /\
            parses_as (Rtpfb fmt ssrc media (nack_parsed lost)) b.
Proof.
  intros Hf Hs Hm Hl Hn. unfold zlen in Hn. cbn [rtcp_bytes].
  destruct (nack_fci lost Hl) as (a & Ha & Hp & Hmod & Hle & Hok).
  rewrite !u32ok_intro, Ha by assumption. cbn [andb bind].
  assert (Hlen : len (be32 ssrc ++ be32 media ++ a) = 8 + Z.of_nat (length a)).
  { rewrite len_length, !app_length, !length_be32. lia. }
  assert (Hmod' := Hmod). apply Nat.mod_divides in Hmod' as [k Hk]; [|lia].
  apply rtcp_packet_step; rewrite ?Hlen; unfold rtp_RTCP_RTPFB; try lia.
  - repeat (apply bytes_ok_app; split); auto using be32_ok.
  - unfold rtcp_parse_one, rtp_RTCP_BYE, rtp_RTCP_SDES, rtp_RTCP_SR, rtp_RTCP_RR, rtp_RTCP_RTPFB. cbn [Z.eqb Pos.eqb].
    now rewrite (rtpfb_parse_bytes fmt ssrc media a (nack_parsed lost)).
Qed.

(* ================================================================ one packet *)
Lemma rtcp_packet_roundtrip p : wf_rtcp p -> exists b, rtcp_bytes p = Ok b /\ parses_as p b.
Proof.
  destruct p as [ssrc info reports|ssrc reports|chunks|sources|fmt ssrc media lost|fmt ssrc media fci];
    cbn [wf_rtcp rtcp_bytes].
  - (* SR *)
    intros (Hs & Hi & Hr & Hn).
    destruct (sinfo_roundtrip info Hi) as (a & Ha & Hla & Hoka & Hpa).
    destruct (rinfos_roundtrip reports Hr) as (b & Hb & Hlb & Hokb & Hpb).
    rewrite u32ok_intro, Ha, Hb by exact Hs. cbn [bind].
    assert (Hlen : len (be32 ssrc ++ a ++ b) = 24 + 24 * Z.of_nat (length reports)).
    { rewrite len_length, !app_length, length_be32, Hla, Hlb. lia. }
    apply rtcp_packet_step; rewrite ?Hlen, ?zlen_length; unfold rtp_RTCP_SR; try lia.
    + repeat (apply bytes_ok_app; split); auto using be32_ok.
    + unfold rtcp_parse_one, rtp_RTCP_BYE, rtp_RTCP_SDES, rtp_RTCP_SR. cbn [Z.eqb Pos.eqb].
      now rewrite <- zlen_length, (sr_parse_bytes ssrc info reports a b).
  - (* RR *)
    intros (Hs & Hr & Hn).
    destruct (rinfos_roundtrip reports Hr) as (b & Hb & Hlb & Hokb & Hpb).
    rewrite u32ok_intro, Hb by exact Hs. cbn [bind].
    assert (Hlen : len (be32 ssrc ++ b) = 4 + 24 * Z.of_nat (length reports)).
    { rewrite len_length, !app_length, length_be32, Hlb. lia. }
    apply rtcp_packet_step; rewrite ?Hlen, ?zlen_length; unfold rtp_RTCP_RR; try lia.
    + repeat (apply bytes_ok_app; split); auto using be32_ok.
    + unfold rtcp_parse_one, rtp_RTCP_BYE, rtp_RTCP_SDES, rtp_RTCP_SR, rtp_RTCP_RR. cbn [Z.eqb Pos.eqb].
      now rewrite <- zlen_length, (rr_parse_bytes ssrc reports b).
  - (* SDES *)
    intros (Hc & Hn & Hsz).
    destruct (sdes_chunks_roundtrip chunks Hc) as (a & Ha & Hla & Hoka & Hpa).
    rewrite Ha. cbn [bind].
    destruct (pad4_spec a) as (z & Hz & Hm & Hz3).
    assert (Hlen : len (pad4 a) = Z.of_nat (chunks_size chunks) + Z.of_nat z).
    { rewrite Hz, len_app. unfold len. now rewrite length_zeros, Hla. }
    apply rtcp_packet_step; rewrite ?Hlen, ?zlen_length; unfold rtp_RTCP_SDES; try lia.
    + rewrite Hz. apply bytes_ok_app. split; [exact Hoka|apply bytes_ok_zeros].
    + unfold rtcp_parse_one, rtp_RTCP_BYE, rtp_RTCP_SDES, sdes_parse. cbn [Z.eqb Pos.eqb].
      now rewrite Nat2Z.id, Hz, Hpa.
  - (* BYE *)
    intros (Hs & Hn).
    destruct (be32s_ok sources Hs) as [a Ha]. rewrite Ha. cbn [bind].
    assert (Hlen : len a = 4 * Z.of_nat (length sources)).
    { rewrite len_length, (be32s_length _ _ Ha). lia. }
    apply rtcp_packet_step; rewrite ?Hlen, ?zlen_length; unfold rtp_RTCP_BYE; try lia.
    + apply (be32s_bytes_ok _ _ Ha).
    + unfold rtcp_parse_one, rtp_RTCP_BYE. cbn [Z.eqb Pos.eqb].
      now rewrite <- zlen_length, (bye_parse_bytes sources a).
  - (* RTPFB *)
    intros (Hf & Hs & Hm & Hc & Hn).
    destruct (rtpfb_roundtrip fmt ssrc media lost) as (b & Hb & Hpar); auto.
    { destruct lost as [|pid rest]; [constructor|].
      destruct Hc as [Hpid Hch]. constructor; [exact Hpid|eapply nack_exact_range; eauto]. }
    rewrite (nack_parsed_canonical lost Hc) in Hpar. eauto.
  - (* PSFB *)
    intros (Hf & Hs & Hm & Hok & Hmod & Hn). unfold len in Hn.
    rewrite !u32ok_intro by assumption. cbn [andb].
    assert (Hlen : len (be32 ssrc ++ be32 media ++ fci) = 8 + Z.of_nat (length fci)).
    { rewrite len_length, !app_length, !length_be32. lia. }
    apply Nat.mod_divides in Hmod as [k Hk]; [|lia].
    apply rtcp_packet_step; rewrite ?Hlen; unfold rtp_RTCP_PSFB; try lia.
    + repeat (apply bytes_ok_app; split); auto using be32_ok.
    + unfold rtcp_parse_one, rtp_RTCP_BYE, rtp_RTCP_SDES, rtp_RTCP_SR, rtp_RTCP_RR, rtp_RTCP_RTPFB, rtp_RTCP_PSFB.
      cbn [Z.eqb Pos.eqb]. now rewrite psfb_parse_bytes.
Qed.

(* ================================================================ compound packets *)
Lemma rtcp_compound_roundtrip ps :
  Forall wf_rtcp ps ->
  exists b, rtcp_bytes_all ps = Ok b /\ bytes_ok b /\
            forall fuel, (length b < fuel)%nat -> rtcp_parse_loop fuel b = Ok ps.
Proof.
  induction 1 as [|p ps Hp _ (b & Hb & Hok & Hparse)]; cbn [rtcp_bytes_all].
  - exists []. split; [reflexivity|]. split; [apply bytes_ok_nil|].
    intros [|f] Hf; [cbn in Hf; lia|reflexivity].
  - destruct (rtcp_packet_roundtrip p Hp) as (a & Ha & Hoka & Hla & Hstep).
    rewrite Ha, Hb. cbn [bind]. eexists. split; [reflexivity|].
    split; [apply bytes_ok_app; auto|].
    intros [|f] Hf; [cbn in Hf; lia|]. rewrite app_length in Hf.
    now rewrite Hstep, Hparse by lia.
Qed.

Theorem rtcp_roundtrip ps :
  Forall wf_rtcp ps ->
  exists b, rtcp_bytes_all ps = Ok b /\ bytes_ok b /\ rtcp_parse b = Ok ps.
Proof.
  intros H. destruct (rtcp_compound_roundtrip ps H) as (b & Hb & Hok & Hp).
  exists b. split; [exact Hb|]. split; [exact Hok|]. unfold rtcp_parse. apply Hp. lia.
Qed.
