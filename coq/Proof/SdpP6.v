(* Parse-then-print is idempotent on every line list; descriptions of the generated shape
   (wf_generated_b) are fixed points; the object <-> message mapping of contrib/signaling.py. *)
From Coq Require Import ZArith List Bool Lia.
From AV Require Import Lib.Sx Model.Sdp Proof.SdpP1 Proof.SdpP2 Proof.SdpP3 Proof.SdpP4.
Import ListNotations.
Local Open Scope Z_scope.

Lemma idempotent : forall t d ls, absorb t = Ok d -> render d = Ok ls ->
  exists d', absorb ls = Ok d' /\ render d' = Ok ls.
Proof.
  intros t d ls Ha Hr. pose proof (absorb_wfp t d Ha) as Hw.
  destruct (render_any_lite d ls Hr) as (lite & Hl).
  exists (norm_desc lite d). split; [now apply absorb_render|now apply render_norm].
Qed.

(* the boolean checks of wf_generated_b give what the round-trip lemmas ask for *)
Lemma nodup_z_NoDup : forall l, nodup_z l = true -> NoDup l.
Proof.
  induction l as [|x l IH]; intros H; cbn [nodup_z] in H; constructor.
  - apply andb_true_iff in H as [H _]. apply negb_true_iff in H. now apply mem_z_false.
  - apply andb_true_iff in H as [_ H]. now apply IH.
Qed.

Lemma mem_s_false : forall x l, mem_s x l = false -> ~ In x l.
Proof.
  induction l as [|y l IH]; intros H; cbn [mem_s In] in *; [tauto|].
  apply orb_false_iff in H as [H1 H2]. apply str_eqb_neq in H1. intros [E|E]; [congruence|now apply IH].
Qed.

Lemma nodup_s_NoDup : forall l, nodup_s l = true -> NoDup l.
Proof.
  induction l as [|x l IH]; intros H; cbn [nodup_s] in H; constructor.
  - apply andb_true_iff in H as [H _]. apply negb_true_iff in H. now apply mem_s_false.
  - apply andb_true_iff in H as [_ H]. now apply IH.
Qed.

Lemma wf_codec_gen_ok : forall kind c, wf_codec_gen kind c = true ->
  wfp_codec kind c /\ full kind c = c /\ exists l, codec_lines c = Ok l.
Proof.
  intros kind c H. unfold wf_codec_gen in H.
  apply andb_prop in H as [[[[H Hch]%andb_prop Hfb]%andb_prop Hnd]%andb_prop Hne].
  destruct (name_of (k_mime c)) as [n|] eqn:En; [|discriminate]. apply str_eqb_eq in H.
  apply nodup_s_NoDup in Hnd.
  split; [|split].
  - split; [eauto|]. split; [|exact Hnd]. intro Ea. rewrite Ea in Hch. destruct (k_channels c); [discriminate|reflexivity].
  - unfold full, blank, default_name. rewrite En. destruct c as [mime clock ch pt fb ps].
    cbn [k_mime k_clock k_channels k_pt k_fb k_params] in *. f_equal.
    + now symmetry.
    + destruct (str_eqb kind s_audio).
      * destruct ch as [[|[[|[]|]|[|[]|]|]|]|]; try discriminate; reflexivity.
      * destruct ch; [discriminate|reflexivity].
    + clear - Hfb. induction fb as [|[ty p] fb IH]; [reflexivity|]. cbn [forallb map] in *.
      apply andb_true_iff in Hfb as [H1 H2]. rewrite (IH H2). f_equal. unfold norm_fb. cbn [fst snd] in *.
      destruct p as [[|x p]|]; try reflexivity. discriminate.
    + destruct ps as [|x ps]; [reflexivity|]. apply negb_true_iff in Hne. now rewrite Hne.
  - unfold codec_lines. rewrite En. eauto.
Qed.

Lemma wf_media_gen_ok : forall m, wf_media_gen m = true ->
  wfp_media m /\ norm_media (lite_of m) m = m /\ is_some (m_ice m) = true /\ exists l, render_media m = Ok l.
Proof.
  intros m H. unfold wf_media_gen in H.
  apply andb_prop in H as [[[[[[[[[[[[Hfm0 Hfm]%andb_prop Hhost]%andb_prop Hmsid]%andb_prop Hmid]%andb_prop Hrh]%andb_prop
    Hsn]%andb_prop Hse]%andb_prop Hpn]%andb_prop Hcg]%andb_prop Hsm]%andb_prop Hice]%andb_prop Hdt].
  assert (Hcodecs : forall c, In c (m_codecs m) ->
            wfp_codec (m_kind m) c /\ full (m_kind m) c = c /\ exists l, codec_lines c = Ok l).
  { intros c Hc. apply wf_codec_gen_ok. rewrite forallb_forall in Hcg. now apply Hcg. }
  split; [|split; [|split; [exact Hice|]]].
  - split; [intro E; now rewrite E in Hfm0|]. split.
    { intros Hav. rewrite Hav in Hfm. now apply andb_true_iff in Hfm. }
    split; [now apply nodup_z_NoDup|]. split; [now apply nodup_z_NoDup|]. split; [|now apply nodup_z_NoDup].
    apply Forall_forall. intros c Hc. now apply Hcodecs.
  - unfold norm_media, lite_of.
    assert (E1 : (if truthy (m_msid m) then m_msid m else None) = m_msid m).
    { now destruct (m_msid m) as [[|x s]|]. }
    assert (E2 : (if truthy (m_mid m) then m_mid m else Some []) = m_mid m).
    { now destruct (m_mid m) as [[|x s]|]. }
    assert (E3 : match m_rtcp_port m with Some _ => m_rtcp_host m | None => None end = m_rtcp_host m).
    { destruct (m_rtcp_host m) as [a|]; [|now destruct (m_rtcp_port m)].
      apply andb_true_iff in Hrh as [_ Hrh]. now destruct (m_rtcp_port m). }
    assert (E4 : filter ssrc_nonempty (m_ssrc m) = m_ssrc m).
    { clear - Hse. induction (m_ssrc m) as [|s l IH]; [reflexivity|]. cbn [forallb filter] in *.
      apply andb_true_iff in Hse as [H1 H2]. now rewrite H1, (IH H2). }
    assert (E5 : map (full (m_kind m)) (m_codecs m) = m_codecs m).
    { etransitivity; [|apply map_id]. apply map_ext_in. intros c Hc. now apply Hcodecs. }
    rewrite E1, E2, E3, E4, E5. now destruct m as [? ? ? ? ? ? ? ? ? ? ? ? ? ? ? ? ? ? ? [[]|]].
  - apply render_media_defined; try assumption.
    + destruct (m_rtcp_host m); [now apply andb_true_iff in Hrh|reflexivity].
    + intros c Hc. now apply Hcodecs.
Qed.

(* any(m.ice.iceLite ...) when every section has ICE parameters *)
Lemma any_lite_ice : forall ms, (forall m, In m ms -> is_some (m_ice m) = true) ->
  any_lite ms = Ok (existsb lite_of ms).
Proof.
  induction ms as [|m ms IH]; intros H; cbn [any_lite existsb]; [reflexivity|].
  pose proof (H m (or_introl eq_refl)) as Hi. unfold lite_of at 1.
  destruct (m_ice m) as [i|]; [|discriminate]. destruct (i_lite i); [reflexivity|].
  apply IH. intros m' Hm'. apply H. now right.
Qed.

Lemma existsb_same : forall {T} (f : T -> bool) x l, (forall y, In y l -> f y = f x) -> existsb f (x :: l) = f x.
Proof.
  intros T f x l H. cbn [existsb]. induction l as [|y l IH]; cbn [existsb]; [apply orb_false_r|].
  rewrite (H y) by now left. rewrite orb_assoc, orb_diag. apply IH. intros z Hz. apply H. now right.
Qed.

Lemma generated_fixpoint : forall d, wf_generated_b d = true ->
  exists ls, render d = Ok ls /\ absorb ls = Ok d.
Proof.
  intros d H. unfold wf_generated_b in H. apply andb_prop in H as [[[Ho Hh]%andb_prop Hm]%andb_prop Hl].
  assert (Hok : forall m, In m (d_media d) -> wfp_media m /\ norm_media (lite_of m) m = m /\
                                              is_some (m_ice m) = true /\ exists l, render_media m = Ok l).
  { intros m Hin. apply wf_media_gen_ok. rewrite forallb_forall in Hm. now apply Hm. }
  assert (Hw : wfp d).
  { apply Forall_forall. intros m Hin. now apply Hok. }
  assert (Elite : any_lite (d_media d) = Ok (existsb lite_of (d_media d))).
  { apply any_lite_ice. intros m Hin. now apply Hok. }
  assert (Hr : exists ls, render d = Ok ls).
  { apply (render_defined d _ Elite Hh). intros m Hin. now apply Hok. }
  destruct Hr as (ls & Hr). exists ls. split; [exact Hr|].
  rewrite (absorb_render d ls _ Hw Hr Elite). f_equal.
  unfold norm_desc. destruct d as [v o n t h g ms media]. cbn [d_version d_origin d_name d_time d_host d_group
    d_msid_semantic d_media] in *.
  destruct o as [o|]; [|discriminate]. f_equal.
  etransitivity; [|apply map_id]. apply map_ext_in. intros m Hin.
  destruct media as [|m0 r]; [destruct Hin|]. rewrite forallb_forall in Hl.
  rewrite existsb_same by (intros y Hy; apply eqb_prop; now apply Hl).
  destruct Hin as [<-|Hin].
  - apply Hok. now left.
  - rewrite <- (eqb_prop _ _ (Hl m Hin)). apply Hok. now right.
Qed.

(* contrib/signaling.py *)
Definition sobj_ok (o : sobj) : Prop :=
  match o with SDesc _ ty => ty = s_offer \/ ty = s_answer | _ => True end.

Lemma signaling_roundtrip : forall o, sobj_ok o -> obj_of_msg (msg_of_obj o) = Ok o.
Proof.
  intros [sdp ty|c mid idx|] H; cbn [sobj_ok] in H.
  - destruct H as [-> | ->]; reflexivity.
  - unfold msg_of_obj, obj_of_msg. cbn [g_type g_sdp g_cand g_id g_label g_extra].
    change (str_eqb s_candidate s_answer || str_eqb s_candidate s_offer) with false. cbn iota.
    change (str_eqb s_candidate s_candidate) with true. cbn iota.
    rewrite cand_roundtrip. reflexivity.
  - reflexivity.
Qed.

Lemma cand_to_tokens_inj : forall c1 c2, cand_to_tokens c1 = cand_to_tokens c2 -> c1 = c2.
Proof.
  intros c1 c2 H. pose proof (cand_roundtrip c1) as H1. rewrite H, cand_roundtrip in H1. now inversion H1.
Qed.

Lemma msg_of_obj_inj : forall o1 o2, msg_of_obj o1 = msg_of_obj o2 -> o1 = o2.
Proof.
  intros [s1 t1|c1 m1 i1|] [s2 t2|c2 m2 i2|] H; cbn [msg_of_obj] in H; try discriminate; try reflexivity.
  - inversion H; subst; reflexivity.
  - pose proof (f_equal (fun m => match g_cand m with Some (CToks t) => t | _ => [] end) H) as Ht.
    pose proof (f_equal g_id H) as Hi. pose proof (f_equal g_label H) as Hl.
    cbn [g_cand g_id g_label] in Ht, Hi, Hl. apply cand_to_tokens_inj in Ht.
    inversion Hi; inversion Hl; subst; reflexivity.
Qed.

(* messages of the three shapes object_to_string writes are read back to the object they came from,
   and re-serialising gives the same message *)
Lemma signaling_msg_roundtrip : forall m o, obj_of_msg m = Ok o ->
  (exists o', sobj_ok o' /\ m = msg_of_obj o') -> msg_of_obj o = m.
Proof.
  intros m o H (o' & Hok & ->). rewrite (signaling_roundtrip o' Hok) in H. now inversion H.
Qed.
