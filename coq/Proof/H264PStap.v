(* H264Encoder._packetize_stap_a / _packetize: aggregation respects the size
   budget, loses nothing, and the whole packetiser output depayloads to the
   NAL units with start codes. *)
From Coq Require Import ZArith List Bool Lia.
From AV Require Import Lib.Bytes Lib.BytesP Lib.CodecX Lib.CodecXP Gen.H264Const Model.H264
     Proof.H264PBase Proof.H264PFu.
Import ListNotations.
Local Open Scope Z_scope.

(* one aggregated unit: 16-bit length + NAL unit *)
Definition enc (n : bytes) : bytes := be16 (len n) ++ n.
Definition encs (l : list bytes) : bytes := concat (map enc l).
Definition opt_list {T : Type} (o : option T) : list T :=
  match o with Some x => [x] | None => [] end.

(* the property's precondition on a NAL unit *)
Definition valid_nal (n : bytes) : Prop :=
  bytes_ok n /\ 2 <= len n /\ exists h, u8 n 0 = Some h /\ 1 <= Z.land h 31 <= 23.

Lemma len_be16 n : len (be16 n) = 2.
Proof. reflexivity. Qed.
Lemma len_enc n : len (enc n) = 2 + len n.
Proof. unfold enc. rewrite len_app. reflexivity. Qed.
Lemma encs_cons n l : encs (n :: l) = enc n ++ encs l.
Proof. reflexivity. Qed.
Lemma len_encs_nonneg l : 0 <= len (encs l).
Proof. apply len_nonneg. Qed.

(* The STAP-A header byte starts as 24 | F, NRI of the first unit; every aggregated unit ORs in its
   F bit and raises NRI to its own if that is larger.  The type bits stay. *)
Lemma stap_header_init b :
  let h := Z.lor h264_NAL_TYPE_STAP_A (Z.land b 224) in
  Z.land h 31 = h264_NAL_TYPE_STAP_A /\ 0 <= h < 256.
Proof.
  cbv zeta. rewrite Z.lor_comm. split.
  - rewrite land_lor_other by reflexivity. reflexivity.
  - apply (lor_range 8); [lia | apply (land_range 8); lia | rewrite type_stap_a; lia].
Qed.

Definition stap_header_step (h n0 : Z) : Z :=
  let h1 := Z.lor h (Z.land n0 128) in
  if Z.land h1 96 <? Z.land n0 96 then Z.lor (Z.land h1 159) (Z.land n0 96) else h1.

Lemma stap_header_step_facts h n0 : 0 <= h < 256 ->
  Z.land (stap_header_step h n0) 31 = Z.land h 31 /\ 0 <= stap_header_step h n0 < 256.
Proof.
  intros Hh. unfold stap_header_step. set (h1 := Z.lor h (Z.land n0 128)).
  assert (H1 : Z.land h1 31 = Z.land h 31 /\ 0 <= h1 < 256).
  { unfold h1. rewrite Z.lor_comm. split.
    - apply land_lor_other. reflexivity.
    - apply (lor_range 8); [lia | apply (land_range 8); lia | exact Hh]. }
  destruct (Z.land h1 96 <? Z.land n0 96); [|exact H1].
  rewrite Z.lor_comm. split.
  - rewrite land_lor_other, <- Z.land_assoc by reflexivity. apply H1.
  - apply (lor_range 8); [lia | apply (land_range 8); lia | apply (land_range 8); lia].
Qed.

(* The aggregation loop, over the whole iterator nalu :: rest, so that taking a unit
   and going on is one recursive call whatever follows. *)
Fixpoint stap_run (l : list bytes) (avail c hdr : Z) (payload : bytes)
  : result (Z * Z * bytes * option bytes * list bytes) :=
  match l with
  | [] => Ok (hdr, c, payload, None, [])
  | nalu :: rest =>
      if (len nalu <=? avail) && (c <? 9) then
        match u8 nalu 0 with
        | None => Crash
        | Some n0 =>
            if 65535 <? len nalu then Crash
            else stap_run rest (avail - (h264_LENGTH_FIELD_SIZE + len nalu)) (c + 1)
                          (stap_header_step hdr n0) (payload ++ enc nalu)
        end
      else Ok (hdr, c, payload, Some nalu, rest)
  end.

Lemma stap_loop_run : forall rest nalu avail c hdr payload,
  stap_loop nalu rest avail c hdr payload = stap_run (nalu :: rest) avail c hdr payload.
Proof.
  induction rest as [|n rest IH]; intros nalu avail c hdr payload; cbn [stap_loop stap_run];
    destruct ((len nalu <=? avail) && (c <? 9)); try reflexivity;
    destruct (u8 nalu 0); try reflexivity;
    destruct (65535 <? len nalu); try reflexivity.
  apply IH.
Qed.

Lemma stap_run_spec : forall l avail c hdr payload,
  Forall valid_nal l -> 0 <= hdr < 256 -> 0 <= c -> avail <= 65535 ->
  exists hdr' taken nxt rest',
    stap_run l avail c hdr payload =
      Ok (hdr', c + Z.of_nat (length taken), payload ++ encs taken, nxt, rest') /\
    l = taken ++ opt_list nxt ++ rest' /\
    (nxt = None -> rest' = []) /\
    Z.land hdr' 31 = Z.land hdr 31 /\ 0 <= hdr' < 256 /\
    c + Z.of_nat (length taken) <= Z.max c 9 /\
    (taken <> [] -> len (encs taken) <= avail + 2).
Proof.
  induction l as [|nalu rest IH]; intros avail c hdr payload Hval Hhdr Hc Hav; cbn [stap_run].
  - exists hdr, [], None, []. cbn [length encs map concat]. rewrite app_nil_r, Z.add_0_r.
    repeat split; (lia || congruence).
  - inversion Hval as [|? ? (Hok & Hlen & h & Hu8 & Htype) Hrest]; subst.
    destruct ((len nalu <=? avail) && (c <? 9)) eqn:Econd.
    + apply andb_true_iff in Econd. destruct Econd as [E1 E2]. apply Z.leb_le in E1. apply Z.ltb_lt in E2.
      rewrite Hu8, length_field_size. rewrite (proj2 (Z.ltb_ge _ _)) by lia.
      destruct (stap_header_step_facts hdr h Hhdr) as [Hs1 Hs2].
      destruct (IH (avail - (2 + len nalu)) (c + 1) (stap_header_step hdr h) (payload ++ enc nalu)
                   Hrest Hs2 ltac:(lia) ltac:(lia))
        as (hdr' & taken & nxt & rest' & Hrun & Hsplit & Hnone & Hty & Hrange & Hcnt & Hsize).
      exists hdr', (nalu :: taken), nxt, rest'.
      rewrite Hrun, encs_cons, <- app_assoc, Hsplit. cbn [length].
      replace (c + 1 + Z.of_nat (length taken)) with (c + Z.of_nat (S (length taken))) by lia.
      repeat split; (assumption || congruence || lia || idtac).
      (* the units taken after nalu fit what nalu left of the budget *)
      rewrite len_app, len_enc. destruct taken as [|t taken'].
      * change (len (encs [])) with 0. lia.
      * specialize (Hsize ltac:(discriminate)). lia.
    + exists hdr, [], (Some nalu), rest.
      cbn [length encs map concat opt_list app]. rewrite app_nil_r, Z.add_0_r.
      repeat split; (lia || congruence).
Qed.

Theorem packetize_stap_a_spec : forall data rest,
  Forall valid_nal (data :: rest) -> len data <= h264_PACKET_MAX ->
  exists pkt taken nxt rest',
    packetize_stap_a data rest = Ok (pkt, nxt, rest') /\
    data :: rest = taken ++ opt_list nxt ++ rest' /\
    (nxt = None -> rest' = []) /\
    ((taken = [data] /\ pkt = data) \/
     ((2 <= length taken <= 9)%nat /\
      exists h, pkt = h :: encs taken /\ Z.land h 31 = h264_NAL_TYPE_STAP_A /\ 0 <= h < 256 /\
                len pkt <= h264_PACKET_MAX)).
Proof.
  intros data rest Hval Hlen.
  destruct consts_ok as (Hnal & Hlfs & _ & _ & Hstap & Hstap2 & Hmax & _ & _).
  unfold packetize_stap_a.
  inversion Hval as [|? ? Hd Hrest]; subst.
  destruct Hd as (Hok & Hlen2 & d0 & Hu8 & Htype).
  rewrite Hu8.
  destruct (stap_header_init d0) as [Hinit1 Hinit2].
  rewrite stap_loop_run.
  destruct (stap_run_spec (data :: rest) (h264_PACKET_MAX - h264_STAP_A_HEADER_SIZE) 0
                          (Z.lor h264_NAL_TYPE_STAP_A (Z.land d0 224)) [] Hval Hinit2 ltac:(lia) ltac:(lia))
    as (hdr' & taken & nxt & rest' & Hrun & Hsplit & Hnone & Hty & Hrange & Hcnt & Hsize).
  rewrite Hrun. cbn [bind app]. rewrite Z.add_0_l.
  destruct taken as [|t0 taken].
  - (* counter = 0: data itself does not fit the STAP budget; it goes out alone *)
    destruct nxt as [n|]; [|rewrite (Hnone eq_refl) in Hsplit; discriminate].
    cbn [opt_list app] in Hsplit. injection Hsplit as <- <-.
    cbn [length Z.of_nat Z.eqb Z.leb Z.compare].
    destruct rest as [|n rest]; cbn [next_of].
    + exists data, [data], None, []. repeat split; auto.
    + exists data, [data], (Some n), rest. repeat split; auto. discriminate.
  - cbn [app] in Hsplit. injection Hsplit as <- Hsplit.
    destruct taken as [|t1 taken].
    + (* counter = 1 *)
      cbn [length Z.of_nat Pos.of_succ_nat Z.eqb Z.leb Z.compare Pos.compare Pos.compare_cont].
      exists data, [data], nxt, rest'. cbn [app]. rewrite Hsplit. repeat split; auto.
    + (* counter >= 2: a STAP-A packet *)
      rewrite (proj2 (Z.eqb_neq _ 0)), (proj2 (Z.leb_gt _ 1)) by (cbn [length]; lia).
      rewrite (proj2 (Z.leb_le 0 hdr')), (proj2 (Z.ltb_lt hdr' 256)) by lia. cbn [andb].
      exists ([hdr'] ++ encs (data :: t1 :: taken)), (data :: t1 :: taken), nxt, rest'.
      split; [reflexivity|]. split; [cbn [app]; now rewrite Hsplit|]. split; [exact Hnone|].
      right. split.
      * cbn [length] in *. lia.
      * exists hdr'. split; [reflexivity|]. split; [congruence|]. split; [exact Hrange|].
        specialize (Hsize ltac:(discriminate)).
        cbn [app]. rewrite len_cons. lia.
Qed.

Inductive packets_of : list bytes -> list bytes -> Prop :=
| po_nil : packets_of [] []
| po_fu n frags rest pk :
    h264_PACKET_MAX < len n -> fu_fragments n frags -> packets_of rest pk ->
    packets_of (n :: rest) (frags ++ pk)
| po_single n rest pk :
    len n <= h264_PACKET_MAX -> packets_of rest pk ->
    packets_of (n :: rest) (n :: pk)
| po_stap h taken rest pk :
    (2 <= length taken <= 9)%nat -> Z.land h 31 = h264_NAL_TYPE_STAP_A -> 0 <= h < 256 ->
    len (h :: encs taken) <= h264_PACKET_MAX -> packets_of rest pk ->
    packets_of (taken ++ rest) ((h :: encs taken) :: pk).

Lemma next_of_split rest :
  rest = opt_list (fst (next_of rest)) ++ snd (next_of rest) /\
  (fst (next_of rest) = None -> snd (next_of rest) = []).
Proof. now destruct rest. Qed.

Lemma packetize_loop_end fuel rest : rest = [] ->
  exists pk, packetize_loop fuel None rest = Ok pk /\ packets_of (opt_list None ++ rest) pk.
Proof. intros ->. exists []. split; [destruct fuel; reflexivity | constructor]. Qed.

(* nxt is the unit the loop holds, rest what the iterator still has; one unit
   of fuel for each is enough *)
Lemma packetize_loop_spec : forall fuel nxt rest,
  Forall valid_nal (opt_list nxt ++ rest) -> (nxt = None -> rest = []) ->
  (length (opt_list nxt ++ rest) <= fuel)%nat ->
  exists pk, packetize_loop fuel nxt rest = Ok pk /\ packets_of (opt_list nxt ++ rest) pk.
Proof.
  induction fuel as [|fuel IH]; intros [p|] rest Hval Hnone Hfuel.
  - cbn [opt_list app length] in Hfuel. lia.
  - exact (packetize_loop_end _ _ (Hnone eq_refl)).
  - cbn [opt_list app length] in *. cbn [packetize_loop].
    inversion Hval as [|? ? Hp Hrest]; subst.
    destruct (h264_PACKET_MAX <? len p) eqn:Ebig.
    + apply Z.ltb_lt in Ebig.
      destruct (packetize_fu_a_spec p (proj1 Hp) Ebig) as [frags [Hfu Hfrags]].
      rewrite Hfu. cbn [bind].
      pose proof (next_of_split rest) as Hn. destruct (next_of rest) as [nxt rest'].
      cbn [fst snd] in Hn. destruct Hn as [Hsplit Hnone']. rewrite Hsplit in *.
      destruct (IH nxt rest' Hrest Hnone' ltac:(lia)) as [pk [Hrun Hpk]].
      rewrite Hrun. cbn [bind]. eexists. split; [reflexivity|].
      apply po_fu; assumption.
    + apply Z.ltb_ge in Ebig.
      destruct (packetize_stap_a_spec p rest Hval Ebig)
        as (pkt & taken & nxt & rest' & Hrun & Hsplit & Hnone' & Hshape).
      rewrite Hrun. cbn [bind].
      assert (Htaken : (1 <= length taken)%nat).
      { destruct Hshape as [[-> _] | [H _]]; cbn [length]; lia. }
      rewrite Hsplit in Hval. apply Forall_app in Hval.
      apply (f_equal (@length bytes)) in Hsplit as Hlen. rewrite app_length in Hlen. cbn [length] in Hlen.
      destruct (IH nxt rest' (proj2 Hval) Hnone' ltac:(lia)) as [pk [Hrun2 Hpk]].
      rewrite Hrun2. cbn [bind]. eexists. split; [reflexivity|]. rewrite Hsplit.
      destruct Hshape as [[-> ->] | [Hcnt (h & -> & Hh1 & Hh2 & Hh3)]].
      * apply po_single; assumption.
      * apply po_stap; assumption.
  - exact (packetize_loop_end _ _ (Hnone eq_refl)).
Qed.

Theorem packetize_spec : forall nals,
  Forall valid_nal nals -> exists pk, packetize nals = Ok pk /\ packets_of nals pk.
Proof.
  intros nals Hval. unfold packetize.
  pose proof (next_of_split nals) as Hn. destruct (next_of nals) as [nxt rest].
  cbn [fst snd] in Hn. destruct Hn as [Hsplit Hnone]. rewrite Hsplit in *.
  apply packetize_loop_spec; [assumption | assumption | lia].
Qed.

Theorem packets_of_size : forall nals pk,
  packets_of nals pk -> Forall (fun p => len p <= h264_PACKET_MAX) pk.
Proof.
  induction 1 as [| n frags rest pk Hbig Hfu _ IH | n rest pk Hsmall _ IH | h taken rest pk _ _ _ Hsz _ IH].
  - constructor.
  - apply Forall_app. split; [|exact IH].
    destruct Hfu as (h0 & p0 & mids & pl & f0 & fmids & fl & _ & _ & _ & _ & _ & _ & Hsz). exact Hsz.
  - constructor; assumption.
  - constructor; assumption.
Qed.

Fixpoint depay_all (pk : list bytes) : result bytes :=
  match pk with
  | [] => Ok []
  | p :: tl => d <- depayload p ;; r <- depay_all tl ;; Ok (d ++ r)
  end.

Lemma depay_all_app a b x y :
  depay_all a = Ok x -> depay_all b = Ok y -> depay_all (a ++ b) = Ok (x ++ y).
Proof.
  revert x. induction a as [|p a IH]; intros x Ha Hb; cbn [app depay_all] in *.
  - injection Ha as <-. exact Hb.
  - destruct (depayload p) as [d| | |]; cbn [bind] in *; try discriminate.
    destruct (depay_all a) as [r| | |]; cbn [bind] in *; try discriminate.
    injection Ha as <-. rewrite (IH r eq_refl Hb). cbn [bind]. now rewrite app_assoc.
Qed.

Lemma depay_all_cons p ff out tl r :
  parse p = Ok (ff, out) -> depay_all tl = Ok r -> depay_all (p :: tl) = Ok (out ++ r).
Proof. intros Hp Hr. cbn [depay_all]. unfold depayload. rewrite Hp, Hr. reflexivity. Qed.

Definition with_sc (n : bytes) : bytes := START_CODE ++ n.

Lemma parse_single n : valid_nal n -> parse n = Ok (true, START_CODE ++ n).
Proof.
  intros (Hok & Hlen & h & Hu8 & Hty). unfold parse.
  rewrite (proj2 (Z.ltb_ge _ _)) by lia. rewrite Hu8.
  rewrite (proj2 (Z.leb_le 1 _)), (proj2 (Z.ltb_lt _ 24)) by lia. reflexivity.
Qed.

Lemma depay_mids h0 : 0 <= h0 < 256 -> forall mids fmids,
  Forall2 (is_fu_frag h0 false false) mids fmids -> depay_all fmids = Ok (concat mids).
Proof.
  intros Hh0. induction 1 as [|p f mids fmids Hf _ IH]; [reflexivity|].
  exact (depay_all_cons _ _ _ _ _ (parse_fu_frag h0 false false p f Hh0 Hf) IH).
Qed.

Lemma depay_fu n frags : bytes_ok n -> fu_fragments n frags -> depay_all frags = Ok (START_CODE ++ n).
Proof.
  intros Hok (h0 & p0 & mids & pl & f0 & fmids & fl & -> & -> & Hf0 & Hmids & Hfl & _ & _).
  apply bytes_ok_cons in Hok. destruct Hok as [Hh0 _]. unfold byte_ok in Hh0.
  assert (Hrest : depay_all (fmids ++ [fl]) = Ok (concat mids ++ pl ++ [])).
  { apply depay_all_app; [exact (depay_mids h0 Hh0 _ _ Hmids)|].
    exact (depay_all_cons fl _ _ [] [] (parse_fu_frag h0 false true pl fl Hh0 Hfl) eq_refl). }
  rewrite (depay_all_cons _ _ _ _ _ (parse_fu_frag h0 true false p0 f0 Hh0 Hf0) Hrest).
  rewrite app_nil_r, <- !app_assoc. reflexivity.
Qed.

Lemma len_encs_cons n l : len (encs (n :: l)) = 2 + len n + len (encs l).
Proof. rewrite encs_cons, len_app, len_enc. reflexivity. Qed.

Lemma length_encs l : (length l <= length (encs l))%nat.
Proof.
  induction l as [|n l IH]; [cbn; lia|].
  rewrite encs_cons. unfold enc. rewrite !app_length. cbn [length be16]. lia.
Qed.

Lemma pairwise_out_cons2 data a b tl :
  pairwise_out data (a :: b :: tl) =
  START_CODE ++ pyslice data a (b - h264_LENGTH_FIELD_SIZE) ++ pairwise_out data (b :: tl).
Proof. reflexivity. Qed.

(* STAP-A packets.  On data = pre ++ encs taken, from p = len pre on, the offsets loop accepts every
   unit; with the sentinel len data + 2 behind them the offsets start at p + 2, and the slices
   between consecutive offsets are the units *)
Lemma stap_body : forall taken data pre p fuel,
  data = pre ++ encs taken -> p = len pre -> len (encs taken) <= 65535 -> (length taken <= fuel)%nat ->
  exists offsets tl,
    stap_offsets fuel data p = Ok offsets /\ offsets ++ [len data + 2] = (p + 2) :: tl /\
    pairwise_out data ((p + 2) :: tl) = concat (map with_sc taken).
Proof.
  induction taken as [|n t IH]; intros data pre p fuel Hdata Hp Hsmall Hfuel.
  - exists [], []. cbn [encs map concat] in *. rewrite app_nil_r in Hdata. subst.
    split; [destruct fuel; cbn [stap_offsets]; rewrite Z.ltb_irrefl; reflexivity|]. split; reflexivity.
  - destruct fuel as [|f]; [cbn [length] in Hfuel; lia|].
    rewrite len_encs_cons in Hsmall. pose proof (len_nonneg n). pose proof (len_encs_nonneg t).
    assert (Hlen : len data = p + 2 + len n + len (encs t)) by (rewrite Hdata, len_app, len_encs_cons; lia).
    destruct (IH data (pre ++ enc n) (p + 2 + len n) f) as (offs & tl & Hrun & Hhd & Hout);
      [rewrite Hdata, encs_cons; apply app_assoc | rewrite len_app, len_enc; lia | lia | cbn [length] in Hfuel; lia |].
    exists ((p + 2) :: offs), ((p + 2 + len n + 2) :: tl). split; [|split].
    + cbn [stap_offsets]. rewrite length_field_size.
      rewrite (proj2 (Z.ltb_lt _ _)), (proj2 (Z.ltb_ge _ _)) by lia.
      replace (Z.to_nat p) with (length pre) by (unfold len in Hp; lia).
      rewrite (u16_in _ pre (len n) (n ++ encs t)); [| rewrite Hdata, encs_cons; unfold enc; now rewrite <- app_assoc | lia].
      rewrite (proj2 (Z.ltb_ge _ _)), Hrun by lia. reflexivity.
    + cbn [app]. rewrite Hhd. reflexivity.
    + rewrite pairwise_out_cons2, Hout, length_field_size. cbn [map concat]. unfold with_sc at 2. rewrite <- app_assoc.
      do 2 f_equal. apply (pyslice_mid _ (pre ++ be16 (len n)) n (encs t)).
      * rewrite Hdata, encs_cons. unfold enc. now rewrite <- !app_assoc.
      * rewrite len_app, len_be16. lia.
      * lia.
Qed.

Lemma parse_stap h taken :
  Z.land h 31 = h264_NAL_TYPE_STAP_A -> taken <> [] -> len (encs taken) <= 65535 ->
  parse (h :: encs taken) = Ok (true, concat (map with_sc taken)).
Proof.
  intros Hty Hne Hsmall. unfold parse.
  assert (Hlen : 2 <= len (h :: encs taken)).
  { destruct taken as [|n t]; [congruence|]. rewrite len_cons, len_encs_cons.
    pose proof (len_nonneg n). pose proof (len_encs_nonneg t). lia. }
  rewrite (proj2 (Z.ltb_ge _ _)) by lia.
  cbn [u8 nth_error]. rewrite Hty.
  change ((1 <=? h264_NAL_TYPE_STAP_A) && (h264_NAL_TYPE_STAP_A <? 24)) with false.
  change (h264_NAL_TYPE_STAP_A =? h264_NAL_TYPE_FU_A) with false.
  rewrite Z.eqb_refl, nal_header_size, length_field_size. cbv iota.
  destruct (stap_body taken (h :: encs taken) [h] 1 (S (length (h :: encs taken)))) as (offs & tl & Hrun & Hhd & Hout);
    [reflexivity | reflexivity | assumption | pose proof (length_encs taken); cbn [length]; lia |].
  rewrite Hrun. cbn [bind]. rewrite Hhd, Hout. reflexivity.
Qed.

Theorem packets_of_lossless : forall nals pk,
  packets_of nals pk -> Forall valid_nal nals ->
  depay_all pk = Ok (concat (map with_sc nals)).
Proof.
  induction 1 as [| n frags rest pk Hbig Hfu _ IH | n rest pk Hsmall _ IH
                  | h taken rest pk Hcnt Hty Hh Hsz _ IH]; intros Hval.
  - reflexivity.
  - inversion Hval as [|? ? Hn Hrest]; subst.
    cbn [map concat]. apply depay_all_app; [|apply IH; assumption].
    apply depay_fu; [exact (proj1 Hn) | assumption].
  - inversion Hval as [|? ? Hn Hrest]; subst.
    exact (depay_all_cons _ _ _ _ _ (parse_single n Hn) (IH Hrest)).
  - apply Forall_app in Hval. rewrite map_app, concat_app.
    apply (depay_all_cons _ true); [|exact (IH (proj2 Hval))].
    destruct consts_ok as (_ & _ & _ & _ & _ & _ & Hmax & _ & _).
    apply parse_stap; [assumption | destruct taken; [cbn in Hcnt; lia | discriminate] |].
    rewrite len_cons in Hsz. lia.
Qed.
