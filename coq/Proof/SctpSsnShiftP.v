(* C17: the SCTP receiver does not depend on the origin of the stream sequence numbers either:
   shifting every SSN -- of the arriving chunks, of the FORWARD-TSN stream lists and of the
   streams' expected counters -- by any delta (mod 2^16) yields the same deliveries and the
   same SACKs. *)
From Coq Require Import ZArith List Bool Lia ZifyBool.
From AV Require Import Lib.Bytes Gen.Utils Gen.SctpConst Model.SctpRecv Proof.SerialP Proof.SctpRecvP Proof.SctpC01P Proof.SctpShiftP.
Import ListNotations.
Local Open Scope Z_scope.

Ltac Zify.zify_post_hook ::= Z.to_euclidean_division_equations.

Section SsnShift.
Variable e : Z.

Definition sh16 (x : Z) : Z := (x + e) mod 65536.

Lemma sh16_in16 x : in16 (sh16 x). Proof. unfold sh16, in16. lia. Qed.
Lemma sh16_gt a b : in16 a -> in16 b -> uint16_gt (sh16 a) (sh16 b) = uint16_gt a b.
Proof. unfold sh16. rewrite <- !uint16_add_mod. apply uint16_gt_shift. Qed.
Lemma sh16_eqb a b : in16 a -> in16 b -> (sh16 a =? sh16 b) = (a =? b).
Proof. unfold sh16, in16. intros. apply eq_true_iff_eq. rewrite !Z.eqb_eq. lia. Qed.
Lemma sh16_add a : uint16_add (sh16 a) 1 = sh16 (uint16_add a 1).
Proof. rewrite !uint16_add_mod. unfold sh16. rewrite !Zplus_mod_idemp_l. f_equal. lia. Qed.

Definition shc (c : chunk) : chunk :=
  mkChunk (tsn c) (sid c) (sh16 (sseq c)) (unordered c) (first c) (last c) (ppid c) (udata c).
Definition cok (c : chunk) : Prop := in16 (sseq c).

Definition shst (st : stream) : stream := mkStream (map shc (reasm st)) (sh16 (sseq_expected st)).
Definition shstrs (l : list (Z * stream)) : list (Z * stream) := map (fun kv => (fst kv, shst (snd kv))) l.
Definition shs (s : rstate) : rstate :=
  mkR (last_rx s) (misordered s) (duplicates s) (shstrs (streams s)) (rwnd s) (sack_needed s).

Definition shl (strs : list (Z * Z)) : list (Z * Z) := map (fun p => (fst p, sh16 (snd p))) strs.
Definition shev (ev : revent) : revent :=
  match ev with EvData c => EvData (shc c) | EvFwd cum strs => EvFwd cum (shl strs) end.
Definition ev_ok (ids : list Z) (ev : revent) : Prop :=
  match ev with
  | EvData c => cok c /\ In (sid c) ids
  | EvFwd _ strs => Forall (fun p => in16 (snd p) /\ In (fst p) ids) strs
  end.

(* every queued chunk and every stream counter is a 16-bit number, and the streams `ids` exist: a
   stream created on arrival would expect 0 on both sides, not 0 and its shift *)
Definition wfst (ids : list Z) (s : rstate) : Prop := wf sh16 (fun _ => True) in16 (fun id => In id ids) s.

Lemma shs_rns s : shs s = rns (fun x => x) sh16 s.
Proof. unfold shs, rns. now rewrite !map_id. Qed.

Lemma rnout_id o : rnout (fun x => x) o = o.
Proof. destruct o as [ms [[c w g dd]|]|]; [|reflexivity|reflexivity]. cbn [rnout]. unfold rnsack. cbn [s_cum s_rwnd s_gaps s_dups]. now rewrite map_id. Qed.

(* Same deliveries, same SACKs, at every step: only the stream counters and the queued chunks'
   stream sequence numbers differ, by the shift.  The instance of SctpShiftP.rename_invariant with
   the TSNs left alone. *)
Theorem receiver_ssn_shift_invariant ids : forall es s, wfst ids s -> Forall (ev_ok ids) es ->
  rrun (shs s) (map shev es) = (shs (fst (rrun s es)), snd (rrun s es)).
Proof.
  intros es s Hw Hes. rewrite !shs_rns.
  rewrite <- (map_id (snd (rrun s es))), <- (map_ext (rnout (fun x => x)) (fun o => o) rnout_id).
  apply (rename_invariant (fun x => x) sh16 (fun _ => True) in16 (fun id => In id ids)
           (fun _ _ _ _ => eq_refl) (fun _ _ _ _ => eq_refl) (fun _ => eq_refl) (fun _ => I) (fun _ _ => eq_refl)
           sh16_eqb sh16_gt sh16_add (fun a => uint16_add_range a 1) (uint16_add_range (-1) 1) es s Hw).
  eapply Forall_impl; [|exact Hes]. intros [c|cum strs] He; cbn [ev_ok ev_dom] in *; [exact (conj (conj I (proj1 He)) (proj2 He))|].
  exact (conj I He).
Qed.
End SsnShift.

(* a receiver whose streams `ids` exist and expect sequence number x *)
Definition rinit_ssn (last_received x : Z) (ids : list Z) : rstate :=
  mkR last_received [] [] (map (fun id => (id, mkStream [] x)) ids) 1048576 false.

Theorem ssn_origin_independent e base x ids es :
  in16 x -> Forall (ev_ok ids) es ->
  rrun (rinit_ssn base (sh16 e x) ids) (map (shev e) es) =
  (shs e (fst (rrun (rinit_ssn base x ids) es)), snd (rrun (rinit_ssn base x ids) es)).
Proof.
  intros Hx Hes.
  assert (E : rinit_ssn base (sh16 e x) ids = shs e (rinit_ssn base x ids)).
  { unfold rinit_ssn, shs, shstrs. cbn [last_rx misordered duplicates streams rwnd sack_needed]. f_equal.
    rewrite map_map. reflexivity. }
  rewrite E. apply (receiver_ssn_shift_invariant e ids); [|exact Hes].
  split; [split; [exact I|split; constructor]|]. cbn [rinit_ssn streams]. split.
  - apply Forall_forall. intros kv Hkv. apply in_map_iff in Hkv as (id & <- & _). split; [constructor|exact Hx].
  - intros id Hid. right. rewrite map_map. cbn [fst]. now rewrite map_id.
Qed.
