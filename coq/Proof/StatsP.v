(* Proofs about Model/Stats.v (property C18), part 1: arithmetic, the invariant of an
   established StreamStatistics object, one `add`, one `fraction_lost`, one report. *)
From Coq Require Import ZArith List Bool Lia.
From AV Require Import Lib.Bytes Lib.BytesP Gen.Utils Gen.RtpConst Model.Stats Proof.SerialP.
Import ListNotations.
Local Open Scope Z_scope.

Ltac Zify.zify_post_hook ::= Z.to_euclidean_division_equations.

Lemma shiftr_4 x : Z.shiftr x 4 = x / 16.
Proof. rewrite Z.shiftr_div_pow2 by lia. reflexivity. Qed.

Lemma shiftr_16 x : Z.shiftr x 16 = x / 65536.
Proof. rewrite Z.shiftr_div_pow2 by lia. reflexivity. Qed.

Lemma shiftl_8 x : Z.shiftl x 8 = x * 256.
Proof. rewrite Z.shiftl_mul_pow2 by lia. reflexivity. Qed.

(* `cycles` is bumped exactly when the forward serial step from b to a wraps, so that
   cycles + max_seq advances by that step *)
Lemma wrap_step c a b :
  in16 a -> in16 b -> (if a <? b then c + 65536 else c) + a = c + b + (a - b) mod 65536.
Proof. unfold in16. intros Ha Hb. destruct (a <? b) eqn:E; lia. Qed.

(* distance of x to the nearest multiple of 2^32 *)
Definition dist32 (x : Z) : Z := Z.min (x mod 4294967296) (4294967296 - x mod 4294967296).

Lemma transit_diff_dist x : transit_diff x = dist32 x.
Proof.
  unfold transit_diff, dist32. cbv zeta. rewrite land_ffffffff.
  destruct (2147483648 <? x mod 4294967296) eqn:E; lia.
Qed.

Lemma transit_diff_range x : 0 <= transit_diff x <= 2147483648.
Proof. rewrite transit_diff_dist. unfold dist32. lia. Qed.

Lemma transit_diff_periodic x k : transit_diff (x + k * 4294967296) = transit_diff x.
Proof. rewrite !transit_diff_dist. unfold dist32. rewrite Z.mod_add by lia. reflexivity. Qed.

Lemma transit_diff_small x : Z.abs x <= 2147483648 -> transit_diff x = Z.abs x.
Proof. intros H. rewrite transit_diff_dist. unfold dist32. lia. Qed.

Lemma transit_diff_congr x y :
  x mod 4294967296 = y mod 4294967296 -> transit_diff x = transit_diff y.
Proof. intros H. rewrite !transit_diff_dist. unfold dist32. rewrite H. reflexivity. Qed.

(* RFC 3550 A.3 fraction lost of one interval *)
Definition rfc_fraction (expected_interval received_interval : Z) : Z :=
  if (expected_interval =? 0) || (expected_interval - received_interval <=? 0) then 0
  else ((expected_interval - received_interval) * 256) / expected_interval.

(* RFC 3550 A.8, scaled by 16: J += |D| - ((J + 8) >> 4), skipped for a repeated timestamp *)
Definition new_jit (J la lt ts arr : Z) : Z :=
  if ts =? lt then J else J + dist32 ((arr - la) - (ts - lt)) - (J + 8) / 16.

Lemma new_jit_range J la lt ts arr :
  0 <= J <= 34359738368 -> 0 <= new_jit J la lt ts arr <= 34359738368.
Proof.
  intros HJ. unfold new_jit, dist32. destruct (ts =? lt); lia.
Qed.

Ltac proj := cbn [base_seq max_seq cycles packets_received jitter_q4 last_arrival last_timestamp
                  expected_prior received_prior].
Ltac proj_in H := cbn [base_seq max_seq cycles packets_received jitter_q4 last_arrival last_timestamp
                       expected_prior received_prior] in H.

Lemma add_mk b m c n J la lt ep rp seq ts arr :
  0 < n ->
  add (mkStats (Some b) (Some m) c n J (Some la) (Some lt) ep rp) seq ts arr =
  Ok (if uint16_gt seq m
      then mkStats (Some b) (Some seq) (if seq <? m then c + 65536 else c) (n + 1)
                   (new_jit J la lt ts arr) (Some arr) (Some ts) ep rp
      else mkStats (Some b) (Some m) c (n + 1) J (Some la) (Some lt) ep rp).
Proof.
  intros Hn. unfold add, new_jit, neq_opt. proj. change (Z.shiftl 1 16) with 65536.
  destruct (uint16_gt seq m); [|reflexivity].
  replace (1 <? n + 1) with true by lia. rewrite andb_true_r.
  destruct (ts =? lt); [reflexivity|]. cbn [negb].
  rewrite transit_diff_dist, shiftr_4, Z.add_sub_assoc. reflexivity.
Qed.

(* the invariant of a StreamStatistics object that has seen at least one packet;
   b = first sequence number, m = highest so far (wire values), la / lt = arrival
   and timestamp of the last in-order packet *)
Set Implicit Arguments.
Record est (s : stats) (b m la lt : Z) : Prop := mkEst {
  e_base : base_seq s = Some b;
  e_max : max_seq s = Some m;
  e_la : last_arrival s = Some la;
  e_lt : last_timestamp s = Some lt;
  e_m : in16 m;
  e_cyc : 0 <= cycles s /\ cycles s mod 65536 = 0;
  e_recv : 1 <= packets_received s;
  e_J : 0 <= jitter_q4 s <= 34359738368;
  e_R : received_prior s <= packets_received s;
  e_ER : expected_prior s < cycles s + m - b + 1 -> received_prior s < packets_received s
}.
Unset Implicit Arguments.

Lemma add_init seq ts arr :
  add init seq ts arr = Ok (mkStats (Some seq) (Some seq) 0 1 0 (Some arr) (Some ts) 0 0).
Proof. reflexivity. Qed.

Lemma est_first seq ts arr :
  in16 seq -> est (mkStats (Some seq) (Some seq) 0 1 0 (Some arr) (Some ts) 0 0) seq seq arr ts.
Proof. intros H. constructor; proj; try reflexivity; try assumption; lia. Qed.

(* one add on an established object: the highest sequence number, and with it the
   last in-order packet, moves exactly when seq is ahead of it *)
Lemma add_est s b m la lt seq ts arr :
  est s b m la lt -> in16 seq ->
  let g := uint16_gt seq m in
  exists s', add s seq ts arr = Ok s' /\
    est s' b (if g then seq else m) (if g then arr else la) (if g then ts else lt) /\
    packets_received s' = packets_received s + 1 /\
    expected_prior s' = expected_prior s /\ received_prior s' = received_prior s /\
    cycles s' + (if g then seq else m) = cycles s + m + (if g then (seq - m) mod 65536 else 0) /\
    jitter_q4 s' = if g then new_jit (jitter_q4 s) la lt ts arr else jitter_q4 s.
Proof.
  intros He Hseq. cbv zeta. destruct s as [ob om c n J ola olt ep rp].
  destruct He as [Hb Hm Hla Hlt Rm [Hc0 Hc] Hn HJ HR HER]. cbn in *. subst.
  rewrite add_mk by lia. eexists. split; [reflexivity|].
  destruct (uint16_gt seq m) eqn:G; proj.
  - pose proof (wrap_step c seq m Hseq Rm) as Hw. apply uint16_gt_spec in G; [|assumption|assumption].
    split; [|repeat split; try reflexivity; exact Hw].
    constructor; proj; try reflexivity.
    + exact Hseq.
    + destruct (seq <? m); lia.
    + lia.
    + apply new_jit_range. exact HJ.
    + lia.
    + lia.
  - split; [|repeat split; try reflexivity; lia].
    constructor; proj; try reflexivity; try assumption; lia.
Qed.

Lemma packets_expected_some s b m :
  base_seq s = Some b -> max_seq s = Some m -> packets_expected s = Ok (cycles s + m - b + 1).
Proof. intros Hb Hm. unfold packets_expected. rewrite Hm, Hb. reflexivity. Qed.

Lemma packets_lost_some s b m :
  base_seq s = Some b -> max_seq s = Some m ->
  packets_lost s = Ok (rtp_clamp_packets_lost (cycles s + m - b + 1 - packets_received s)).
Proof. intros Hb Hm. unfold packets_lost. rewrite (packets_expected_some s b m Hb Hm). reflexivity. Qed.

Lemma clamp_range x : -8388608 <= rtp_clamp_packets_lost x < 8388608.
Proof. unfold rtp_clamp_packets_lost, rtp_PACKETS_LOST_MIN, rtp_PACKETS_LOST_MAX. lia. Qed.

Lemma clamp_id x : -8388608 <= x < 8388608 -> rtp_clamp_packets_lost x = x.
Proof. unfold rtp_clamp_packets_lost, rtp_PACKETS_LOST_MIN, rtp_PACKETS_LOST_MAX. lia. Qed.

Lemma rfc_fraction_range e r : (0 < e -> 0 < r) -> 0 <= r -> 0 <= rfc_fraction e r <= 255.
Proof.
  intros H Hr. unfold rfc_fraction. destruct ((e =? 0) || (e - r <=? 0)) eqn:E; [lia|].
  assert (0 < r < e) by lia. split; [apply Z.div_pos; lia|].
  apply Z.lt_succ_r. apply Z.div_lt_upper_bound; lia.
Qed.

(* the object after reading the fraction_lost property *)
Definition with_priors (s : stats) (e r : Z) : stats :=
  mkStats (base_seq s) (max_seq s) (cycles s) (packets_received s) (jitter_q4 s)
          (last_arrival s) (last_timestamp s) e r.

Lemma fraction_lost_some s b m :
  base_seq s = Some b -> max_seq s = Some m ->
  fraction_lost s =
  Ok (rfc_fraction (cycles s + m - b + 1 - expected_prior s) (packets_received s - received_prior s),
      with_priors s (cycles s + m - b + 1) (packets_received s)).
Proof.
  intros Hb Hm. unfold fraction_lost. rewrite (packets_expected_some s b m Hb Hm). cbv zeta.
  unfold rfc_fraction. rewrite shiftl_8. destruct (_ || _); reflexivity.
Qed.

Lemma est_with_priors s b m la lt :
  est s b m la lt -> est (with_priors s (cycles s + m - b + 1) (packets_received s)) b m la lt.
Proof. intros []. unfold with_priors. constructor; proj; try assumption; lia. Qed.

Lemma fraction_est_range s b m la lt :
  est s b m la lt ->
  0 <= rfc_fraction (cycles s + m - b + 1 - expected_prior s) (packets_received s - received_prior s) <= 255.
Proof. intros []. apply rfc_fraction_range; lia. Qed.

Definition info_fits (i : rinfo) : Prop :=
  0 <= ri_fraction i < 256 /\ -8388608 <= ri_lost i < 8388608 /\
  0 <= ri_highest i < 4294967296 /\ 0 <= ri_jitter i < 4294967296 /\
  0 <= ri_lsr i < 4294967296 /\ 0 <= ri_dlsr i < 4294967296.

Lemma in_u32_true n : 0 <= n < 4294967296 -> in_u32 n = true.
Proof. unfold in_u32. lia. Qed.
Lemma in_u8_true n : 0 <= n < 256 -> in_u8 n = true.
Proof. unfold in_u8. lia. Qed.
Lemma in_i32_true n : -2147483648 <= n < 2147483648 -> in_i32 n = true.
Proof. unfold in_i32. lia. Qed.

Lemma rinfo_bytes_ok i :
  0 <= ri_ssrc i < 4294967296 -> info_fits i ->
  exists l, rinfo_bytes i = Ok l /\ length l = 24%nat /\ bytes_ok l.
Proof.
  intros Hs (Hf & Hl & Hh & Hj & Hlsr & Hd).
  unfold rinfo_bytes, pack_packets_lost.
  rewrite (in_u32_true _ Hs), (in_u8_true _ Hf), (in_i32_true (ri_lost i)) by lia.
  rewrite (in_u32_true _ Hh), (in_u32_true _ Hj), (in_u32_true _ Hlsr), (in_u32_true _ Hd).
  cbn [andb]. eexists. split; [reflexivity|]. split; [reflexivity|].
  unfold from.
  repeat (apply bytes_ok_app; split);
    try apply be32_ok; try apply be8_ok; try (apply bytes_ok_skipn; apply be32_ok).
Qed.

Lemma rr_bytes_ok rs i :
  0 <= rs < 4294967296 -> 0 <= ri_ssrc i < 4294967296 -> info_fits i ->
  exists l, rr_bytes rs i = Ok l /\ length l = 32%nat /\ bytes_ok l.
Proof.
  intros Hrs Hs Hi. destruct (rinfo_bytes_ok i Hs Hi) as (rb & Hrb & Hlen & Hok).
  unfold rr_bytes. rewrite (in_u32_true _ Hrs), Hrb. unfold pack_rtcp_packet.
  assert (Hl : len (be32 rs ++ rb) = 28).
  { unfold len. rewrite app_length, Hlen. reflexivity. }
  rewrite Hl. cbn -[be32 be16 be8 app].
  eexists. split; [reflexivity|]. split.
  - rewrite !app_length, Hlen. reflexivity.
  - repeat (apply bytes_ok_app; split); try apply be32_ok; try apply be8_ok; try apply be16_ok. exact Hok.
Qed.
