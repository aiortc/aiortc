(* C01 / C06: at most once for EVERY event list -- DATA chunks and FORWARD-TSN chunks in any
   order, all streams, ordered or not, reliable or partially reliable.  Chunk accounting of the
   whole receiver (step by step: SctpC01P.rstep_releases): a chunk that enters a reassembly queue is
   afterwards in a queue, pruned by a FORWARD-TSN, or in exactly one delivered message -- never in
   two deliveries. *)
From Coq Require Import ZArith List Bool Lia.
From AV Require Import Lib.Bytes Gen.Utils Gen.SctpConst Model.SctpRecv Proof.SctpPopP Proof.SctpRecvP Proof.SctpC01P Proof.SctpDupP
  Proof.SctpOrderP Proof.SctpOrderTP Proof.SctpOnceP Proof.SctpOnceEP.
From AV Require Import Model.SctpSend Proof.SctpSendP.
Import ListNotations.
Local Open Scope Z_scope.

(* the whole run: the runs Ds behind the messages of each step, against the chunks accepted on the way *)
Theorem run_releases : forall es s, exists Ds : list (list (list chunk)),
  map out_msgs (snd (rrun s es)) = map (map msgf) Ds /\
  Forall complete (concat Ds) /\
  forall x, (cnt (allr (streams (fst (rrun s es)))) x + cnt (concat (concat Ds)) x <=
             cnt (accepted_chunks s es) x + cnt (allr (streams s)) x)%nat.
Proof.
  induction es as [|e es IH]; intros s.
  - exists []. split; [reflexivity|]. split; [constructor|]. intros x. cbn [rrun fst concat count_occ]. lia.
  - rewrite rrun_cons. cbn [accepted_chunks fst snd map]. rewrite accepts_chunk_admitted.
    destruct (rstep_releases s e) as (D & Em & Hc & Hn). destruct (IH (fst (rstep s e))) as (Ds & E1 & E2 & E3).
    exists (D :: Ds). cbn [map concat]. split; [now rewrite Em, E1|]. split; [now apply Forall_app|].
    intros x. specialize (Hn x). specialize (E3 x). rewrite concat_app, !count_occ_app in *. lia.
Qed.

Section Window.
Variable base N : Z.
Hypothesis Hbase : r32 base.
Hypothesis HN : 0 <= N < 2147483648.

Notation inwb := (inw base N).

Definition ev_in (e : revent) : Prop := match e with EvData c => inwb (tsn c) | EvFwd cum _ => inwb cum end.

(* AT MOST ONCE, every stream, DATA and FORWARD-TSN events in any order. *)
Theorem at_most_once_all t0 msgs es :
  in32 t0 -> Forall (fun m => o_data m <> []) msgs -> Z.of_nat (total_frags msgs) <= SCTP_TSN_MODULO ->
  Forall ev_in es ->
  (forall c, In (EvData c) es -> In c (concat (send_msgs (mkS t0 []) msgs))) ->
  exists Ds : list (list (list chunk)),
    map out_msgs (snd (rrun (rinit base) es)) = map (map msgf) Ds /\
    NoDup (concat Ds) /\ Forall (fun f => In f (send_msgs (mkS t0 []) msgs)) (concat Ds).
Proof.
  intros Ht Hd Htot Hes Hin.
  destruct (run_releases es (rinit base)) as (Ds & E1 & E2 & E3). exists Ds. split; [exact E1|].
  apply (runs_once_sent t0 msgs (accepted_chunks (rinit base) es)); auto.
  - apply (NoDup_map_inv tsn). rewrite accepted_chunks_tsn. apply (accepted_nodup_all base N Hbase HN es (rinit base)); [apply (inv_rinit base N Hbase HN)|exact Hes].
  - intros c Hc. apply Hin. now apply (accepted_chunks_in es (rinit base)).
  - intros x. specialize (E3 x). cbn [rinit streams allr map concat count_occ] in E3. lia.
Qed.
End Window.
