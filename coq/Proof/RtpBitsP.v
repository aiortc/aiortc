(* Bit-field and list lemmas shared by the proofs about Model/Rtp.v and Model/Rtcp.v. *)
From Coq Require Import ZArith List Bool Lia.
From AV Require Import Lib.Bytes Lib.BytesP Lib.RtpX.
Import ListNotations.
Local Open Scope Z_scope.

Ltac Zify.zify_post_hook ::= Z.to_euclidean_division_equations.

(* ------------------------------------------------------------ result monad *)
Lemma bind_ok {T U} (r : result T) (f : T -> result U) v : r = Ok v -> bind r f = f v.
Proof. intros ->. reflexivity. Qed.

Lemma bind_benign {T U} (r : result T) (f : T -> result U) :
  benign r -> (forall v, r = Ok v -> benign (f v)) -> benign (bind r f).
Proof. destruct r; cbn; intros H1 H2; auto. Qed.

Lemma bind_inv_ok {T U} (r : result T) (f : T -> result U) w :
  bind r f = Ok w -> exists v, r = Ok v /\ f v = Ok w.
Proof. destruct r; cbn; intros H; try discriminate. eauto. Qed.

Lemma Ok_inj {T} (a b : T) : Ok a = Ok b -> a = b.
Proof. now intros [= ->]. Qed.

(* ------------------------------------------------------------ ranges *)
Lemma inrange_true lo hi x : inrange lo hi x = true <-> lo <= x < hi.
Proof. unfold inrange. rewrite andb_true_iff, Z.leb_le, Z.ltb_lt. tauto. Qed.
Lemma u8ok_true x : u8ok x = true <-> 0 <= x < 256. Proof. apply inrange_true. Qed.
Lemma u16ok_true x : u16ok x = true <-> 0 <= x < 65536. Proof. apply inrange_true. Qed.
Lemma u24ok_true x : u24ok x = true <-> 0 <= x < 16777216. Proof. apply inrange_true. Qed.
Lemma u32ok_true x : u32ok x = true <-> 0 <= x < 4294967296. Proof. apply inrange_true. Qed.
Lemma u64ok_true x : u64ok x = true <-> 0 <= x < 18446744073709551616. Proof. apply inrange_true. Qed.
Lemma i32ok_true x : i32ok x = true <-> -2147483648 <= x < 2147483648. Proof. apply inrange_true. Qed.

Lemma u8ok_intro x : 0 <= x < 256 -> u8ok x = true. Proof. apply u8ok_true. Qed.
Lemma u16ok_intro x : 0 <= x < 65536 -> u16ok x = true. Proof. apply u16ok_true. Qed.
Lemma u32ok_intro x : 0 <= x < 4294967296 -> u32ok x = true. Proof. apply u32ok_true. Qed.
Lemma u64ok_intro x : 0 <= x < 18446744073709551616 -> u64ok x = true. Proof. apply u64ok_true. Qed.
Lemma i32ok_intro x : -2147483648 <= x < 2147483648 -> i32ok x = true. Proof. apply i32ok_true. Qed.

(* ------------------------------------------------------------ shifts and masks *)
Lemma shiftr_div x n : 0 <= n -> Z.shiftr x n = x / 2 ^ n.
Proof. intros H. now apply Z.shiftr_div_pow2. Qed.
Lemma shiftl_mul x n : 0 <= n -> Z.shiftl x n = x * 2 ^ n.
Proof. intros H. now apply Z.shiftl_mul_pow2. Qed.

Lemma land_ones_mod x n : 0 <= n -> Z.land x (Z.ones n) = x mod 2 ^ n.
Proof. intros H. now apply Z.land_ones. Qed.
Lemma land_255 x : Z.land x 255 = x mod 256.
Proof. apply (land_ones_mod x 8). lia. Qed.
Lemma land_65535 x : Z.land x 65535 = x mod 65536.
Proof. apply (land_ones_mod x 16). lia. Qed.
Lemma land_127 x : Z.land x 127 = x mod 128.
Proof. apply (land_ones_mod x 7). lia. Qed.
Lemma land_31 x : Z.land x 31 = x mod 32.
Proof. apply (land_ones_mod x 5). lia. Qed.
Lemma land_15 x : Z.land x 15 = x mod 16.
Proof. apply (land_ones_mod x 4). lia. Qed.
Lemma land_3 x : Z.land x 3 = x mod 4.
Proof. apply (land_ones_mod x 2). lia. Qed.
Lemma land_1 x : Z.land x 1 = x mod 2.
Proof. apply (land_ones_mod x 1). lia. Qed.

(* disjoint `|` is `+` *)
Lemma lor_add x lo k :
  0 <= k -> 0 <= lo < 2 ^ k -> x mod 2 ^ k = 0 -> Z.lor x lo = x + lo.
Proof.
  intros Hk Hlo Hx.
  (* lo is its own residue mod 2^k, a mask under which x vanishes *)
  assert (E : Z.land x lo = 0).
  { rewrite <- (Z.mod_small lo (2 ^ k)), <- Z.land_ones, (Z.land_comm lo), Z.land_assoc by assumption.
    rewrite Z.land_ones, Hx by assumption. apply Z.land_0_l. }
  now rewrite <- Z.lxor_lor, Z.add_nocarry_lxor.
Qed.

(* a field above the k low bits: `(hi << k) | lo` *)
Lemma lor_shiftl hi lo k : 0 <= k -> 0 <= lo < 2 ^ k -> Z.lor (Z.shiftl hi k) lo = hi * 2 ^ k + lo.
Proof.
  intros Hk Hlo. rewrite Z.shiftl_mul_pow2 by assumption. apply (lor_add _ _ k); [lia|lia|]. apply Z.mod_mul. lia.
Qed.

(* three bytes, most significant first *)
Lemma lor_bytes3 a b c :
  0 <= b < 256 -> 0 <= c < 256 -> Z.lor (Z.lor (Z.shiftl a 16) (Z.shiftl b 8)) c = a * 65536 + b * 256 + c.
Proof.
  intros Hb Hc. rewrite (Z.shiftl_mul_pow2 b) by lia. rewrite (lor_shiftl a _ 16) by lia.
  rewrite (lor_add _ c 8) by lia. lia.
Qed.

(* masking a byte with 0x100 - 2^k clears its k low bits *)
Lemma land_high_mask b k :
  0 <= k -> 0 <= b < 256 -> Z.land b (Z.ldiff 255 (Z.ones k)) = b / 2 ^ k * 2 ^ k.
Proof.
  intros Hk Hb. rewrite Z.ldiff_land, Z.land_assoc, land_255, Z.mod_small by assumption.
  rewrite <- Z.ldiff_land, Z.ldiff_ones_r, Z.shiftl_mul_pow2, Z.shiftr_div_pow2 by assumption. reflexivity.
Qed.
Lemma land_128 b : 0 <= b < 256 -> Z.land b 128 = b / 128 * 128.
Proof. apply (land_high_mask b 7). lia. Qed.

(* ... and shifting the rest down reads the high field *)
Lemma shiftr_land_high b k :
  0 <= k -> 0 <= b < 256 -> Z.shiftr (Z.land b (Z.ldiff 255 (Z.ones k))) k = b / 2 ^ k.
Proof.
  intros Hk Hb. rewrite land_high_mask, Z.shiftr_div_pow2 by assumption. apply Z.div_mul.
  apply Z.pow_nonzero; lia.
Qed.
Lemma shiftr_land_240 b : 0 <= b < 256 -> Z.shiftr (Z.land b 240) 4 = b / 16.
Proof. apply (shiftr_land_high b 4). lia. Qed.
Lemma shiftr_land_252 b : 0 <= b < 256 -> Z.shiftr (Z.land b 252) 2 = b / 4.
Proof. apply (shiftr_land_high b 2). lia. Qed.

Lemma testbit_b2z x d : 0 <= d -> Z.land (Z.shiftr x d) 1 = Z.b2z (Z.testbit x d).
Proof.
  intros Hd. rewrite land_1, Z.shiftr_div_pow2 by assumption. symmetry. now apply Z.testbit_spec'.
Qed.

(* ------------------------------------------------------------ lists *)
Lemma firstn_app_exact {T} (a b : list T) : firstn (length a) (a ++ b) = a.
Proof. rewrite firstn_app, Nat.sub_diag, firstn_all. cbn [firstn]. now rewrite app_nil_r. Qed.
Lemma skipn_app_exact {T} (a b : list T) : skipn (length a) (a ++ b) = b.
Proof. rewrite skipn_app, Nat.sub_diag, skipn_all. reflexivity. Qed.
Lemma firstn_app_exact' {T} (a b : list T) n : n = length a -> firstn n (a ++ b) = a.
Proof. intros ->. apply firstn_app_exact. Qed.
Lemma skipn_app_exact' {T} (a b : list T) n : n = length a -> skipn n (a ++ b) = b.
Proof. intros ->. apply skipn_app_exact. Qed.

Lemma len_length l : len l = Z.of_nat (length l). Proof. reflexivity. Qed.
Lemma zlen_length {T} (l : list T) : zlen l = Z.of_nat (length l). Proof. reflexivity. Qed.

Lemma length_zeros n : length (zeros n) = n.
Proof. unfold zeros. apply repeat_length. Qed.

Lemma u32s_some data pos n :
  (pos + 4 * n <= length data)%nat -> exists l, u32s data pos n = Some l.
Proof.
  revert pos. induction n as [|n IH]; intros pos H; cbn [u32s]; [eauto|].
  destruct (u32_some data pos) as [x ->]; [lia|].
  destruct (IH (4 + pos)%nat) as [l ->]; [lia|]. eauto.
Qed.

(* reading back what be32s wrote, after any prefix and before any suffix *)
Lemma u32s_be32s l : forall b pre post,
  be32s l = Ok b -> u32s (pre ++ b ++ post) (length pre) (length l) = Some l.
Proof.
  induction l as [|x l IH]; intros b pre post H; cbn [be32s u32s length] in *; [reflexivity|].
  destruct (u32ok x) eqn:Hx; [|discriminate]. apply u32ok_true in Hx.
  destruct (be32s l) as [r| | |] eqn:Hr; cbn [bind] in H; try discriminate.
  apply Ok_inj in H; subst b. rewrite <- app_assoc.
  rewrite u32_at by assumption.
  replace (pre ++ be32 x ++ r ++ post) with ((pre ++ be32 x) ++ r ++ post) by now rewrite <- app_assoc.
  replace (4 + length pre)%nat with (length (pre ++ be32 x)) by (rewrite app_length, length_be32; lia).
  now rewrite (IH r (pre ++ be32 x) post eq_refl).
Qed.

Lemma be32s_length l b : be32s l = Ok b -> length b = (4 * length l)%nat.
Proof.
  revert b. induction l as [|x l IH]; intros b H; cbn [be32s length] in *.
  - apply Ok_inj in H; subst b. reflexivity.
  - destruct (u32ok x); [|discriminate].
    destruct (be32s l) as [r| | |] eqn:Hr; cbn [bind] in H; try discriminate.
    apply Ok_inj in H; subst b. rewrite app_length, length_be32, (IH r eq_refl). lia.
Qed.

Lemma be32s_ok l : Forall (fun x => 0 <= x < 4294967296) l -> exists b, be32s l = Ok b.
Proof.
  induction 1 as [|x l Hx _ [b Hb]]; cbn [be32s]; [eauto|].
  rewrite u32ok_intro by assumption. rewrite Hb. cbn [bind]. eauto.
Qed.

Lemma be32s_bytes_ok l b : be32s l = Ok b -> bytes_ok b.
Proof.
  revert b. induction l as [|x l IH]; intros b H; cbn [be32s] in *.
  - apply Ok_inj in H; subst b. apply bytes_ok_nil.
  - destruct (u32ok x); [|discriminate].
    destruct (be32s l) as [r| | |] eqn:Hr; cbn [bind] in H; try discriminate.
    apply Ok_inj in H; subst b. apply bytes_ok_app. split; [apply be32_ok|now apply IH].
Qed.

(* ------------------------------------------------------------ reads in a laid-out buffer *)
Lemma u16_at' data pre n post i :
  data = pre ++ be16 n ++ post -> i = length pre -> 0 <= n < 65536 -> u16 data i = Some n.
Proof. intros -> -> H. now apply u16_at. Qed.
Lemma u32s_at' data pre l b post i n :
  data = pre ++ b ++ post -> be32s l = Ok b -> i = length pre -> n = length l -> u32s data i n = Some l.
Proof. intros -> H -> ->. now apply u32s_be32s. Qed.
Lemma slice_at' data pre mid post a b :
  data = pre ++ mid ++ post -> a = length pre -> b = (length pre + length mid)%nat -> slice data a b = mid.
Proof. intros -> -> ->. apply slice_app_mid. Qed.
Lemma from_at' data pre post i : data = pre ++ post -> i = length pre -> from data i = post.
Proof. intros -> ->. apply from_app. Qed.

Lemma last_byte_snoc l x : last_byte (l ++ [x]) = Some x.
Proof.
  unfold last_byte. destruct (l ++ [x]) eqn:E; [now destruct l|]. rewrite <- E.
  rewrite app_length. cbn [length]. replace (length l + 1 - 1)%nat with (length l) by lia.
  rewrite nth_error_app2 by lia. now rewrite Nat.sub_diag.
Qed.
