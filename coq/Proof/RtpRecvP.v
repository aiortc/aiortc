(* The video receive path (Model/RtpRecv.v): what reaches the NACK generator and the jitter buffer,
   and the decoder-queue / RTCP outputs in terms of the component models. *)
From Coq Require Import ZArith List Bool Lia.
From AV Require Import Lib.Bytes Lib.BytesP Lib.RtpX Gen.Utils Gen.RtpConst Model.Rtp Model.RtpRecv.
From AV Require Lib.CodecX Model.Jitter Proof.JitterP Proof.JitterInvP.
From AV Require Import Proof.SerialP Proof.RtpRecvNackP Proof.RtpRecvJbP.
Import ListNotations.
Local Open Scope Z_scope.

Definition is_some {T} (o : option T) : bool := match o with Some _ => true | None => false end.

(* the packet (after RTX unwrapping), its codec's payload type and kind; None = dropped / raised *)
Definition media_of (c : config) (p : rtp) : option (rtp * Z * ckind) :=
  match unwrap_stage c p with Ok (Some x) => Some x | _ => None end.

(* lines 526-530 *)
Definition data_of (k : ckind) (q : rtp) : CodecX.result bytes := payload_data k (payload q).

Definition jpkt_of (q : rtp) (d : bytes) : Jitter.pkt := Jitter.mkPkt (sequence_number q) (timestamp q) d.

Definition jb_input (c : config) (p : rtp) : list Jitter.pkt :=
  match media_of c p with
  | Some (q, _, k) => match data_of k q with CodecX.Ok d => [jpkt_of q d] | _ => [] end
  | None => []
  end.

Definition nack_input (c : config) (p : rtp) : list Z :=
  match media_of c p with Some (q, _, _) => [sequence_number q] | None => [] end.

Inductive aligned (has_rtcp : bool) : list rout -> list Jitter.out -> Prop :=
| al_nil : aligned has_rtcp [] []
| al_skip o outs jouts :
    o_pli o = None -> o_frame o = None -> aligned has_rtcp outs jouts -> aligned has_rtcp (o :: outs) jouts
| al_step o outs pli fr jouts :
    is_some (o_pli o) = pli && has_rtcp ->
    match fr with
    | Some f => exists cpt t, o_frame o = Some (cpt, t, Jitter.fdata f)
    | None => o_frame o = None
    end ->
    aligned has_rtcp outs jouts -> aligned has_rtcp (o :: outs) ((pli, fr) :: jouts).

Lemma handle_factor c s a s' o :
  handle_rtp c s a = Ok (s', o) ->
  match media_of c a with
  | None => s' = s /\ o = quiet
  | Some (q, cpt, k) =>
      exists missed,
        nack_add (nack s) (sequence_number q) = Some (nack s', missed) /\
        o_nack o = (if missed
                    then match rtcp_ssrc c with
                         | Some me => Some (me, ssrc q, sorted_set (missing (nack s')))
                         | None => None
                         end
                    else None) /\
        match data_of k q with
        | CodecX.Ok d =>
            exists pli fr,
              Jitter.add (jbuf s) (jpkt_of q d) = Jitter.Ok (jbuf s', (pli, fr)) /\
              is_some (o_pli o) = pli && is_some (rtcp_ssrc c) /\
              match fr with
              | Some f => exists t, o_frame o = Some (cpt, t, Jitter.fdata f)
              | None => o_frame o = None
              end
        | _ => jbuf s' = jbuf s /\ o_pli o = None /\ o_frame o = None
        end
  end.
Proof.
  unfold handle_rtp, media_of. destruct (unwrap_stage c a) as [[[[q cpt] k]|]| | |]; cbn [bind]; try discriminate.
  2:{ intros E. injection E as <- <-. auto. }
  unfold media_stage, data_of, jpkt_of.
  destruct (nack_add (nack s) (sequence_number q)) as [[g missed]|]; [|discriminate].
  intros E. exists missed.
  destruct (payload_data k (payload q)) as [d| | |]; try discriminate.
  2:{ injection E as <- <-. cbn [nack o_nack jbuf o_pli o_frame]. auto. }
  destruct (Jitter.add (jbuf s) (Jitter.mkPkt (sequence_number q) (timestamp q) d)) as [[jb' [pli fr]]| | |];
    try discriminate.
  destruct fr as [f|].
  - destruct (ts_map (tmap s) (Jitter.fts f)) as [tm' t]. injection E as <- <-. cbn [nack o_nack jbuf o_pli o_frame].
    split; [reflexivity|]. split; [reflexivity|]. exists pli, (Some f). split; [reflexivity|].
    split; [destruct pli, (rtcp_ssrc c); reflexivity|]. exists t. reflexivity.
  - injection E as <- <-. cbn [nack o_nack jbuf o_pli o_frame].
    split; [reflexivity|]. split; [reflexivity|]. exists pli, None. split; [reflexivity|].
    split; [destruct pli, (rtcp_ssrc c); reflexivity|reflexivity].
Qed.

Lemma run_cons c s a l s' outs : run c s (a :: l) = Ok (s', outs) ->
  exists s1 o outs', handle_rtp c s a = Ok (s1, o) /\ run c s1 l = Ok (s', outs') /\ outs = o :: outs'.
Proof.
  cbn [run]. destruct (handle_rtp c s a) as [[s1 o]| | |]; cbn [bind fst snd]; try discriminate.
  destruct (run c s1 l) as [[s2 outs']| | |] eqn:ER; cbn [bind fst snd]; try discriminate.
  intros E. injection E as <- <-. exists s1, o, outs'. auto.
Qed.

Theorem run_factor c l : forall s s' outs,
  run c s l = Ok (s', outs) ->
  nack_run (nack s) (flat_map (nack_input c) l) = Some (nack s') /\
  exists jouts,
    Jitter.run (jbuf s) (flat_map (jb_input c) l) = Jitter.Ok (jbuf s', jouts) /\
    aligned (is_some (rtcp_ssrc c)) outs jouts.
Proof.
  induction l as [|a l IH]; intros s s' outs ER.
  - injection ER as <- <-. split; [reflexivity|]. exists []. split; [reflexivity|constructor].
  - apply run_cons in ER. destruct ER as (s1 & o & outs' & EH & ER' & ->).
    destruct (IH _ _ _ ER') as (N' & jouts' & J' & A').
    pose proof (handle_factor c s a s1 o EH) as HF.
    cbn [flat_map]. unfold nack_input at 1, jb_input at 1.
    destruct (media_of c a) as [[[q cpt] k]|].
    + destruct HF as (missed & EN & _ & HD). cbn [app nack_run]. rewrite EN. split; [exact N'|].
      destruct (data_of k q) as [d| | |].
      (* a payload the depayloader refuses leaves the jitter buffer alone *)
      2-4: destruct HD as (Ej & Ep & Ef); cbn [app]; rewrite <- Ej; exists jouts'; split; [exact J'|apply al_skip; assumption].
      destruct HD as (pli & fr & EA & Ep & Ef). cbn [app Jitter.run]. rewrite EA. cbn [Jitter.bind fst snd].
      rewrite J'. cbn [Jitter.bind fst snd]. eexists. split; [reflexivity|].
      apply al_step; [exact Ep| |exact A']. destruct fr as [f|]; [|exact Ef].
      destruct Ef as [t Ef]. exists cpt, t. exact Ef.
    + destruct HF as [-> ->]. cbn [app]. split; [exact N'|]. exists jouts'. split; [exact J'|].
      apply al_skip; [reflexivity|reflexivity|exact A'].
Qed.

(* a fresh video receiver: its jitter buffer is JitterBuffer(capacity=128, is_video=True) run on `jb_input` *)
Lemma cap_ok_video : JitterP.cap_ok VIDEO_CAPACITY.
Proof. exists 7. split; [lia|reflexivity]. Qed.

Corollary video_run_factor c l s outs : run c init_video l = Ok (s, outs) ->
  exists jouts, JitterInvP.reaches VIDEO_CAPACITY 0 true (flat_map (jb_input c) l) (jbuf s) jouts /\
                aligned (is_some (rtcp_ssrc c)) outs jouts.
Proof.
  intros ER. destruct (run_factor c l _ _ _ ER) as (_ & jouts & EJ & AL). exists jouts. split; [|exact AL].
  eexists. split; [reflexivity|exact EJ].
Qed.

Definition wire_ok (p : rtp) : Prop := in16 (sequence_number p) /\ bytes_ok (payload p).

Lemma media_of_in16 c p q cpt k : wire_ok p -> media_of c p = Some (q, cpt, k) -> in16 (sequence_number q).
Proof.
  intros [Hs Hb]. unfold media_of, unwrap_stage.
  destruct (assoc (codecs c) (payload_type p)) as [k0|]; [|discriminate].
  destruct k0 as [| | |apt]; try (intros E; injection E as <- _ _; exact Hs).
  destruct (assoc (rtx_ssrc c) (ssrc p)) as [os|]; [|discriminate].
  destruct apt as [a|]; [|discriminate].
  destruct (Nat.ltb (length (payload p)) 2); [discriminate|].
  destruct (assoc (codecs c) a) as [k1|]; [|discriminate].
  unfold unwrap_rtx. destruct (u16 (payload p) 0) as [v|] eqn:Ev; cbn [bind]; [|discriminate].
  intros E. injection E as <- _ _. cbn [sequence_number]. exact (u16_range _ _ _ Hb Ev).
Qed.

Lemma nack_inputs_in16 c l : Forall wire_ok l -> Forall in16 (flat_map (nack_input c) l).
Proof.
  induction 1 as [|p l Hp _ IH]; [constructor|]. cbn [flat_map]. apply Forall_app. split; [|exact IH].
  unfold nack_input. destruct (media_of c p) as [[[q cpt] k]|] eqn:E; [|constructor].
  constructor; [|constructor]. eapply media_of_in16; eassumption.
Qed.

Definition nack_fine (o : rout) : Prop :=
  match o_nack o with
  | Some (_, _, lost) => (length lost <= 128)%nat /\ increasing lost
  | None => True
  end.

Lemma run_nacks c l : forall s s' outs,
  NInv (nack s) -> Forall wire_ok l -> run c s l = Ok (s', outs) -> NInv (nack s') /\ Forall nack_fine outs.
Proof.
  induction l as [|a l IH]; intros s s' outs HI HW ER.
  - injection ER as <- <-. split; [exact HI|constructor].
  - inversion HW as [|? ? Ha HW']; subst.
    apply run_cons in ER. destruct ER as (s1 & o & outs' & EH & ER' & ->).
    pose proof (handle_factor c s a s1 o EH) as HF.
    assert (H1 : NInv (nack s1) /\ nack_fine o).
    { destruct (media_of c a) as [[[q cpt] k]|] eqn:EM.
      - destruct HF as (missed & EN & Eo & _).
        destruct (nack_add_spec (nack s) (sequence_number q) HI (media_of_in16 c a q cpt k Ha EM))
          as (g' & m' & EN' & HI' & _).
        rewrite EN in EN'. injection EN' as <- <-. split; [exact HI'|].
        unfold nack_fine. rewrite Eo. destruct missed; [|exact I]. destruct (rtcp_ssrc c); [|exact I].
        split; [exact (nack_list_bounded _ HI')|apply increasing_sorted_set].
      - destruct HF as [-> ->]. split; [exact HI|exact I]. }
    destruct H1 as [HI1 Ho]. destruct (IH _ _ _ HI1 HW' ER') as [HI2 Hos]. split; [exact HI2|].
    constructor; assumption.
Qed.

Section Frames.
Variable jframes : list (list Jitter.pkt).

Definition whole_data (d : bytes) : Prop :=
  exists g, In g jframes /\ d = concat (map Jitter.pdata g).
Definition tail_data (d : bytes) : Prop :=
  exists g pre ps, In g jframes /\ g = pre ++ ps /\ ps <> [] /\ d = concat (map Jitter.pdata ps).
Definition part_data (d : bytes) : Prop :=
  exists g pre ps post, In g jframes /\ g = pre ++ ps ++ post /\ ps <> [] /\ JitterInvP.consec ps /\
                        d = concat (map Jitter.pdata ps).

Fixpoint pscan (clean : bool) (outs : list rout) : Prop :=
  match outs with
  | [] => True
  | o :: t =>
      let clean' := clean && negb (is_some (o_pli o)) in
      match o_frame o with
      | Some (_, _, d) => (if clean' then whole_data d else tail_data d) /\ pscan true t
      | None => pscan clean' t
      end
  end.

Lemma aligned_scan outs jouts : aligned true outs jouts ->
  forall clean, scan jframes clean jouts -> pscan clean outs.
Proof.
  induction 1 as [|o outs jouts Ep Ef _ IH|o outs pli fr jouts Ep Ef _ IH]; intros clean HS.
  - exact I.
  - cbn [pscan]. rewrite Ep, Ef. cbn [is_some negb]. rewrite andb_true_r. apply IH. exact HS.
  - cbn [pscan]. cbn [scan] in HS. rewrite andb_true_r in Ep. rewrite Ep. destruct fr as [f|].
    + destruct Ef as (cpt & t & ->). destruct HS as [HW HS]. split; [|apply IH; exact HS].
      destruct (clean && negb pli).
      * destruct HW as (g & Hg & _ & _ & Hd). exists g. auto.
      * destruct HW as (g & pre & ps & Hg & Eg & Hne & _ & Hd). exists g, pre, ps. auto.
    + rewrite Ef. apply IH. exact HS.
Qed.

Lemma aligned_parts b outs jouts : aligned b outs jouts -> parts jframes jouts ->
  Forall (fun o => match o_frame o with Some (_, _, d) => part_data d | None => True end) outs.
Proof.
  induction 1 as [|o outs jouts Ep Ef _ IH|o outs pli fr jouts Ep Ef _ IH]; intros HP.
  - constructor.
  - constructor; [rewrite Ef; exact I|apply IH; exact HP].
  - inversion HP as [|? ? H1 H2]; subst. constructor; [|apply IH; exact H2].
    cbn [snd] in H1. destruct fr as [f|]; [|rewrite Ef; exact I].
    destruct Ef as (cpt & t & ->). destruct H1 as (g & pre & ps & post & Hg & Eg & (Hne & _ & Hd) & Hc).
    exists g, pre, ps, post. auto.
Qed.

End Frames.

(* a NACK goes out whenever the missing set grows (when an RTCP SSRC is set), and it lists the
   whole missing set *)
Theorem nack_emitted c s a s' o q cpt k me :
  NInv (nack s) -> wire_ok a -> handle_rtp c s a = Ok (s', o) -> media_of c a = Some (q, cpt, k) ->
  rtcp_ssrc c = Some me ->
  (exists x, In x (missing (nack s')) /\ ~ In x (missing (nack s))) ->
  o_nack o = Some (me, ssrc q, sorted_set (missing (nack s'))).
Proof.
  intros HI Ha EH EM Eme (x & Hx & Hnx). pose proof (handle_factor c s a s' o EH) as HF. rewrite EM in HF.
  destruct HF as (missed & EN & Eo & _). rewrite Eo, Eme.
  destruct (nack_add_spec (nack s) (sequence_number q) HI (media_of_in16 c a q cpt k Ha EM))
    as (g' & m' & EN' & _ & Hspec).
  rewrite EN in EN'. injection EN' as <- <-.
  destruct (max_seq (nack s)) as [m|].
  - destruct Hspec as (_ & Hchar & Hmiss). apply Hchar in Hx.
    destruct Hx as (_ & _ & _ & [Hold|[Hgt Hsk]]); [contradiction|].
    assert (missed = true) as ->; [|reflexivity].
    apply Hmiss. split; [exact Hgt|]. unfold skipped in Hsk. lia.
  - destruct Hspec as (_ & Hm & _). rewrite Hm in Hx. destruct Hx.
Qed.
