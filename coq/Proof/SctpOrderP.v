(* C01 / C06: one ordered stream.  M is the list of messages sent on it, as fragment lists.
   - In order: for EVERY arrival order of distinct chunks of M (loss = never arriving; duplicates are
     filtered before the stream sees them, see SctpDupP) the stream hands over a prefix of M
     (ordered_prefix), and the whole of M once every chunk has arrived (ordered_complete).
   - With FORWARD-TSN chunks in between, which let messages behind the delivery point through and
     prune the queue, what comes out is still in sending order and nothing comes out twice
     (fwd_ordered).
   All of it rests on one description of a poll of a queue of ordered chunks (pops_ordered) and on
   head_message: in a sorted queue of chunks of M a complete run at the head is a whole message. *)
From Coq Require Import ZArith List Bool Lia ZifyBool Arith.
From AV Require Import Lib.Bytes Gen.Utils Gen.SctpConst Model.SctpRecv Proof.SerialP Proof.SctpRecvP Proof.SctpC01P Proof.SctpDupP.
From AV Require Import Proof.SctpPopP.
Import ListNotations.
Local Open Scope Z_scope.

Ltac Zify.zify_post_hook ::= Z.to_euclidean_division_equations.

Definition offc (base : Z) (c : chunk) : Z := off base (tsn c).

Definition dchunk : chunk := mkChunk 0 0 0 false false false 0 [].
Definition msgf (f : list chunk) : message := let c := List.last f dchunk in (sid c, ppid c, join_data f).

(* msgf is SctpRecvP.run_msg *)
Lemma msgf_run c r : msgf (rev (c :: r)) = (sid c, ppid c, join_data (rev (c :: r))).
Proof. exact (run_msg_rev c r). Qed.

Lemma last_in {A} (l : list A) d : l <> [] -> In (List.last l d) l.
Proof.
  induction l as [|a l IH]; [congruence|]. intros _. destruct l as [|b l]; [now left|]. right. apply IH. discriminate.
Qed.
Lemma skipn_nth {A} (l : list A) : forall k x, nth_error l k = Some x -> skipn k l = x :: skipn (S k) l.
Proof. induction l as [|a l IH]; intros [|k] x H; cbn in *; try discriminate; [now injection H as ->|now apply IH]. Qed.
Lemma firstn_S_nth {A} (l : list A) : forall i x, nth_error l i = Some x -> firstn (S i) l = firstn i l ++ [x].
Proof.
  induction l as [|a l IH]; intros [|i] x H; cbn in *; try discriminate; [now injection H as ->|].
  f_equal. now apply IH.
Qed.
Lemma nth_error_firstn {A} (l : list A) : forall i a, (a < i)%nat -> nth_error (firstn i l) a = nth_error l a.
Proof.
  induction l as [|x l IH]; intros [|i] [|a] H; cbn; try reflexivity; try lia. apply IH. lia.
Qed.
Lemma in_firstn {A} (l : list A) i x : In x (firstn i l) -> exists a, (a < i)%nat /\ nth_error l a = Some x.
Proof.
  intros Hx. apply In_nth_error in Hx as (a & Ha).
  assert (Hai : (a < i)%nat).
  { assert (a < length (firstn i l))%nat by (apply nth_error_Some; congruence). rewrite firstn_length in H. lia. }
  exists a. split; [exact Hai|]. now rewrite nth_error_firstn in Ha.
Qed.
Lemma firstn_add {A} : forall n1 n2 (l : list A), firstn (n1 + n2) l = firstn n1 l ++ firstn n2 (skipn n1 l).
Proof. induction n1 as [|n1 IH]; intros n2 [|a l]; cbn; try reflexivity; [now rewrite firstn_nil|]. f_equal. apply IH. Qed.
Lemma skipn_add {A} : forall k n (l : list A), skipn n (skipn k l) = skipn (k + n) l.
Proof. induction k as [|k IH]; intros n [|a l]; cbn; try reflexivity; [now rewrite skipn_nil|]. apply IH. Qed.
Lemma nth_error_skipn' {A} : forall k a (l : list A), nth_error (skipn k l) a = nth_error l (k + a).
Proof. induction k as [|k IH]; intros a [|x l]; cbn; try reflexivity; [now destruct a|]. apply IH. Qed.

(* The scan over a queue of ordered chunks never sets a chunk aside: what it leaves is a suffix of the
   queue, and what it delivers are the whole runs in front of that suffix. *)

(* the candidate run of an ordered stream: collected in ordered mode, begun with a fragment h that
   passed the sequence-number test *)
Definition orun (run : run_state) (seq : Z) : Prop :=
  match run with
  | None => True
  | Some (_, _, o) => o = true /\ exists h, run_from h run /\ uint16_gt (sseq h) seq = false
  end.

Lemma orun_joins run c seq r e o : orun run seq -> joins run c seq r e o -> unordered c = false ->
  o = true /\ e = tsn c /\ exists h, chain h (rev (c :: r)) c /\ uint16_gt (sseq h) seq = false.
Proof.
  intros Hrun J Hu. destruct run as [[[r' e'] o']|]; cbn [joins orun] in *.
  - destruct J as [[= -> -> ->] Et]. apply Z.eqb_eq in Et. destruct Hrun as (-> & h & Hr & Hg).
    destruct r as [|p r]; [destruct Hr|]. destruct Hr as (Hc & Hl & ->).
    split; [reflexivity|]. split; [now symmetry|]. exists h. split; [|exact Hg].
    change (rev (c :: p :: r)) with (rev (p :: r) ++ [c]). exact (chain_next h _ p c Hc Hl Et).
  - destruct J as (Hf & Hg & -> & -> & ->). rewrite Hu in *. do 2 (split; [reflexivity|]).
    exists c. split; [exact (chain_first c Hf)|exact Hg].
Qed.

(* whole messages delivered one after the other while the expected sequence number goes from seq to s:
   the first fragment h of each passed the test, its last fragment p advanced the number if it carried it *)
Fixpoint delivers (seq : Z) (fs : list (list chunk)) (s : Z) : Prop :=
  match fs with
  | [] => s = seq
  | f :: fs' => exists h p, chain h f p /\ last p = true /\ uint16_gt (sseq h) seq = false /\
                  delivers (if sseq p =? seq then uint16_add seq 1 else seq) fs' s
  end.

Lemma pops_ordered kept run rest seq res : pops kept run rest seq res ->
  Forall (fun c => unordered c = false) rest -> orun run seq ->
  exists fs run' rest',
    retained [] run rest = concat fs ++ retained [] run' rest' /\
    fst (fst res) = retained kept run' rest' /\ snd res = map msgf fs /\
    delivers seq fs (snd (fst res)) /\ orun run' (snd (fst res)) /\ stops run' rest' (snd (fst res)).
Proof.
  induction 1 as [kept run rest seq Hs|kept c rest seq res Hf Hu _ IH|kept r e c rest seq res Ht _ IH
                 |kept run c rest seq r e o res J El _ IH|kept run c rest seq r e o l s ms J El _ IH]; intros Hord Hrun.
  - exists [], run, rest. cbn. auto 6.
  - pose proof (Forall_inv Hord). cbv beta in *. congruence.
  - destruct Hrun as [Ho _]. discriminate.
  - pose proof (Forall_inv Hord) as Hu. pose proof (Forall_inv_tail Hord) as Hord'.
    destruct (orun_joins _ _ _ _ _ _ Hrun J Hu) as (-> & -> & h & Hc & Hg).
    destruct IH as (fs & run' & rest' & E & IH'); [exact Hord'| |].
    + split; [reflexivity|]. exists h. cbn [run_from]. auto.
    + exists fs, run', rest'. rewrite <- (retained_more _ _ _ _ _ _ _ _ (tsn_plus_one (tsn c)) J). split; [exact E|exact IH'].
  - pose proof (Forall_inv Hord) as Hu. pose proof (Forall_inv_tail Hord) as Hord'.
    destruct (orun_joins _ _ _ _ _ _ Hrun J Hu) as (-> & -> & h & Hc & Hg).
    destruct IH as (fs & run' & rest' & E & El' & Em & Hd & IH'); [exact Hord'|exact I|].
    exists (rev (c :: r) :: fs), run', rest'. cbn [fst snd map concat delivers andb] in *.
    split; [rewrite (retained_joins _ _ _ _ _ _ _ _ J), <- app_assoc, <- E; reflexivity|].
    split; [exact El'|]. split; [now rewrite msgf_run, Em|]. split; [|exact IH']. exists h, c. auto.
Qed.

(* l is a queue on which the scan of an ordered stream has come to a stop, expecting seq *)
Definition stopped (l : list chunk) (seq : Z) : Prop :=
  exists run rest, l = retained [] run rest /\ orun run seq /\ stops run rest seq.

Lemma pop_ordered Q seq l s ms : Forall (fun c => unordered c = false) Q -> pop_messages Q seq = (l, s, ms) ->
  exists fs, Q = concat fs ++ l /\ ms = map msgf fs /\ delivers seq fs s /\ stopped l s.
Proof.
  intros Hord H. pose proof (pop_loop_pops Q [] None seq) as P. unfold pop_messages in H. rewrite H in P.
  destruct (pops_ordered _ _ _ _ _ P Hord I) as (fs & run & rest & E & El & Em & D & R). cbn [fst snd] in *.
  exists fs. split; [now rewrite El|]. do 2 (split; [assumption|]). exists run, rest. auto.
Qed.

Section Sorted.
Variable base N : Z.
Hypothesis Hbase : r32 base.
Hypothesis HN : 0 <= N < 2147483648.
Local Notation offc := (offc base).

Fixpoint sorted (l : list chunk) : Prop :=
  match l with [] => True | c :: l' => Forall (fun x => offc c < offc x) l' /\ sorted l' end.

Lemma sorted_app l1 l2 : sorted l1 -> sorted l2 -> (forall a b, In a l1 -> In b l2 -> offc a < offc b) -> sorted (l1 ++ l2).
Proof.
  induction l1 as [|c l1 IH]; cbn [app sorted]; intros S1 S2 H; [exact S2|].
  destruct S1 as [F1 S1]. split.
  - apply Forall_app. split; [exact F1|]. apply Forall_forall. intros x Hx. apply H; [now left|exact Hx].
  - apply IH; auto. intros a b Ha Hb. apply H; [now right|exact Hb].
Qed.

Lemma sorted_app_inv l1 l2 : sorted (l1 ++ l2) -> sorted l2 /\ forall a b, In a l1 -> In b l2 -> offc a < offc b.
Proof.
  induction l1 as [|c l1 IH]; cbn [app sorted]; [intros S; split; [exact S|intros a b []]|].
  intros [F S]. destruct (IH S) as [S2 H]. split; [exact S2|]. intros a b [<-|Ha] Hb; [|now apply H].
  rewrite Forall_forall in F. apply F, in_or_app. now right.
Qed.

Lemma sorted_beyond v c l : sorted (c :: l) -> v < offc c -> forall x, In x (c :: l) -> v < offc x.
Proof. intros [F _] H x [<-|Hx]; [exact H|]. rewrite Forall_forall in F. specialize (F x Hx). lia. Qed.

Lemma sorted_last_max l d : sorted l -> forall x, In x l -> offc x <= offc (List.last l d).
Proof.
  induction l as [|c l IH]; intros S x Hx; [destruct Hx|]. destruct S as [F S].
  destruct l as [|b l']; [destruct Hx as [<-|[]]; cbn; lia|].
  change (List.last (c :: b :: l') d) with (List.last (b :: l') d).
  destruct Hx as [<-|Hx]; [|now apply IH].
  rewrite Forall_forall in F. pose proof (F b (or_introl eq_refl)). pose proof (IH S b (or_introl eq_refl)). lia.
Qed.

Lemma add_scan_sorted c : forall l, sorted l -> Forall (fun x => inw base N (tsn x)) l -> inw base N (tsn c) ->
  (forall x, In x l -> offc x <> offc c) -> (exists x, In x l /\ offc c < offc x) ->
  exists l', add_scan l c = AddOk l' /\ sorted l' /\ forall x, In x l' <-> In x (c :: l).
Proof.
  induction l as [|r l IH]; intros S I Ic Hne (w & Hw & Hlt); [destruct Hw|]. cbn [add_scan].
  destruct S as [F S]. pose proof (Forall_inv I) as Ir. pose proof (Forall_inv_tail I) as Il. cbv beta in Ir.
  assert (Hrc : offc r <> offc c) by (apply Hne; now left).
  destruct (Z.eqb_spec (tsn r) (tsn c)) as [E|_]; [unfold offc in Hrc; congruence|].
  pose proof (gt_off base N Hbase HN _ _ Ir Ic) as G. fold (offc c) (offc r) in G.
  destruct (uint32_gt (tsn r) (tsn c)).
  - exists (c :: r :: l). split; [reflexivity|]. split; [|reflexivity].
    split; [|split; assumption]. constructor; [now apply G|].
    eapply Forall_impl; [|exact F]. intros x Hx. cbv beta in *. lia.
  - assert (G' : offc r < offc c) by lia.
    destruct Hw as [<-|Hw]; [lia|].
    destruct (IH S Il Ic (fun x Hx => Hne x (or_intror Hx)) (ex_intro _ w (conj Hw Hlt))) as (l2 & -> & S2 & In2).
    exists (r :: l2). split; [reflexivity|]. split.
    + split; [|exact S2]. apply Forall_forall. intros x Hx. apply In2 in Hx as [<-|Hx]; [exact G'|].
      rewrite Forall_forall in F. now apply F.
    + intros x. cbn [In]. rewrite In2. cbn [In]. tauto.
Qed.

Lemma add_chunk_sorted c l : sorted l -> Forall (fun x => inw base N (tsn x)) l -> inw base N (tsn c) ->
  (forall x, In x l -> offc x <> offc c) ->
  exists l', add_chunk l c = AddOk l' /\ sorted l' /\ forall x, In x l' <-> In x (c :: l).
Proof.
  intros S I Ic Hne. unfold add_chunk. destruct l as [|a l0] eqn:El.
  - exists [c]. split; [reflexivity|]. split; [cbn; auto|reflexivity].
  - rewrite <- El in *. assert (Hl : In (List.last l c) l) by (apply last_in; congruence).
    assert (Il : inw base N (tsn (List.last l c))) by (rewrite Forall_forall in I; now apply I).
    pose proof (gt_off base N Hbase HN _ _ Ic Il) as G. fold (offc (List.last l c)) (offc c) in G.
    destruct (uint32_gt (tsn c) (tsn (List.last l c))).
    + exists (l ++ [c]). split; [reflexivity|]. split.
      * apply sorted_app; [exact S|cbn; auto|]. intros x y Hx [<-|[]].
        pose proof (sorted_last_max l c S x Hx). pose proof (proj1 G eq_refl). lia.
      * intros x. rewrite in_app_iff. cbn [In]. tauto.
    + apply add_scan_sorted; auto. exists (List.last l c). split; [exact Hl|]. pose proof (Hne _ Hl). lia.
Qed.
End Sorted.

Section Ordered.
Variable base N : Z.
Hypothesis Hbase : r32 base.
Hypothesis HN : 0 <= N < 2147483648.
(* the messages sent on this stream, as fragment lists, in sending order; o j is the
   TSN offset (from `base`) of the first fragment of message j; s0 the SSN of message 0 *)
Variable M : list (list chunk).
Variable o : nat -> Z.
Variable s0 : Z.

Local Notation offc := (offc base).
Local Notation sorted := (sorted base).

Definition ssn (j : nat) : Z := (s0 + Z.of_nat j) mod 65536.

Record chunk_ok (j i : nat) (f : list chunk) (c : chunk) : Prop := {
  ok_un : unordered c = false;
  ok_sseq : sseq c = ssn j;
  ok_first : first c = Nat.eqb i 0;
  ok_last : last c = Nat.eqb (S i) (length f);
  ok_inw : inw base N (tsn c);
  ok_off : offc c = o j + Z.of_nat i }.

Hypothesis wfM : forall j f, nth_error M j = Some f ->
  f <> [] /\ o j + Z.of_nat (length f) <= o (S j) /\ forall i c, nth_error f i = Some c -> chunk_ok j i f c.

Lemma wf_ok j f i c : nth_error M j = Some f -> nth_error f i = Some c -> chunk_ok j i f c.
Proof. intros Hf. exact (proj2 (proj2 (wfM j f Hf)) i c). Qed.

Definition at_ (j i : nat) (c : chunk) : Prop := exists f, nth_error M j = Some f /\ nth_error f i = Some c.

Lemma o_mono : forall d j f, nth_error M j = Some f -> (j + d < length M)%nat ->
  o j + Z.of_nat (length f) <= o (j + S d)%nat.
Proof.
  induction d as [|d IH]; intros j f Hf Hl.
  - replace (j + 1)%nat with (S j) by lia. exact (proj1 (proj2 (wfM j f Hf))).
  - assert (Hl' : (j + d < length M)%nat) by lia. pose proof (IH j f Hf Hl') as H1.
    destruct (nth_error M (j + S d)) as [f2|] eqn:E2; [|apply nth_error_None in E2; lia].
    pose proof (proj1 (proj2 (wfM _ f2 E2))) as H2. replace (j + S (S d))%nat with (S (j + S d)) by lia. lia.
Qed.

Lemma at_ok j i c : at_ j i c -> exists f, nth_error M j = Some f /\ nth_error f i = Some c /\ chunk_ok j i f c.
Proof. intros (f & Hf & Hc). exists f. split; [exact Hf|]. split; [exact Hc|]. exact (wf_ok j f i c Hf Hc). Qed.

Lemma at_lt j i c j' i' c' : at_ j i c -> at_ j' i' c' -> (j < j')%nat -> offc c < offc c'.
Proof.
  intros A A' Hlt. destruct (at_ok _ _ _ A) as (f & Hf & Hc & K). destruct (at_ok _ _ _ A') as (f' & Hf' & _ & K').
  pose proof (ok_off _ _ _ _ K) as E1. pose proof (ok_off _ _ _ _ K') as E2.
  assert (Hi : (i < length f)%nat) by (apply nth_error_Some; congruence).
  assert (Hj' : (j' < length M)%nat) by (apply nth_error_Some; congruence).
  pose proof (o_mono (j' - j - 1) j f Hf ltac:(lia)) as Hm. replace (j + S (j' - j - 1))%nat with j' in Hm by lia. lia.
Qed.

Lemma at_inj j i c j' i' c' : at_ j i c -> at_ j' i' c' -> offc c = offc c' -> j = j' /\ i = i' /\ c = c'.
Proof.
  intros A A' E.
  destruct (lt_eq_lt_dec j j') as [[Hlt|Heq]|Hgt].
  - pose proof (at_lt _ _ _ _ _ _ A A' Hlt). lia.
  - subst j'. destruct (at_ok _ _ _ A) as (f & Hf & Hc & K). destruct (at_ok _ _ _ A') as (f' & Hf' & Hc' & K').
    rewrite Hf in Hf'. injection Hf' as <-.
    pose proof (ok_off _ _ _ _ K) as E1. pose proof (ok_off _ _ _ _ K') as E2.
    assert (i = i') by lia. subst i'. rewrite Hc in Hc'. injection Hc' as <-. auto.
  - pose proof (at_lt _ _ _ _ _ _ A' A Hgt). lia.
Qed.

Lemma ssn_gt2 k j : - 32768 < Z.of_nat j - Z.of_nat k < 32768 -> uint16_gt (ssn j) (ssn k) = true <-> (k < j)%nat.
Proof. unfold ssn, uint16_gt. intros H. lia. Qed.
Lemma ssn_eq2 k j : - 32768 < Z.of_nat j - Z.of_nat k < 32768 -> (ssn j =? ssn k) = true <-> j = k.
Proof. unfold ssn. intros H. lia. Qed.
Lemma ssn_succ k : uint16_add (ssn k) 1 = ssn (S k).
Proof. rewrite uint16_add_mod. unfold ssn. lia. Qed.

Definition inwin (k j : nat) : Prop := Z.of_nat k <= Z.of_nat j < Z.of_nat k + 32768.
Lemma ssn_eq k j : inwin k j -> (ssn j =? ssn k) = true <-> j = k.
Proof. unfold inwin. intros H. apply ssn_eq2. lia. Qed.

Definition labelled (k : nat) (c : chunk) : Prop := exists j i, at_ j i c /\ inwin k j.
Definition qinv (k : nat) (Q : list chunk) : Prop := sorted Q /\ Forall (labelled k) Q.

Lemma labelled_inw k c : labelled k c -> inw base N (tsn c).
Proof. intros (j & i & A & _). destruct (at_ok _ _ _ A) as (f & _ & _ & K). exact (ok_inw _ _ _ _ K). Qed.

(* the same with the two ends of the window apart: every queued chunk belongs to a message from b on
   and below U *)
Definition labg (b : nat) (U : Z) (c : chunk) : Prop :=
  exists j i, at_ j i c /\ (b <= j)%nat /\ Z.of_nat j < U.

Lemma labg_inw b U c : labg b U c -> inw base N (tsn c).
Proof. intros (j & i & A & _). destruct (at_ok _ _ _ A) as (f & _ & _ & K). exact (ok_inw _ _ _ _ K). Qed.

Lemma labg_ordered b U Q : Forall (labg b U) Q -> Forall (fun c => unordered c = false) Q.
Proof.
  intros L. eapply Forall_impl; [|exact L]. intros c (j & i & A & _).
  destruct (at_ok _ _ _ A) as (f & _ & _ & K). exact (ok_un _ _ _ _ K).
Qed.

Lemma qinv_labg k Q : qinv k Q -> sorted Q /\ Forall (labg k (Z.of_nat k + 32768)) Q.
Proof.
  intros [S L]. split; [exact S|]. eapply Forall_impl; [|exact L]. intros c (j & i & A & W). unfold inwin in W.
  exists j, i. split; [exact A|]. split; lia.
Qed.

Lemma labg_qinv U k Q : sorted Q -> Forall (labg k U) Q -> U <= Z.of_nat k + 32768 -> qinv k Q.
Proof.
  intros S L HU. split; [exact S|]. eapply Forall_impl; [|exact L]. intros c (j & i & A & H1 & H2).
  exists j, i. split; [exact A|]. unfold inwin. lia.
Qed.

(* b: every queued chunk belongs to message b or later; k: delivery point; U: beyond every queued message *)
Definition near (b k : nat) (U : Z) : Prop :=
  (b <= k)%nat /\ Z.of_nat k - Z.of_nat b < 32768 /\ Z.of_nat k <= U <= Z.of_nat k + 32768.

Lemma near_window k : near k k (Z.of_nat k + 32768).
Proof. unfold near. lia. Qed.

(* message j goes out while the delivery point is k: it is not beyond the point, and the point moves on
   only when j is the point *)
Lemma near_step b k U j : near b k U -> (b <= j)%nat -> Z.of_nat j < U -> uint16_gt (ssn j) (ssn k) = false ->
  exists k2, (if ssn j =? ssn k then uint16_add (ssn k) 1 else ssn k) = ssn k2 /\ near (S j) k2 U /\
             (k <= k2)%nat /\ ((k2 = k /\ (j < k)%nat) \/ (k2 = S k /\ j = k)).
Proof.
  intros (N1 & N2 & N3) Hb HU Hg.
  assert (Hjk : (j <= k)%nat).
  { destruct (le_lt_dec j k) as [E|E]; [exact E|]. apply (ssn_gt2 k j) in E; [congruence|lia]. }
  destruct (Nat.eq_dec j k) as [->|Hne].
  - exists (S k). rewrite Z.eqb_refl. split; [apply ssn_succ|]. unfold near. lia.
  - exists k. destruct (ssn j =? ssn k) eqn:E; [apply (ssn_eq2 k j) in E; lia|]. split; [reflexivity|]. unfold near. lia.
Qed.

(* a run of chunks of M lies inside one message: it is the first fragments of that message, in order *)
Lemma run_at b U h f p : chain h f p -> Forall (labg b U) f ->
  exists j F i, (b <= j)%nat /\ Z.of_nat j < U /\ nth_error M j = Some F /\ sseq h = ssn j /\
                nth_error F i = Some p /\ f = firstn (S i) F.
Proof.
  induction 1 as [Hf|f p c Hc IH Hl Et]; intros Hlab.
  - destruct (Forall_inv Hlab) as (j & i & A & Hbj & HjU). destruct (at_ok _ _ _ A) as (F & HFj & Hhi & K).
    rewrite (ok_first _ _ _ _ K) in Hf. apply Nat.eqb_eq in Hf. subst i.
    exists j, F, 0%nat. do 3 (split; [assumption|]). split; [exact (ok_sseq _ _ _ _ K)|]. split; [exact Hhi|].
    destruct F as [|x F]; [discriminate|]. injection Hhi as ->. reflexivity.
  - apply Forall_app in Hlab as [Lf Lc]. destruct (IH Lf) as (j' & F & i' & Hbj' & HjU' & HFj & H0 & Hp & Ef).
    destruct (Forall_inv Lc) as (j & i & A & _).
    pose proof (wf_ok j' F i' p HFj Hp) as Kp. rewrite (ok_last _ _ _ _ Kp) in Hl. apply Nat.eqb_neq in Hl.
    assert (Hi' : (i' < length F)%nat) by (apply nth_error_Some; congruence).
    destruct (nth_error F (S i')) as [c'|] eqn:Ec'; [|apply nth_error_None in Ec'; lia].
    pose proof (wf_ok j' F (S i') c' HFj Ec') as Kc'. destruct (at_ok _ _ _ A) as (fc & _ & _ & Kc).
    pose proof (plus_one_off_inv base N HN _ _ (ok_inw _ _ _ _ Kp) (ok_inw _ _ _ _ Kc) Et) as Eo.
    fold (offc c) (offc p) in Eo. rewrite (ok_off _ _ _ _ Kp) in Eo. pose proof (ok_off _ _ _ _ Kc') as Eo'.
    destruct (at_inj _ _ _ _ _ _ A (ex_intro _ F (conj HFj Ec')) ltac:(lia)) as (_ & _ & <-).
    exists j', F, (S i'). do 4 (split; [assumption|]). split; [exact Ec'|]. rewrite Ef. symmetry. now apply firstn_S_nth.
Qed.

(* a whole message at the head of the queue is a message of M, and beyond it the queue holds later
   messages only *)
Lemma head_message b U h f p R : chain h f p -> last p = true -> sorted (f ++ R) -> Forall (labg b U) (f ++ R) ->
  exists j, (b <= j)%nat /\ Z.of_nat j < U /\ nth_error M j = Some f /\
            sseq h = ssn j /\ sseq p = ssn j /\ sorted R /\ Forall (labg (S j) U) R.
Proof.
  intros Hc El Sq L. apply Forall_app in L as [Lf L].
  destruct (run_at b U h f p Hc Lf) as (j & F & i & Hbj & HjU & HFj & H0 & Hi & Ef).
  pose proof (wf_ok j F i p HFj Hi) as K.
  rewrite (ok_last _ _ _ _ K) in El. apply Nat.eqb_eq in El. rewrite El, firstn_all in Ef. subst F.
  apply sorted_app_inv in Sq as [Sq Hlt]. exists j. do 3 (split; [assumption|]).
  split; [exact H0|]. split; [exact (ok_sseq _ _ _ _ K)|]. split; [exact Sq|].
  (* a chunk beyond the last fragment p of message j belongs to a later message *)
  assert (Ap : at_ j i p) by (exists f; auto). apply Forall_forall. intros x Hx.
  rewrite Forall_forall in L. destruct (L x Hx) as (jx & ix & A & _ & HU). exists jx, ix. split; [exact A|]. split; [|exact HU].
  pose proof (Hlt p x (nth_error_In _ _ Hi) Hx) as Hpx.
  destruct (lt_eq_lt_dec jx j) as [[Hjk| ->]|Hjk]; [pose proof (at_lt _ _ _ _ _ _ A Ap Hjk); lia| |exact Hjk].
  destruct A as (f' & Hf' & Hxi). rewrite HFj in Hf'. injection Hf' as <-.
  pose proof (ok_off _ _ _ _ K). pose proof (ok_off _ _ _ _ (wf_ok j f ix x HFj Hxi)).
  assert (ix < length f)%nat by (apply nth_error_Some; congruence). lia.
Qed.

Definition delivered (k n : nat) : list message := map msgf (firstn n (skipn k M)).

(* with nothing stale in the queue the runs that come out are the messages k, k+1, ... *)
Lemma delivers_ord U : forall fs k Q s, near k k U -> sorted (concat fs ++ Q) ->
  Forall (labg k U) (concat fs ++ Q) -> delivers (ssn k) fs s ->
  s = ssn (k + length fs) /\ fs = firstn (length fs) (skipn k M) /\
  near (k + length fs) (k + length fs) U /\ sorted Q /\ Forall (labg (k + length fs) U) Q.
Proof.
  induction fs as [|f fs IH]; intros k Q s Hn Sq L D; cbn [delivers concat length app] in *.
  - rewrite Nat.add_0_r. auto.
  - destruct D as (h & p & Hc & El & Hg & D). rewrite <- app_assoc in Sq, L.
    destruct (head_message k U h f p _ Hc El Sq L) as (j & Hkj & HjU & Hf & Es0 & Es & Sq' & L2). rewrite Es0 in Hg.
    destruct (near_step k k U j Hn Hkj HjU Hg) as (k2 & Eseq & Hn2 & _ & [[_ Hjk]|[-> ->]]).
    { exfalso. exact (Nat.lt_irrefl _ (Nat.lt_le_trans _ _ _ Hjk Hkj)). }
    rewrite Es, Eseq in D. destruct (IH (S k) Q s Hn2 Sq' L2 D) as (-> & Em & R).
    rewrite Nat.add_succ_r. split; [reflexivity|]. split; [|exact R].
    rewrite (skipn_nth M k _ Hf). cbn [firstn]. now rewrite <- Em.
Qed.

Lemma pop_ord k Q l s ms : qinv k Q -> pop_messages Q (ssn k) = (l, s, ms) ->
  exists n, s = ssn (k + n) /\ ms = delivered k n /\ length ms = n /\ Q = concat (firstn n (skipn k M)) ++ l /\
    qinv (k + n) l /\ stopped l s.
Proof.
  intros Qi H. destruct (qinv_labg k Q Qi) as [SQ L].
  destruct (pop_ordered Q _ l s ms (labg_ordered _ _ Q L) H) as (fs & -> & -> & D & Hstop).
  destruct (delivers_ord _ fs k l s (near_window k) SQ L D) as (Es & Efs & _ & Sl & Ll). exists (length fs).
  split; [exact Es|]. split; [unfold delivered; now rewrite <- Efs|]. split; [apply map_length|].
  split; [now rewrite <- Efs|]. split; [exact (labg_qinv (Z.of_nat k + 32768) _ l Sl Ll ltac:(lia))|exact Hstop].
Qed.

Fixpoint srun (Q : list chunk) (seq : Z) (cs : list chunk) : option (list message) :=
  match cs with
  | [] => Some []
  | c :: cs' =>
      match add_chunk Q c with
      | AddAssert => None
      | AddOk Q1 =>
          let '(Q2, seq2, ms) := pop_messages Q1 seq in
          match srun Q2 seq2 cs' with Some out => Some (ms ++ out) | None => None end
      end
  end.

(* every chunk arrives while fewer than 2^15 messages lie between the delivery point and its message *)
Fixpoint swin (Q : list chunk) (seq : Z) (k : nat) (cs : list chunk) : Prop :=
  match cs with
  | [] => True
  | c :: cs' =>
      (forall j i, at_ j i c -> Z.of_nat j < Z.of_nat k + 32768) /\
      match add_chunk Q c with
      | AddAssert => True
      | AddOk Q1 => let '(Q2, seq2, ms) := pop_messages Q1 seq in swin Q2 seq2 (k + length ms) cs'
      end
  end.

Lemma delivered_add k n1 n2 : delivered k n1 ++ delivered (k + n1) n2 = delivered k (n1 + n2).
Proof. unfold delivered. rewrite firstn_add, map_app, skipn_add. reflexivity. Qed.

Lemma frags_at k n x : In x (concat (firstn n (skipn k M))) <-> exists j i, at_ j i x /\ (k <= j < k + n)%nat.
Proof.
  rewrite in_concat. split.
  - intros (f & Hf & Hx). apply in_firstn in Hf as (a & Han & Ha). rewrite nth_error_skipn' in Ha.
    apply In_nth_error in Hx as (i & Hi). exists (k + a)%nat, i. split; [exists f; auto|lia].
  - intros (j & i & (f & Hf & Hi) & Hj). exists f. split; [|eapply nth_error_In; exact Hi].
    apply (nth_error_In _ (j - k)). rewrite nth_error_firstn by lia. rewrite nth_error_skipn'.
    replace (k + (j - k))%nat with j by lia. exact Hf.
Qed.

Lemma add_qinv k Q c : qinv k Q -> labelled k c -> (forall x, In x Q -> offc x <> offc c) ->
  exists Q1, add_chunk Q c = AddOk Q1 /\ qinv k Q1 /\ forall x, In x Q1 <-> In x (c :: Q).
Proof.
  intros [SQ LQ] Lc Hne.
  assert (IQ : Forall (fun x => inw base N (tsn x)) Q) by (eapply Forall_impl; [|exact LQ]; intros x; apply labelled_inw).
  destruct (add_chunk_sorted base N Hbase HN c Q SQ IQ (labelled_inw k c Lc) Hne) as (Q1 & E1 & S1 & In1).
  exists Q1. split; [exact E1|]. split; [|exact In1]. split; [exact S1|]. apply Forall_forall.
  intros x Hx. apply In1 in Hx as [<-|Hx]; [exact Lc|]. rewrite Forall_forall in LQ. now apply LQ.
Qed.

(* the arrivals still to come: distinct chunks of messages from k on, none of them queued *)
Definition pending (k : nat) (Q cs : list chunk) : Prop :=
  NoDup cs /\ forall c, In c cs -> (exists j i, at_ j i c) /\ ~ In c Q /\ forall j i, at_ j i c -> (k <= j)%nat.

Lemma pending_start cs : NoDup cs -> (forall c, In c cs -> exists j i, at_ j i c) -> pending 0 [] cs.
Proof. intros Hnd Hcs. split; [exact Hnd|]. intros c Hc. split; [now apply Hcs|]. split; [intros []|intros; lia]. Qed.

(* one arrival: the queue takes the chunk, gives up the next n whole messages, and the scan stops *)
Lemma arrive k Q c cs : qinv k Q -> pending k Q (c :: cs) -> swin Q (ssn k) k (c :: cs) ->
  exists Q1 n l, add_chunk Q c = AddOk Q1 /\ pop_messages Q1 (ssn k) = (l, ssn (k + n), delivered k n) /\
    (forall x, In x Q1 <-> In x (c :: Q)) /\ Q1 = concat (firstn n (skipn k M)) ++ l /\
    qinv (k + n) l /\ pending (k + n) l cs /\ swin l (ssn (k + n)) (k + n) cs /\ stopped l (ssn (k + n)).
Proof.
  intros Qi [Hnd Hcs] [Hwc Hw]. destruct (Hcs c (or_introl eq_refl)) as ((j & i & A) & HcQ & Hk).
  assert (Lc : labelled k c) by (exists j, i; exact (conj A (conj (proj1 (Nat2Z.inj_le k j) (Hk j i A)) (Hwc j i A)))).
  destruct (add_qinv k Q c Qi Lc) as (Q1 & E1 & Q1i & In1).
  { intros x Hx E. destruct Qi as [_ LQ]. rewrite Forall_forall in LQ. destruct (LQ x Hx) as (jx & ix & Ax & _).
    destruct (at_inj _ _ _ _ _ _ Ax A E) as (_ & _ & ->). contradiction. }
  rewrite E1 in Hw. destruct (pop_messages Q1 (ssn k)) as [[l s] ms] eqn:Ep.
  destruct (pop_ord k Q1 _ _ _ Q1i Ep) as (n & -> & -> & Hlen & EQ1 & Qi' & Hstop). rewrite Hlen in Hw.
  exists Q1, n, l. do 5 (split; [auto|]). split; [|split; [exact Hw|exact Hstop]].
  apply NoDup_cons_iff in Hnd as [Hc Hnd]. split; [exact Hnd|].
  intros x Hx. destruct (Hcs x (or_intror Hx)) as (Hlab & HxQ & Hxk).
  assert (HxQ1 : ~ In x (concat (firstn n (skipn k M)) ++ l)) by (rewrite <- EQ1, In1; intros [<-|H]; contradiction).
  split; [exact Hlab|]. split; [intros H; apply HxQ1, in_or_app; now right|].
  intros jx ix Ax. destruct (le_lt_dec (k + n) jx) as [Hok|Hlt]; [exact Hok|]. exfalso. apply HxQ1, in_or_app. left.
  apply frags_at. exists jx, ix. exact (conj Ax (conj (Hxk jx ix Ax) Hlt)).
Qed.

Theorem ordered_prefix_gen : forall cs Q k, qinv k Q -> pending k Q cs -> swin Q (ssn k) k cs ->
  exists n, srun Q (ssn k) cs = Some (delivered k n).
Proof.
  induction cs as [|c cs IH]; intros Q k Qi Hp Hw; cbn [srun].
  - exists 0%nat. reflexivity.
  - destruct (arrive k Q c cs Qi Hp Hw) as (Q1 & n1 & l & -> & -> & _ & _ & Qi' & Hp' & Hw' & _).
    destruct (IH l (k + n1)%nat Qi' Hp' Hw') as (n2 & ->). exists (n1 + n2)%nat. now rewrite delivered_add.
Qed.

Theorem ordered_prefix cs : NoDup cs -> (forall c, In c cs -> exists j i, at_ j i c) -> swin [] (ssn 0) 0 cs ->
  exists n, srun [] (ssn 0) cs = Some (map msgf (firstn n M)).
Proof.
  intros Hnd Hcs Hw. apply (ordered_prefix_gen cs [] 0%nat); [split; [exact I|constructor]|now apply pending_start|exact Hw].
Qed.

Lemma swin_small : Z.of_nat (length M) <= 32768 -> forall cs Q seq k, swin Q seq k cs.
Proof.
  intros Hs. induction cs as [|c cs IH]; intros Q seq k; cbn [swin]; [exact I|]. split.
  - intros j i (f & Hf & _). assert (j < length M)%nat by (apply nth_error_Some; congruence). lia.
  - destruct (add_chunk Q c); [|exact I]. destruct (pop_messages l seq) as [[Q2 seq2] ms]. apply IH.
Qed.

(* Completeness.  Once every chunk of the ordered messages sent on the stream has been accepted by the
   receiver - in whatever order, with whatever duplicates and retransmissions - every one of those
   messages has been handed to the application: nothing that arrived stays stuck in the reassembly
   queue.  (Together with C02_never_wedged - the sender keeps (re)transmitting until everything is
   acknowledged - this is the receiver's half of "everything sent is delivered once the network heals".)
   Technically: the scan stops only where the next expected message is incomplete (maximality), and
   every chunk that entered the queue is either still there or part of a delivered message. *)

(* the first m fragments of message k and chunks beyond fragment m do not make the whole message *)
Lemma prefix_incomplete k f m rest : nth_error M k = Some f -> (m < length f)%nat ->
  (forall x, In x rest -> o k + Z.of_nat m < offc x) -> ~ incl f (firstn m f ++ rest).
Proof.
  intros Hf Hm Hr Hincl. destruct (nth_error f m) as [c|] eqn:Ec; [|apply nth_error_None in Ec; lia].
  pose proof (ok_off _ _ _ _ (wf_ok k f m c Hf Ec)) as Eo.
  pose proof (Hincl c (nth_error_In _ _ Ec)) as Hx. apply in_app_or in Hx as [Hx|Hx]; [|specialize (Hr c Hx); lia].
  apply in_firstn in Hx as (a & Ha & Hxa). pose proof (ok_off _ _ _ _ (wf_ok k f a c Hf Hxa)). lia.
Qed.

Lemma next_tsn_off p c : inw base N (tsn p) -> inw base N (tsn c) -> offc c = offc p + 1 -> tsn c = tsn_plus_one (tsn p).
Proof.
  unfold offc. intros Hp Hc E. destruct (plus_one_off base N HN (tsn p) Hp ltac:(destruct Hc; lia)) as [Hi Ho].
  apply (off_inj base N _ _ Hc Hi). lia.
Qed.

(* where the scan stops, message k is not all there: the queue begins beyond its first fragment, or with
   a run of its fragments that the next chunk does not continue *)
Lemma stop_incomplete k l f : qinv k l -> stopped l (ssn k) -> nth_error M k = Some f -> ~ incl f l.
Proof.
  intros Qi (run & rest & -> & Hrun & Hst) Hf. destruct (qinv_labg _ _ Qi) as [Sq L].
  assert (Hlen : (0 < length f)%nat) by (destruct f; [destruct (proj1 (wfM k _ Hf) eq_refl)|cbn; lia]).
  destruct run as [[[r e] ord]|]; cbn [orun] in Hrun.
  - change (retained [] (Some (r, e, ord)) rest) with (rev r ++ rest) in *. destruct Hrun as (-> & h & Hr & Hg).
    destruct r as [|p r]; [destruct Hr|]. destruct Hr as (Hc & Hl & ->).
    apply Forall_app in L as [Lr Lrest].
    destruct (run_at k _ h _ p Hc Lr) as (j & f' & i & Hkj & HjU & Hf' & H0 & Hi & Erev).
    rewrite Erev in *. rewrite H0 in Hg.
    (* it is message k that is being collected, and its newest fragment p is not the last *)
    destruct (near_step k k _ j (near_window k) Hkj HjU Hg) as (_ & _ & _ & _ & [[_ Hjk]|[_ ->]]).
    { exfalso. exact (Nat.lt_irrefl _ (Nat.lt_le_trans _ _ _ Hjk Hkj)). }
    rewrite Hf in Hf'. injection Hf' as <-. pose proof (wf_ok k f i p Hf Hi) as Kp.
    rewrite (ok_last _ _ _ _ Kp) in Hl. apply Nat.eqb_neq in Hl.
    assert (Hi' : (i < length f)%nat) by (apply nth_error_Some; congruence).
    apply (prefix_incomplete k f (S i) rest Hf ltac:(lia)).
    (* the next chunk does not carry on from p, so it lies beyond fragment S i *)
    destruct rest as [|c rest]; [intros x []|]. destruct Hst as [Et _]. apply Z.eqb_neq in Et.
    apply sorted_app_inv in Sq as [Sq Hlt]. apply (sorted_beyond base _ c rest Sq).
    assert (Hpc : offc p < offc c) by (apply Hlt; [exact (nth_error_In _ _ (eq_trans (nth_error_firstn f (S i) i (le_n _)) Hi))|now left]).
    assert (Hc0 : offc c <> offc p + 1).
    { intros E. apply Et. exact (next_tsn_off p c (ok_inw _ _ _ _ Kp) (labg_inw _ _ c (Forall_inv Lrest)) E). }
    pose proof (ok_off _ _ _ _ Kp). lia.
  - change (retained [] None rest) with (firstn 0 f ++ rest) in *. apply (prefix_incomplete k f 0 rest Hf Hlen).
    destruct rest as [|c rest]; [intros x []|]. apply (sorted_beyond base _ c rest Sq).
    (* c lies beyond the first fragment of message k *)
    destruct Hst as [_ Hst]. destruct (Forall_inv L) as (j & ic & A & Hkj & HjU).
    destruct (at_ok _ _ _ A) as (fj & Hfj & Hcj & K). rewrite (ok_first _ _ _ _ K), (ok_sseq _ _ _ _ K) in Hst.
    destruct (Nat.eq_dec j k) as [->|Hjk].
    + destruct Hst as [Hst|Hst]; [|rewrite uint16_gt_irrefl in Hst; discriminate].
      apply Nat.eqb_neq in Hst. pose proof (ok_off _ _ _ _ K). lia.
    + destruct f as [|c0 f0]; [inversion Hlen|].
      pose proof (at_lt k 0 c0 j ic c (ex_intro _ _ (conj Hf eq_refl)) A ltac:(lia)).
      pose proof (ok_off _ _ _ _ (wf_ok k _ 0%nat c0 Hf eq_refl)). lia.
Qed.

Theorem ordered_complete_gen : forall cs Q k, qinv k Q -> pending k Q cs -> swin Q (ssn k) k cs ->
  (forall f, nth_error M k = Some f -> ~ incl f Q) ->
  (forall j f c, nth_error M j = Some f -> (k <= j)%nat -> In c f -> In c Q \/ In c cs) ->
  srun Q (ssn k) cs = Some (map msgf (skipn k M)).
Proof.
  induction cs as [|c cs IH]; intros Q k Qi Hp Hw Hmax Hcov; cbn [srun].
  - destruct (nth_error M k) as [f|] eqn:Ef.
    + exfalso. apply (Hmax f eq_refl). intros x Hx. destruct (Hcov k f x Ef (Nat.le_refl k) Hx) as [H|[]]. exact H.
    + apply nth_error_None in Ef. now rewrite (skipn_all2 M Ef).
  - destruct (arrive k Q c cs Qi Hp Hw) as (Q1 & n1 & l & -> & -> & In1 & EQ1 & Qi' & Hp' & Hw' & Hst).
    rewrite (IH _ (k + n1)%nat Qi' Hp' Hw').
    + unfold delivered. now rewrite <- skipn_add, <- map_app, firstn_skipn.
    + intros f. exact (stop_incomplete _ l f Qi' Hst).
    + (* a chunk that has arrived is still queued: those delivered belong to earlier messages *)
      intros j' f' c' Hf' Hj' Hc'.
      assert (H1 : In c' Q1 \/ In c' cs).
      { destruct (Hcov j' f' c' Hf' (Nat.le_trans _ _ _ (Nat.le_add_r k n1) Hj') Hc') as [H|[H|H]];
          [left; apply In1; now right|left; apply In1; left; now symmetry|now right]. }
      destruct H1 as [H1|H1]; [left|right; exact H1].
      rewrite EQ1 in H1. apply in_app_or in H1 as [H1|H1]; [exfalso|exact H1].
      apply frags_at in H1 as (j2 & i2 & A2 & _ & Hr). apply In_nth_error in Hc' as (i' & Hi').
      destruct (at_inj _ _ _ _ _ _ A2 (ex_intro _ f' (conj Hf' Hi')) eq_refl) as (-> & _).
      exact (Nat.lt_irrefl _ (Nat.lt_le_trans _ _ _ Hr Hj')).
Qed.

Theorem ordered_complete cs : NoDup cs -> (forall c, In c cs -> exists j i, at_ j i c) -> swin [] (ssn 0) 0 cs ->
  (forall c, In c (concat M) -> In c cs) ->
  srun [] (ssn 0) cs = Some (map msgf M).
Proof.
  intros Hnd Hcs Hw Hall.
  apply (ordered_complete_gen cs [] 0%nat); [split; [exact I|constructor]|now apply pending_start|exact Hw| |].
  - intros f Hf Hi. destruct f as [|c0 f0]; [exact (proj1 (wfM _ _ Hf) eq_refl)|exact (Hi c0 (or_introl eq_refl))].
  - intros j f c Hf _ Hc. right. apply Hall. apply in_concat. exists f. split; [eapply nth_error_In; eauto|exact Hc].
Qed.

(* Ordered streams of partially reliable channels: FORWARD-TSN may move the expected sequence
   number past messages whose fragments are still queued ("stale" messages).  pop_messages in
   that situation: stale complete messages at the head of the queue come out first, in queue
   order, then the in-order ones. *)
Definition msgs_of (J : list nat) : list message := map (fun j => msgf (nth j M [])) J.
Fixpoint incr_from (b : nat) (J : list nat) : Prop :=
  match J with [] => True | j :: J' => (b <= j)%nat /\ incr_from (S j) J' end.

Lemma labg_weaken b b' U c : (b' <= b)%nat -> labg b U c -> labg b' U c.
Proof. intros Hb (j & i & A & H1 & H2). exists j, i. split; [exact A|]. split; [lia|exact H2]. Qed.

(* J increases and lies between b (inclusive) and k' (exclusive) *)
Fixpoint between (b : nat) (J : list nat) (k' : nat) : Prop :=
  match J with [] => (b <= k')%nat | j :: J' => (b <= j)%nat /\ between (S j) J' k' end.

Lemma between_le : forall J b k', between b J k' -> (b <= k')%nat.
Proof. induction J as [|j J IH]; cbn [between]; intros b k' H; [exact H|]. destruct H as [H1 H2]. apply IH in H2. lia. Qed.

Lemma between_incr : forall J b k', between b J k' -> incr_from b J.
Proof. induction J as [|j J IH]; cbn [between incr_from]; intros b k' H; [exact I|]. split; [apply H|apply (IH _ k'), H]. Qed.

Lemma between_app : forall J1 b m J2 k', between b J1 m -> between m J2 k' -> between b (J1 ++ J2) k'.
Proof.
  induction J1 as [|j J1 IH]; cbn [between app]; intros b m J2 k' H1 H2.
  - destruct J2 as [|j2 J2]; cbn [between] in *; [lia|]. split; [lia|apply H2].
  - split; [apply H1|]. exact (IH _ m _ _ (proj2 H1) H2).
Qed.

(* the runs that come out of a queue with stale messages: message j goes when it is complete at the
   head of the queue and not beyond the delivery point.  Afterwards either the point has not moved
   or nothing stale is left *)
Lemma delivers_gen U : forall fs b k Q s, near b k U ->
  sorted (concat fs ++ Q) -> Forall (labg b U) (concat fs ++ Q) -> delivers (ssn k) fs s ->
  exists J k', fs = map (fun j => nth j M []) J /\ between b J k' /\
    s = ssn k' /\ (k <= k')%nat /\ Z.of_nat k' <= U /\ sorted Q /\ Forall (labg b U) Q /\ (k' = k \/ Forall (labg k' U) Q).
Proof.
  induction fs as [|f fs IH]; intros b k Q s Hn Sq L D; cbn [delivers concat app] in *.
  - exists [], k. destruct Hn as (Hbk & _ & HU & _). cbn. auto 10.
  - destruct D as (h & p & Hc & El & Hg & D). rewrite <- app_assoc in Sq, L.
    destruct (head_message b U h f p _ Hc El Sq L) as (j & Hbj & HjU & Hf & Es0 & Es & Sq' & L2). rewrite Es0 in Hg.
    destruct (near_step b k U j Hn Hbj HjU Hg) as (k2 & Eseq & Hn2 & Hkk2 & Hor2). rewrite Es, Eseq in D.
    destruct (IH (S j) k2 Q s Hn2 Sq' L2 D) as (J & k' & Em & Hbt & Es' & Hk & HU & Sl & Ll & Hor).
    exists (j :: J), k'. cbn [map between]. rewrite (nth_error_nth M j [] Hf), <- Em.
    split; [reflexivity|]. split; [auto|].
    split; [exact Es'|]. split; [exact (Nat.le_trans _ _ _ Hkk2 Hk)|]. split; [exact HU|]. split; [exact Sl|].
    split; [eapply Forall_impl; [|exact Ll]; intros x; apply labg_weaken; exact (le_S _ _ Hbj)|].
    destruct Hor as [->|Hor]; [|right; exact Hor]. destruct Hor2 as [[-> _]|[-> ->]]; [left; reflexivity|right; exact Ll].
Qed.

Lemma pop_gen U b k Q l s ms : near b k U -> sorted Q -> Forall (labg b U) Q -> pop_messages Q (ssn k) = (l, s, ms) ->
  exists J k', ms = msgs_of J /\ between b J k' /\ s = ssn k' /\ (k <= k')%nat /\
    Z.of_nat k' <= U /\ sorted l /\ Forall (labg b U) l /\ (k' = k \/ Forall (labg k' U) l).
Proof.
  intros Hn SQ L H. destruct (pop_ordered Q _ l s ms (labg_ordered b U Q L) H) as (fs & -> & -> & D & _).
  destruct (delivers_gen U fs b k l s Hn SQ L D) as (J & k' & EJ & R).
  exists J, k'. split; [unfold msgs_of; now rewrite EJ, map_map|exact R].
Qed.

Lemma pop_at U k Q l s ms : Z.of_nat k <= U <= Z.of_nat k + 32768 -> sorted Q -> Forall (labg k U) Q ->
  pop_messages Q (ssn k) = (l, s, ms) ->
  exists J k', ms = msgs_of J /\ between k J k' /\ s = ssn k' /\ Z.of_nat k' <= U /\ sorted l /\ Forall (labg k' U) l.
Proof.
  intros HU SQ L H. assert (Hn : near k k U) by (unfold near; lia).
  destruct (pop_gen U k k Q l s ms Hn SQ L H) as (J & k' & Em & Hbt & Es & _ & HU' & Sl & Ll & Hor).
  exists J, k'. do 5 (split; [assumption|]). destruct Hor as [->|Hor]; assumption.
Qed.

Lemma prune_sorted cum : inw base N cum -> forall Q, sorted Q -> Forall (fun x => inw base N (tsn x)) Q ->
  sorted (fst (prune_chunks Q cum)) /\ incl (fst (prune_chunks Q cum)) Q /\
  Forall (fun x => off base cum < offc x) (fst (prune_chunks Q cum)).
Proof.
  intros Hc. induction Q as [|c Q IH]; intros S I; cbn [prune_chunks]; [cbn; auto using incl_refl|].
  destruct S as [F S]. inversion I as [|? ? Ic IQ]; subst.
  destruct (uint32_gte cum (tsn c)) eqn:G.
  - rewrite (surjective_pairing (prune_chunks Q cum)). cbn [fst]. destruct (IH S IQ) as (A1 & A2 & A3).
    split; [exact A1|]. split; [intros x Hx; right; now apply A2|exact A3].
  - cbn [fst]. split; [split; assumption|]. split; [apply incl_refl|].
    assert (Hlt : off base cum < offc c).
    { destruct (Z_lt_le_dec (off base cum) (offc c)) as [H|H]; [exact H|].
      apply (gte_off base N Hbase HN _ _ Hc Ic) in H. congruence. }
    constructor; [exact Hlt|]. eapply Forall_impl; [|exact F]. intros x Hx. cbv beta in *. lia.
Qed.

Lemma msgs_of_app J1 J2 : msgs_of (J1 ++ J2) = msgs_of J1 ++ msgs_of J2.
Proof. unfold msgs_of. apply map_app. Qed.

(* a FORWARD-TSN naming this stream (one entry, as the sender's dict produces) *)
Definition sfwd (Q : list chunk) (seq cum sq : Z) : list chunk * Z * list message :=
  let seq1 := if uint16_gte sq seq then uint16_add sq 1 else seq in
  let '(Q1, seq2, ms1) := pop_messages Q seq1 in
  let Q2 := fst (prune_chunks Q1 cum) in
  let '(Q3, seq3, ms2) := pop_messages Q2 seq2 in
  (Q3, seq3, ms1 ++ ms2).

(* what the sender guarantees about a FORWARD-TSN (cum, (stream, sq)): sq is the sequence number of a
   message j near the delivery point, and every chunk of every message up to j lies at or below cum *)
Definition fwd_ok (k : nat) (cum sq : Z) : Prop :=
  inw base N cum /\ exists j, sq = ssn j /\ - 32768 < Z.of_nat j - Z.of_nat k < 32767 /\
    forall j' i' c', at_ j' i' c' -> (j' <= j)%nat -> offc c' <= off base cum.

(* the point the first poll of a FORWARD-TSN starts from: past message j, unless j lies behind *)
Lemma fwd_point k j : - 32768 < Z.of_nat j - Z.of_nat k < 32767 ->
  exists k1, (if uint16_gte (ssn j) (ssn k) then uint16_add (ssn j) 1 else ssn k) = ssn k1 /\
             near k k1 (Z.of_nat k + 32768) /\ (k1 = k \/ ((k <= j)%nat /\ k1 = S j)).
Proof.
  intros Hj. unfold uint16_gte. destruct (le_lt_dec k j) as [Hle|Hlt].
  - exists (S j). split; [|unfold near; lia].
    destruct (Nat.eq_dec j k) as [->|Hne]; [rewrite Z.eqb_refl; apply ssn_succ|].
    assert (G : uint16_gt (ssn j) (ssn k) = true) by (apply ssn_gt2; lia). rewrite G, orb_true_r. apply ssn_succ.
  - exists k. split; [|unfold near; lia].
    destruct (uint16_gt (ssn j) (ssn k)) eqn:G; [apply ssn_gt2 in G; lia|].
    destruct (ssn j =? ssn k) eqn:E; [apply ssn_eq2 in E; lia|reflexivity].
Qed.

Lemma sfwd_ok k Q cum sq Q3 s3 ms : qinv k Q -> fwd_ok k cum sq -> sfwd Q (ssn k) cum sq = (Q3, s3, ms) ->
  exists J k', ms = msgs_of J /\ between k J k' /\ s3 = ssn k' /\ Z.of_nat k' <= Z.of_nat k + 32768 /\ qinv k' Q3.
Proof.
  intros Q0 (Hc & j & -> & Hj & Hdis) H. unfold sfwd in H.
  destruct (fwd_point k j Hj) as (k1 & E1 & Hn1 & Hk1). rewrite E1 in H.
  set (U := Z.of_nat k + 32768) in *. destruct (qinv_labg k Q Q0) as [SQ L].
  destruct (pop_messages Q (ssn k1)) as [[Q1 seq2] ms1] eqn:Ep1.
  destruct (pop_gen U k k1 Q Q1 seq2 ms1 Hn1 SQ L Ep1) as (J1 & k2 & -> & Hbt1 & -> & Hk2 & HU1 & S1 & L1 & Hor1).
  (* pruning takes the chunks of the messages up to j away *)
  destruct (prune_sorted cum Hc Q1 S1) as (S2 & Inc2 & Gt2).
  { eapply Forall_impl; [|exact L1]. intros x. apply labg_inw. }
  set (Q2 := fst (prune_chunks Q1 cum)) in *.
  assert (L2 : Forall (labg k2 U) Q2).
  { apply Forall_forall. intros x Hx. rewrite Forall_forall in L1, Gt2. pose proof (L1 x (Inc2 x Hx)) as Lx.
    destruct Hor1 as [->|Hor1]; [|rewrite Forall_forall in Hor1; exact (Hor1 x (Inc2 x Hx))].
    destruct Hk1 as [->|[Hle ->]]; [exact Lx|]. destruct Lx as (jx & ix & A & _ & HUx).
    exists jx, ix. split; [exact A|]. split; [|exact HUx].
    destruct (le_lt_dec (S j) jx) as [Hok|Hbad]; [exact Hok|]. exfalso.
    pose proof (Hdis jx ix x A ltac:(lia)). pose proof (Gt2 x Hx). lia. }
  destruct (pop_messages Q2 (ssn k2)) as [[Q3' seq3] ms2] eqn:Ep2. injection H as <- <- <-.
  pose proof (between_le _ _ _ Hbt1) as Hkk2.
  destruct (pop_at U k2 Q2 Q3' seq3 ms2 ltac:(unfold U in *; lia) S2 L2 Ep2) as (J2 & k3 & -> & Hbt2 & -> & HU3 & S3 & L3).
  exists (J1 ++ J2), k3. split; [now rewrite msgs_of_app|]. split; [exact (between_app _ _ _ _ _ Hbt1 Hbt2)|].
  split; [reflexivity|]. split; [exact HU3|].
  pose proof (between_le _ _ _ Hbt2). apply (labg_qinv U); [exact S3|exact L3|unfold U; lia].
Qed.

Inductive sev := SData (c : chunk) | SFwd (cum sq : Z).

Definition sapply (Q : list chunk) (seq : Z) (ev : sev) : option (list chunk * Z * list message) :=
  match ev with
  | SData c => match add_chunk Q c with AddOk Q1 => Some (pop_messages Q1 seq) | AddAssert => None end
  | SFwd cum sq => Some (sfwd Q seq cum sq)
  end.

Definition admissible (k : nat) (Q : list chunk) (ev : sev) : Prop :=
  match ev with
  | SData c => labelled k c /\ forall x, In x Q -> offc x <> offc c
  | SFwd cum sq => fwd_ok k cum sq
  end.

Theorem sstep_ok k Q ev : qinv k Q -> admissible k Q ev ->
  exists Q' k' J, sapply Q (ssn k) ev = Some (Q', ssn k', msgs_of J) /\ between k J k' /\
    Z.of_nat k' <= Z.of_nat k + 32768 /\ qinv k' Q'.
Proof.
  intros Q0 Ha. destruct ev as [c|cum sq]; cbn [sapply admissible] in *.
  - destruct Ha as [Lc Hne]. destruct (add_qinv k Q c Q0 Lc Hne) as (Q1 & -> & Q1i & _).
    destruct (qinv_labg k Q1 Q1i) as [S1 L1].
    destruct (pop_messages Q1 (ssn k)) as [[Q2 s2] ms] eqn:Ep.
    destruct (pop_at (Z.of_nat k + 32768) k Q1 Q2 s2 ms ltac:(lia) S1 L1 Ep) as (J & k' & -> & Hbt & -> & HU & S2 & L2).
    exists Q2, k', J. pose proof (between_le _ _ _ Hbt). pose proof (labg_qinv (Z.of_nat k + 32768) k' Q2 S2 L2 ltac:(lia)). auto.
  - destruct (sfwd Q (ssn k) cum sq) as [[Q3 s3] ms] eqn:Ef.
    destruct (sfwd_ok k Q cum sq Q3 s3 ms Q0 Ha Ef) as (J & k' & -> & Hbt & -> & HU & Q3i).
    exists Q3, k', J. auto.
Qed.

(* the delivery point after a step, recovered from the stream's counter *)
Definition knext (k : nat) (s' : Z) : nat := (k + Z.to_nat ((s' - ssn k) mod 65536))%nat.
Lemma knext_ssn k k' : (k <= k')%nat -> Z.of_nat k' <= Z.of_nat k + 32768 -> knext k (ssn k') = k'.
Proof.
  intros H1 H2. unfold knext, ssn. rewrite <- Zminus_mod.
  replace (s0 + Z.of_nat k' - (s0 + Z.of_nat k)) with (Z.of_nat (k' - k)) by lia.
  rewrite Z.mod_small, Nat2Z.id by lia. lia.
Qed.

Fixpoint srunF (Q : list chunk) (seq : Z) (evs : list sev) : option (list message) :=
  match evs with
  | [] => Some []
  | ev :: evs' =>
      match sapply Q seq ev with
      | Some (Q', s', ms) => match srunF Q' s' evs' with Some out => Some (ms ++ out) | None => None end
      | None => None
      end
  end.

(* every event is admissible at the delivery point it meets *)
Fixpoint sokF (k : nat) (Q : list chunk) (evs : list sev) : Prop :=
  match evs with
  | [] => True
  | ev :: evs' =>
      admissible k Q ev /\
      match sapply Q (ssn k) ev with Some (Q', s', _) => sokF (knext k s') Q' evs' | None => True end
  end.

Lemma fwd_between : forall evs k Q, qinv k Q -> sokF k Q evs ->
  exists J k', srunF Q (ssn k) evs = Some (msgs_of J) /\ between k J k'.
Proof.
  induction evs as [|ev evs IH]; intros k Q Q0 Hok; cbn [srunF].
  - exists [], k. split; [reflexivity|exact (le_n k)].
  - cbn [sokF] in Hok. destruct Hok as [Ha Hrest].
    destruct (sstep_ok k Q ev Q0 Ha) as (Q' & k' & J & E & Hbt & HU & Q'i). rewrite E in *.
    rewrite (knext_ssn k k' (between_le _ _ _ Hbt) HU) in Hrest.
    destruct (IH k' Q' Q'i Hrest) as (J2 & k2 & E2 & Hbt2). rewrite E2.
    exists (J ++ J2), k2. split; [now rewrite msgs_of_app|exact (between_app _ _ _ _ _ Hbt Hbt2)].
Qed.

(* IN ORDER, WITH FORWARD-TSN.  On an ordered stream, for every list of admissible events -- chunks of
   messages at or beyond the delivery point, and FORWARD-TSN chunks as the sender builds them -- the
   delivered messages are the messages of a strictly increasing list of message indices: they come
   out in sending order and none comes out twice (some are skipped: that is partial reliability). *)
Theorem fwd_ordered : forall evs k Q, qinv k Q -> sokF k Q evs ->
  exists J, srunF Q (ssn k) evs = Some (msgs_of J) /\ incr_from k J.
Proof.
  intros evs k Q Q0 Hok. destruct (fwd_between evs k Q Q0 Hok) as (J & k' & E & Hbt).
  exists J. split; [exact E|exact (between_incr _ _ _ Hbt)].
Qed.
End Ordered.
