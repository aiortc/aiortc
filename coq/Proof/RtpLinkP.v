(* C11: sender stream -> arbitrary network -> video receiver.  Every arrival is a sent packet or
   the RTX wrapping of one; what the decoder gets is stated in terms of the SENDER's frames. *)
From Coq Require Import ZArith List Bool Lia.
From AV Require Import Lib.Bytes Lib.BytesP Lib.RtpX Gen.Utils Gen.RtpConst Model.Rtp Model.RtpRecv.
From AV Require Lib.CodecX Model.Jitter Proof.JitterP Proof.JitterInvP.
From AV Require Import Proof.SerialP Proof.RtpRecvNackP Proof.RtpRecvJbP Proof.RtpRecvP.
From AV Require Proof.RtpSendP.
Import ListNotations.
Local Open Scope Z_scope.

Section Link.
Variable c : config.
Variables mpt mssrc : Z.        (* media payload type and SSRC *)
Variable k : ckind.             (* the media codec *)
Variable rpt : option Z.        (* negotiated RTX payload type, if any *)
Variable rssrc : Z.             (* RTX SSRC *)

(* the receiver's tables match what the sender uses *)
Definition link_ok : Prop :=
  assoc (codecs c) mpt = Some k /\ (forall apt, k <> KRtx apt) /\
  match rpt with
  | Some r => assoc (codecs c) r = Some (KRtx (Some mpt)) /\ assoc (rtx_ssrc c) rssrc = Some mssrc
  | None => True
  end.

Definition media_pkt (x : rtp) : Prop :=
  in16 (sequence_number x) /\ padding_size x = 0 /\ payload_type x = mpt /\ ssrc x = mssrc.

Definition from_sender (sent : list rtp) (a : rtp) : Prop :=
  In a sent \/ exists x r sq, In x sent /\ rpt = Some r /\ wrap_rtx x r sq rssrc = Ok a.

Variable sframes : list (list rtp).   (* the sender's non-empty frames, in order *)
Variable base : Z.                    (* first sequence number *)

Definition stream_ok : Prop :=
  0 <= base < 65536 /\
  (forall i x, nth_error (concat sframes) i = Some x -> sequence_number x = uint16_add base (Z.of_nat i)) /\
  Forall (fun g => g <> [] /\ exists t, Forall (fun x => timestamp x = t /\ media_pkt x) g) sframes.

Definition ts_apart : Prop :=
  forall g g' x x', In g sframes -> In g' sframes -> In x g -> In x' g' -> timestamp x = timestamp x' -> g = g'.

(* every payload is accepted by the depayloader (true of what the packetisers produce: C16) *)
Definition depayloadable : Prop :=
  Forall (Forall (fun x => exists d, data_of k x = CodecX.Ok d)) sframes.

Definition jp (x : rtp) : Jitter.pkt :=
  jpkt_of x (match data_of k x with CodecX.Ok d => d | _ => [] end).

Definition jframes : list (list Jitter.pkt) := map (map jp) sframes.

Hypothesis HL : link_ok.
Hypothesis HS : stream_ok.
Hypothesis HD : depayloadable.

Lemma sent_facts x : In x (concat sframes) -> media_pkt x /\ exists d, data_of k x = CodecX.Ok d.
Proof.
  intros H. apply in_concat in H. destruct H as (g & Hg & Hx). destruct HS as (_ & _ & HF).
  rewrite Forall_forall in HF. destruct (HF g Hg) as (_ & t & Ht). rewrite Forall_forall in Ht.
  split; [exact (proj2 (Ht x Hx))|]. unfold depayloadable in HD. rewrite Forall_forall in HD.
  specialize (HD g Hg). rewrite Forall_forall in HD. exact (HD x Hx).
Qed.

Lemma media_of_arrival a : from_sender (concat sframes) a ->
  exists x, In x (concat sframes) /\ media_of c a = Some (x, mpt, k).
Proof.
  destruct HL as (Hk & Hnr & Hr). intros [Hin|(x & r & sq & Hin & Er & Ew)].
  - exists a. split; [exact Hin|]. destruct (sent_facts a Hin) as [(_ & _ & Ept & _) _].
    unfold media_of, unwrap_stage. rewrite Ept, Hk. destruct k as [| | |apt]; try reflexivity.
    exfalso. exact (Hnr apt eq_refl).
  - exists x. split; [exact Hin|]. destruct (sent_facts x Hin) as [(Hs & Hp & Ept & Ess) _].
    rewrite Er in Hr. destruct Hr as [Hr1 Hr2].
    destruct (RtpSendP.rtx_roundtrip x r sq rssrc Hs Hp) as (a' & Ew' & E1 & _ & E3 & Eu).
    rewrite Ew in Ew'. injection Ew' as <-.
    unfold media_of, unwrap_stage. rewrite E1, Hr1, E3, Hr2.
    assert (Hlen : Nat.ltb (length (payload a)) 2 = false).
    { unfold wrap_rtx in Ew. destruct (u16ok (sequence_number x)); [|discriminate]. injection Ew as <-.
      cbn [payload]. apply Nat.ltb_ge. cbn. lia. }
    rewrite Hlen, Hk. rewrite Ept, Ess in Eu. rewrite Eu. reflexivity.
Qed.

Lemma jb_input_arrival a : from_sender (concat sframes) a ->
  exists x, In x (concat sframes) /\ jb_input c a = [jp x] /\ nack_input c a = [sequence_number x].
Proof.
  intros H. destruct (media_of_arrival a H) as (x & Hin & E). exists x. split; [exact Hin|].
  unfold jb_input, nack_input, jp. rewrite E. destruct (sent_facts x Hin) as [_ [d Ed]]. rewrite Ed. auto.
Qed.

Lemma In_jframes_concat x : In x (concat sframes) -> In (jp x) (concat jframes).
Proof.
  intros H. apply in_concat in H. destruct H as (g & Hg & Hx). apply in_concat. exists (map jp g).
  split; [apply in_map; exact Hg|apply in_map; exact Hx].
Qed.

Lemma arrivals_sent l : Forall (from_sender (concat sframes)) l ->
  Forall (sent jframes) (flat_map (jb_input c) l) /\ Forall JitterP.seq16 (flat_map (jb_input c) l).
Proof.
  induction 1 as [|a l Ha _ [IH1 IH2]]; [split; constructor|]. cbn [flat_map].
  destruct (jb_input_arrival a Ha) as (x & Hin & -> & _). cbn [app].
  split; constructor; try assumption.
  - apply In_jframes_concat. exact Hin.
  - unfold JitterP.seq16, jp, jpkt_of. cbn [Jitter.pseq]. destruct (sent_facts x Hin) as [(Hs & _) _]. exact Hs.
Qed.

Lemma frames_numbered : forall (fs : list (list rtp)) b, RtpSendP.numbered b (concat fs) ->
  forall g, In g fs -> exists b', RtpSendP.numbered b' g.
Proof.
  induction fs as [|g0 fs IH]; intros b H g Hg; [destruct Hg|]. cbn [concat] in H.
  apply RtpSendP.numbered_app in H. destruct H as [H1 H2].
  destruct Hg as [<-|Hg]; [exists b; exact H1|exact (IH _ H2 g Hg)].
Qed.

Hypothesis HT : ts_apart.

Lemma jframes_ts : ts_distinct jframes.
Proof.
  intros gj gj' p p' Hg Hg' Hp Hp' E. unfold jframes in *.
  apply in_map_iff in Hg. destruct Hg as (g & <- & Hg). apply in_map_iff in Hg'. destruct Hg' as (g' & <- & Hg').
  apply in_map_iff in Hp. destruct Hp as (x & <- & Hx). apply in_map_iff in Hp'. destruct Hp' as (x' & <- & Hx').
  f_equal. exact (HT g g' x x' Hg Hg' Hx Hx' E).
Qed.

Lemma jframes_ok : Forall (fun g => Z.of_nat (length g) < 65536) sframes -> Forall frame_ok jframes.
Proof.
  intros Hlen. apply Forall_forall. intros gj Hgj. unfold jframes in Hgj. apply in_map_iff in Hgj.
  destruct Hgj as (g & <- & Hg). destruct HS as (_ & Hnum & HF). rewrite Forall_forall in HF, Hlen.
  destruct (HF g Hg) as (_ & t & Ht). rewrite Forall_forall in Ht.
  destruct (frames_numbered sframes base Hnum g Hg) as (b' & Hn').
  split; [rewrite map_length; exact (Hlen g Hg)|].
  exists b', t. intros j p E. rewrite nth_error_map in E.
  destruct (nth_error g j) as [x|] eqn:Ex; [|discriminate]. injection E as <-.
  split; [exact (Hn' j x Ex)|]. apply Ht. eapply nth_error_In. exact Ex.
Qed.

Lemma jframes_seq : Z.of_nat (length (concat sframes)) <= 65536 -> seq_distinct jframes.
Proof.
  intros Hlen p q Hp Hq E. unfold jframes in *.
  assert (Hc : forall fs : list (list rtp), concat (map (map jp) fs) = map jp (concat fs)).
  { induction fs as [|g fs IH]; [reflexivity|]. cbn [map concat]. rewrite map_app, IH. reflexivity. }
  rewrite Hc in Hp, Hq.
  apply in_map_iff in Hp. destruct Hp as (x & <- & Hx). apply in_map_iff in Hq. destruct Hq as (y & <- & Hy).
  f_equal. apply In_nth_error in Hx. destruct Hx as [i Ei]. apply In_nth_error in Hy. destruct Hy as [j Ej].
  destruct HS as (_ & Hnum & _).
  apply JitterP.nth_error_some_lt in Ei as Hi. apply JitterP.nth_error_some_lt in Ej as Hj.
  unfold jp, jpkt_of in E. cbn [Jitter.pseq] in E. rewrite (Hnum i x Ei), (Hnum j y Ej) in E.
  apply uint16_add_inj, Nat2Z.inj in E; [|lia|lia]. subst j. congruence.
Qed.

(* C11_frame_identity: never a splice *)
Theorem frames_unspliced arrivals s outs :
  Forall (fun g => Z.of_nat (length g) < 65536) sframes ->
  Forall (from_sender (concat sframes)) arrivals ->
  run c init_video arrivals = Ok (s, outs) ->
  Forall (fun o => match o_frame o with Some (_, _, d) => part_data jframes d | None => True end) outs.
Proof.
  intros Hlen HA ER. destruct (video_run_factor c arrivals _ _ ER) as (jouts & EJ & AL).
  destruct (arrivals_sent arrivals HA) as [S1 S2].
  eapply aligned_parts; [exact AL|].
  eapply (jitter_parts jframes VIDEO_CAPACITY 0 true); try eassumption.
  - exact cap_ok_video.
  - apply jframes_ok. exact Hlen.
  - exact jframes_ts.
Qed.

(* C11_frame_whole *)
Theorem frames_whole arrivals s outs :
  Z.of_nat (length (concat sframes)) < 65536 -> rtcp_ssrc c <> None ->
  Forall (from_sender (concat sframes)) arrivals ->
  run c init_video arrivals = Ok (s, outs) ->
  pscan jframes false outs.
Proof.
  intros Hlen Hr HA ER. destruct (video_run_factor c arrivals _ _ ER) as (jouts & EJ & AL).
  destruct (arrivals_sent arrivals HA) as [S1 S2].
  assert (Hb : is_some (rtcp_ssrc c) = true) by (destruct (rtcp_ssrc c); [reflexivity|congruence]).
  rewrite Hb in AL. eapply aligned_scan; [exact AL|].
  eapply (jitter_scan jframes VIDEO_CAPACITY 0); try eassumption.
  - exact cap_ok_video.
  - apply jframes_ok. apply Forall_forall. intros g Hg.
    assert (length g <= length (concat sframes))%nat; [|lia].
    clear - Hg. induction sframes as [|g0 fs IH]; [destruct Hg|]. cbn [concat]. rewrite app_length.
    destruct Hg as [->|Hg]; [lia|]. specialize (IH Hg). lia.
  - exact jframes_ts.
  - apply jframes_seq. lia.
Qed.

End Link.
