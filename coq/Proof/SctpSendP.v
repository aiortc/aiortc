(* Sender fragmentation (_send): the structure of the chunks it makes, the TSNs it gives them, and
   integrity of delivery (SctpC01P.delivered_is_sent) for them. *)
From Coq Require Import ZArith List Bool Lia.
From AV Require Import Lib.Bytes Lib.BytesP Gen.Utils Gen.SctpConst Model.SctpRecv Model.SctpSend
  Proof.SctpRecvP Proof.SctpC01P.
Import ListNotations.
Local Open Scope Z_scope.

Ltac Zify.zify_post_hook ::= Z.to_euclidean_division_equations.

Lemma frag_size_pos : (0 < frag_size)%nat.
Proof. unfold frag_size, USERDATA_MAX_LENGTH. lia. Qed.

Lemma frag_loop_frags st sq pp un : forall n data t b, (1 <= n)%nat ->
  frags st sq pp un t b (frag_loop n data t st sq un pp b).
Proof.
  induction n as [|n IH]; intros data t b Hn; [lia|]. cbn [frag_loop].
  destruct n as [|n'].
  - cbn [frag_loop Nat.eqb].
    apply (frags_last st sq pp un (mkChunk t st sq un b true pp (firstn frag_size data))); reflexivity.
  - apply (frags_cons st sq pp un (mkChunk t st sq un b (Nat.eqb (S n') 0) pp (firstn frag_size data))); try reflexivity.
    cbn [tsn]. apply IH. lia.
Qed.

Lemma frag_loop_nth st sq pp un : forall n data t b i c,
  nth_error (frag_loop n data t st sq un pp b) i = Some c ->
  tsn c = tsn_advance i t /\ sid c = st /\ sseq c = sq /\ unordered c = un /\
  first c = (b && Nat.eqb i 0) /\ last c = Nat.eqb (S i) n /\ ppid c = pp /\ len (udata c) <= USERDATA_MAX_LENGTH.
Proof.
  induction n as [|n IH]; intros data t b i c H; [destruct i; discriminate|].
  cbn [frag_loop] in H. destruct i as [|i]; cbn [nth_error] in H.
  - assert (E : c = mkChunk t st sq un b (Nat.eqb n 0) pp (firstn frag_size data)) by congruence. rewrite E.
    cbn [tsn sid sseq unordered first last ppid udata tsn_advance Nat.eqb]. rewrite andb_true_r.
    repeat split; try reflexivity; [destruct n; reflexivity|].
    unfold len. rewrite firstn_length. unfold frag_size, USERDATA_MAX_LENGTH. lia.
  - apply IH in H as (H1 & H2 & H3 & H4 & H5 & H6). cbn [tsn_advance Nat.eqb]. rewrite andb_false_r.
    cbn [andb] in H5. repeat split; assumption || apply H6.
Qed.

Lemma frag_loop_join st sq pp un : forall n data t b, (length data <= n * frag_size)%nat ->
  join_data (frag_loop n data t st sq un pp b) = data.
Proof.
  unfold join_data.
  induction n as [|n IH]; intros data t b Hlen; cbn [frag_loop map concat].
  - destruct data; [reflexivity|cbn in Hlen; lia].
  - cbn [udata]. rewrite IH.
    + apply firstn_skipn.
    + rewrite skipn_length. lia.
Qed.

Lemma fragments_count_bounds data : data <> [] ->
  (1 <= fragments_count data)%nat /\ (length data <= fragments_count data * frag_size)%nat.
Proof.
  intros Hne. unfold fragments_count, frag_size, USERDATA_MAX_LENGTH, len.
  assert (0 < length data)%nat by (destruct data; [congruence|cbn; lia]).
  split.
  - apply Nat2Z.inj_le. rewrite Z2Nat.id by (apply Z.div_pos; lia). lia.
  - apply Nat2Z.inj_le. rewrite Nat2Z.inj_mul, !Z2Nat.id by (try apply Z.div_pos; lia). lia.
Qed.

Fixpoint tsn_seq (n : nat) (t : Z) : list Z :=
  match n with O => [] | S n' => t :: tsn_seq n' (tsn_plus_one t) end.

Lemma frag_loop_tsns st sq pp un : forall n data t b,
  map tsn (frag_loop n data t st sq un pp b) = tsn_seq n t.
Proof. induction n as [|n IH]; intros; cbn [frag_loop map tsn_seq tsn]; [reflexivity|]. now rewrite IH. Qed.

Lemma frag_loop_length st sq pp un : forall n data t b, length (frag_loop n data t st sq un pp b) = n.
Proof. induction n as [|n IH]; intros; cbn [frag_loop length]; [reflexivity|]. now rewrite IH. Qed.

Lemma tsn_seq_app n m t : tsn_seq (n + m) t = tsn_seq n t ++ tsn_seq m (tsn_advance n t).
Proof.
  revert t. induction n as [|n IH]; intros t; cbn [tsn_seq tsn_advance Nat.add app]; [reflexivity|].
  now rewrite IH.
Qed.

Definition in32 (t : Z) : Prop := 0 <= t < SCTP_TSN_MODULO.

Lemma tsn_plus_one_in32 t : in32 (tsn_plus_one t).
Proof. unfold in32, tsn_plus_one, SCTP_TSN_MODULO. lia. Qed.

Lemma in_tsn_seq n : forall t x, in32 t -> In x (tsn_seq n t) ->
  exists k, 0 <= k < Z.of_nat n /\ x = (t + k) mod SCTP_TSN_MODULO.
Proof.
  induction n as [|n IH]; intros t x Ht; cbn [tsn_seq In]; [intros []|].
  intros [<-|Hin].
  - exists 0. unfold in32, SCTP_TSN_MODULO in *. split; lia.
  - apply IH in Hin; [|apply tsn_plus_one_in32]. destruct Hin as (k & Hk & ->).
    exists (k + 1). split; [lia|]. unfold tsn_plus_one, SCTP_TSN_MODULO, in32 in *. lia.
Qed.

Lemma tsn_seq_nodup n : forall t, in32 t -> Z.of_nat n <= SCTP_TSN_MODULO -> NoDup (tsn_seq n t).
Proof.
  induction n as [|n IH]; intros t Ht Hn; cbn [tsn_seq]; [constructor|].
  constructor.
  - intros Hin. apply in_tsn_seq in Hin; [|apply tsn_plus_one_in32].
    destruct Hin as (k & Hk & E). unfold tsn_plus_one, SCTP_TSN_MODULO, in32 in *. lia.
  - apply IH; [apply tsn_plus_one_in32|lia].
Qed.

Lemma NoDup_map_inj {A B} (f : A -> B) (l : list A) a b :
  NoDup (map f l) -> In a l -> In b l -> f a = f b -> a = b.
Proof.
  induction l as [|x l IH]; cbn [map In]; [intros _ []|].
  intros Hnd Ha Hb E. inversion Hnd as [|? ? Hx Hl]; subst.
  destruct Ha as [<-|Ha], Hb as [<-|Hb]; auto.
  - exfalso. apply Hx. rewrite E. now apply in_map.
  - exfalso. apply Hx. rewrite <- E. now apply in_map.
Qed.

Fixpoint sent_of (s : sstate) (ms : list outmsg) : list sentmsg :=
  match ms with
  | [] => []
  | m :: ms' => let '(s1, cs) := send_msg s m in mkSent (o_sid m) (o_ppid m) (o_data m) cs :: sent_of s1 ms'
  end.

Lemma sent_of_frags s ms : map sm_frags (sent_of s ms) = send_msgs s ms.
Proof.
  revert s. induction ms as [|m ms IH]; intros s; cbn [sent_of send_msgs]; [reflexivity|].
  destruct (send_msg s m) as [s1 cs]. cbn [map sm_frags]. now rewrite IH.
Qed.

Lemma sent_of_ok s ms : Forall (fun m => o_data m <> []) ms -> Forall sent_ok (sent_of s ms).
Proof.
  revert s. induction ms as [|m ms IH]; intros s Hne; cbn [sent_of]; [constructor|].
  inversion Hne as [|? ? Hm Hrest]; subst.
  destruct (send_msg s m) as [s1 cs] eqn:E. constructor; [|now apply IH].
  unfold send_msg in E. injection E as _ <-. unfold sent_ok. cbn [sm_sid sm_ppid sm_data sm_frags].
  destruct (fragments_count_bounds (o_data m) Hm) as [H1 H2].
  eexists _, _, _. split; [apply frag_loop_frags; exact H1|apply frag_loop_join; exact H2].
Qed.

Definition total_frags (ms : list outmsg) : nat := fold_right (fun m acc => (fragments_count (o_data m) + acc)%nat) O ms.

Lemma send_msgs_tsns : forall ms s,
  map tsn (concat (send_msgs s ms)) = tsn_seq (total_frags ms) (local_tsn s).
Proof.
  induction ms as [|m ms IH]; intros s; cbn [send_msgs total_frags fold_right]; [reflexivity|].
  destruct (send_msg s m) as [s1 cs] eqn:E. cbn [concat]. rewrite map_app, IH.
  unfold send_msg in E. injection E as <- <-. cbn [local_tsn].
  rewrite frag_loop_tsns. fold (total_frags ms). now rewrite tsn_seq_app.
Qed.

Lemma sent_of_tsn_inj s ms : in32 (local_tsn s) -> Z.of_nat (total_frags ms) <= SCTP_TSN_MODULO ->
  tsn_inj (all_chunks (sent_of s ms)).
Proof.
  intros Ht Hn. unfold tsn_inj, all_chunks. rewrite sent_of_frags.
  intros a b Ha Hb E. eapply NoDup_map_inj; eauto.
  rewrite send_msgs_tsns. now apply tsn_seq_nodup.
Qed.

Lemma sent_of_msgs s ms sm : In sm (sent_of s ms) ->
  exists m, In m ms /\ sm_sid sm = o_sid m /\ sm_ppid sm = o_ppid m /\ sm_data sm = o_data m.
Proof.
  revert s. induction ms as [|m ms IH]; intros s; cbn [sent_of]; [intros []|].
  destruct (send_msg s m) as [s1 cs]. intros [<-|Hin].
  - exists m. cbn. auto.
  - apply IH in Hin as (m' & H1 & H2). exists m'. split; [now right|exact H2].
Qed.

(* what delivered_is_sent says of the chunks _send makes *)
Theorem sent_delivered t0 msgs base es :
  in32 t0 -> Forall (fun m => o_data m <> []) msgs -> Z.of_nat (total_frags msgs) <= SCTP_TSN_MODULO ->
  Forall (ev_ok (concat (send_msgs (mkS t0 []) msgs))) es ->
  Forall (fun o => Forall (fun d => exists m, In m msgs /\ d = (o_sid m, o_ppid m, o_data m)) (out_msgs o))
         (snd (rrun (rinit base) es)).
Proof.
  intros Ht Hne Htot Hes. rewrite <- sent_of_frags in Hes.
  pose proof (delivered_is_sent _ es (rinit base) (sent_of_ok _ _ Hne)
                (sent_of_tsn_inj (mkS t0 []) msgs Ht Htot) (chunks_in_rinit _ base) Hes) as H.
  eapply Forall_impl; [|exact H]. intros o Ho. eapply Forall_impl; [|exact Ho].
  intros d (m & Hm & ->). destruct (sent_of_msgs _ _ _ Hm) as (m' & H1 & -> & -> & ->). eauto.
Qed.

(* fragmentation is lossless and marks exactly the first / last fragment *)
Theorem send_msg_fragments s m : o_data m <> [] ->
  let cs := snd (send_msg s m) in
  join_data cs = o_data m /\
  cs <> [] /\
  first (hd (mkChunk 0 0 0 false false false 0 []) cs) = true /\
  last (List.last cs (mkChunk 0 0 0 false false false 0 [])) = true /\
  Forall (fun c => sid c = o_sid m /\ ppid c = o_ppid m /\ unordered c = negb (o_ordered m) /\
                   (len (udata c) <= USERDATA_MAX_LENGTH)) cs /\
  map tsn cs = tsn_seq (length cs) (local_tsn s).
Proof.
  intros Hne. cbn zeta. unfold send_msg. cbn [snd].
  destruct (fragments_count_bounds (o_data m) Hne) as [H1 H2].
  set (n := fragments_count (o_data m)) in *.
  set (sq := if o_ordered m then _ else _).
  split; [now apply frag_loop_join|].
  assert (Hlen := frag_loop_length (o_sid m) sq (o_ppid m) (negb (o_ordered m)) n (o_data m) (local_tsn s) true).
  split; [intros E; rewrite E in Hlen; cbn in Hlen; lia|].
  split; [destruct n; [lia|reflexivity]|].
  split.
  - exact (proj2 (proj2 (frags_last_elem _ _ _ _ _ _ _ _ (frag_loop_frags _ sq _ _ n _ _ true H1)))).
  - split.
    + apply Forall_forall. intros c Hc. apply In_nth_error in Hc as (i & Hi).
      apply frag_loop_nth in Hi as (_ & H3 & _ & H4 & _ & _ & H5 & H6). auto.
    + rewrite frag_loop_tsns, Hlen. reflexivity.
Qed.

Lemma app_roundtrip v : let '(pp, d) := encode_app v in decode_app pp d = Some v.
Proof. destruct v as [[|x u]|[|x b]]; reflexivity. Qed.

Lemma app_encode_nonempty v : snd (encode_app v) <> [].
Proof. destruct v as [[|x u]|[|x b]]; discriminate. Qed.

Lemma ppids_distinct :
  NoDup [WEBRTC_DCEP; WEBRTC_STRING; WEBRTC_BINARY; WEBRTC_STRING_EMPTY; WEBRTC_BINARY_EMPTY].
Proof.
  repeat constructor; cbn [In]; unfold WEBRTC_DCEP, WEBRTC_STRING, WEBRTC_BINARY, WEBRTC_STRING_EMPTY, WEBRTC_BINARY_EMPTY; lia.
Qed.
