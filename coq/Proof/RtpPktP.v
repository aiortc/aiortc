(* Proofs about Model/Rtp.v, part 3: RtpPacket.parse (serialize p) = p; RTX inverse. *)
From Coq Require Import ZArith List Bool Lia.
From AV Require Import Lib.Bytes Lib.BytesP Lib.RtpX Gen.RtpConst Model.Rtp
  Proof.RtpBitsP Proof.RtpP Proof.RtpHextP.
Import ListNotations.
Local Open Scope Z_scope.

Ltac Zify.zify_post_hook ::= Z.to_euclidean_division_equations.

Definition is_u32 (x : Z) : Prop := 0 <= x < 4294967296.

Definition wf_rtp (m : ids) (p : rtp) (pad : bytes) : Prop :=
  0 <= marker p <= 1 /\ 0 <= payload_type p < 128 /\ 0 <= sequence_number p < 65536 /\
  is_u32 (timestamp p) /\ is_u32 (ssrc p) /\ Forall is_u32 (csrc p) /\ (length (csrc p) <= 15)%nat /\
  wf_hext m (extensions p) /\ bytes_ok (payload p) /\ 0 <= padding_size p <= 255 /\
  (0 < padding_size p -> bytes_ok pad /\ Z.of_nat (length pad) = padding_size p - 1).

(* ================================================================ first two bytes *)
Lemma b2z_range b : 0 <= b2z b <= 1.
Proof. destruct b; cbn [b2z]; lia. Qed.

(* V=2, P, X and CC as written and as read *)
Lemma byte0_value p x cc :
  0 <= p <= 1 -> 0 <= x <= 1 -> 0 <= cc < 16 ->
  Z.lor (Z.lor (Z.lor (Z.shiftl 2 6) (Z.shiftl p 5)) (Z.shiftl x 4)) cc = 128 + p * 32 + x * 16 + cc.
Proof.
  intros Hp Hx Hc. change (Z.shiftl 2 6) with 128. rewrite !Z.shiftl_mul_pow2 by lia.
  rewrite (lor_add 128 _ 7), (lor_add _ (x * 2 ^ 4) 5), (lor_add _ cc 4) by lia. lia.
Qed.

Lemma byte0_fields p x cc :
  0 <= p <= 1 -> 0 <= x <= 1 -> 0 <= cc < 16 ->
  Z.shiftr (128 + p * 32 + x * 16 + cc) 6 = 2 /\ Z.land (Z.shiftr (128 + p * 32 + x * 16 + cc) 5) 1 = p /\
  Z.land (Z.shiftr (128 + p * 32 + x * 16 + cc) 4) 1 = x /\ Z.land (128 + p * 32 + x * 16 + cc) 15 = cc.
Proof. intros Hp Hx Hc. rewrite !Z.shiftr_div_pow2, !land_1, land_15 by lia. lia. Qed.

(* M and PT *)
Lemma byte1_value mk pt : 0 <= pt < 128 -> Z.lor (Z.shiftl mk 7) pt = mk * 128 + pt.
Proof. intros Hp. apply (lor_shiftl mk pt 7); lia. Qed.

Lemma byte1_fields mk pt :
  0 <= mk -> 0 <= pt < 128 -> Z.shiftr (mk * 128 + pt) 7 = mk /\ Z.land (mk * 128 + pt) 127 = pt.
Proof. intros Hm Hp. rewrite Z.shiftr_div_pow2, land_127 by lia. lia. Qed.

(* ================================================================ parsing a laid-out packet *)
Definition ext_part (m : ids) (xb : bool) (ex : bytes) (exts : hext) : Prop :=
  if xb then
    exists prof ev, ex = be16 prof ++ be16 (len ev / 4) ++ ev /\ len ev mod 4 = 0 /\
                    len ev / 4 < 65536 /\ 0 <= prof < 65536 /\ hext_get m prof ev = Ok exts
  else ex = [] /\ exts = hext_empty.

Definition pad_part (pb : bool) (tail : bytes) (padsz : Z) : Prop :=
  if pb then exists pad, tail = pad ++ [padsz] /\ 1 <= padsz <= 255 /\ Z.of_nat (length pad) = padsz - 1
  else tail = [] /\ padsz = 0.

(* the header extension block, found at the end of `pre` *)
Lemma parse_ext_stage m xb ex exts data pre post pos :
  data = pre ++ ex ++ post -> pos = length pre -> ext_part m xb ex exts ->
  (if b2z xb =? 0 then Ok (hext_empty, pos)
   else if Nat.ltb (length data) (pos + 4) then ValueErr
   else match u16 data pos, u16 data (pos + 2) with
        | Some profile, Some words =>
            if Nat.ltb (length data) (pos + 4 + Z.to_nat (words * 4)) then ValueErr
            else do e <- hext_get m profile (slice data (pos + 4) (pos + 4 + Z.to_nat (words * 4)));
                 Ok (e, (pos + 4 + Z.to_nat (words * 4))%nat)
        | _, _ => Crash
        end) = Ok (exts, (pos + length ex)%nat).
Proof.
  intros Hd Hpos Hext. destruct xb; cbn [b2z Z.eqb ext_part] in *.
  - destruct Hext as (prof & ev & -> & Hm4 & Hw & Hprof & Hget).
    assert (Hlev := len_nonneg ev).
    assert (Hlen : length data = (pos + 4 + length ev + length post)%nat).
    { rewrite Hd, !app_length, !length_be16. lia. }
    rewrite <- !app_assoc in Hd.
    rewrite (proj2 (Nat.ltb_ge _ _)) by lia.
    rewrite (u16_at' data pre prof _ pos Hd Hpos Hprof).
    rewrite (u16_at' data (pre ++ be16 prof) (len ev / 4) (ev ++ post))
      by (rewrite ?app_length, ?length_be16, <- ?app_assoc; lia || assumption).
    replace (Z.to_nat (len ev / 4 * 4)) with (length ev) by (unfold len in *; lia).
    rewrite (proj2 (Nat.ltb_ge _ _)) by lia.
    rewrite (slice_at' data (pre ++ be16 prof ++ be16 (len ev / 4)) ev post)
      by (rewrite ?app_length, ?length_be16, <- ?app_assoc; lia || assumption).
    rewrite Hget, !app_length, !length_be16. cbn [bind]. do 2 f_equal. lia.
  - destruct Hext as [-> ->]. now rewrite Nat.add_0_r.
Qed.

(* payload and padding, after `pre` *)
Lemma parse_pad_stage pb payload_ tail padsz data pre pos :
  data = pre ++ payload_ ++ tail -> pos = length pre -> pad_part pb tail padsz ->
  (if b2z pb =? 0 then Ok (from data pos, 0)
   else match last_byte data with
        | None => Crash
        | Some pl =>
            if (pl =? 0) || (len data - Z.of_nat pos <? pl) then ValueErr
            else Ok (slice data pos (length data - Z.to_nat pl), pl)
        end) = Ok (payload_, padsz).
Proof.
  intros Hd Hpos Hpad. destruct pb; cbn [b2z Z.eqb pad_part] in *.
  - destruct Hpad as (pad & -> & Hps & Hlp).
    assert (Hlen : length data = (pos + length payload_ + Z.to_nat padsz)%nat).
    { rewrite Hd, !app_length. cbn [length]. lia. }
    replace (last_byte data) with (Some padsz) by (rewrite Hd, !app_assoc; symmetry; apply last_byte_snoc).
    rewrite (proj2 (Z.eqb_neq _ _)), (proj2 (Z.ltb_ge _ _)) by (unfold len; lia). cbn [orb].
    rewrite (slice_at' data pre payload_ _ _ _ Hd Hpos) by lia. reflexivity.
  - destruct Hpad as [-> ->]. rewrite app_nil_r in Hd. now rewrite (from_at' data pre payload_).
Qed.

Lemma rtp_parse_layout m pb xb mk pt seq ts ssrc_ csrc_ cs ex exts payload_ tail padsz :
  0 <= mk <= 1 -> 0 <= pt < 128 -> 0 <= seq < 65536 -> is_u32 ts -> is_u32 ssrc_ ->
  be32s csrc_ = Ok cs -> (length csrc_ <= 15)%nat ->
  ext_part m xb ex exts -> pad_part pb tail padsz ->
  rtp_parse m (be8 (128 + b2z pb * 32 + b2z xb * 16 + Z.of_nat (length csrc_)) ++ be8 (mk * 128 + pt) ++
               be16 seq ++ be32 ts ++ be32 ssrc_ ++ cs ++ ex ++ payload_ ++ tail) =
    Ok (mkRtp mk pt seq ts ssrc_ csrc_ exts payload_ padsz).
Proof.
  unfold is_u32. intros Hmk Hpt Hseq Hts Hssrc Hcs Hcc Hext Hpad.
  assert (Hpb := b2z_range pb). assert (Hxb := b2z_range xb).
  destruct (byte0_fields (b2z pb) (b2z xb) (Z.of_nat (length csrc_))) as (Fv & Fp & Fx & Fc); try lia.
  destruct (byte1_fields mk pt) as [Fm Ft]; try lia.
  remember (128 + b2z pb * 32 + b2z xb * 16 + Z.of_nat (length csrc_)) as b0 eqn:Eb0.
  assert (Hb0 : 0 <= b0 < 256) by lia. clear Eb0 Hpb Hxb.
  assert (Hlcs := be32s_length _ _ Hcs).
  (* the fixed header is a literal 12-byte prefix: its reads are instances of u#_at *)
  set (hdr := be8 b0 ++ be8 (mk * 128 + pt) ++ be16 seq ++ be32 ts ++ be32 ssrc_).
  set (data := be8 b0 ++ _).
  assert (Hd : data = hdr ++ cs ++ ex ++ payload_ ++ tail) by reflexivity.
  assert (Hlen : length data = (12 + 4 * length csrc_ + length (ex ++ payload_ ++ tail))%nat).
  { rewrite Hd, !app_length, Hlcs. reflexivity. }
  unfold rtp_parse.
  rewrite (u8_at [] b0 _ Hb0 : u8 data 0 = _), (u8_at (be8 b0) (mk * 128 + pt) _ ltac:(lia) : u8 data 1 = _).
  rewrite (u16_at (be8 b0 ++ be8 (mk * 128 + pt)) seq _ Hseq : u16 data 2 = _).
  rewrite (u32_at (be8 b0 ++ be8 (mk * 128 + pt) ++ be16 seq) ts _ Hts : u32 data 4 = _).
  rewrite (u32_at (be8 b0 ++ be8 (mk * 128 + pt) ++ be16 seq ++ be32 ts) ssrc_ _ Hssrc : u32 data 8 = _).
  clearbody data. rewrite Fv, Fp, Fx, Fc, Fm, Ft, Nat2Z.id. cbn [Z.eqb Pos.eqb negb].
  rewrite (proj2 (Nat.ltb_ge _ _)), (proj2 (Z.ltb_ge _ _)) by (unfold len; lia).
  rewrite (u32s_at' data hdr csrc_ cs _ 12 _ Hd Hcs eq_refl eq_refl). cbv zeta.
  rewrite (parse_ext_stage m xb ex exts data (hdr ++ cs) (payload_ ++ tail))
    by (rewrite ?app_length, <- ?app_assoc, ?Hlcs; auto). cbn [bind].
  rewrite (parse_pad_stage pb payload_ tail padsz data (hdr ++ cs ++ ex))
    by (rewrite ?app_length, <- ?app_assoc, ?Hlcs; auto). reflexivity.
Qed.

(* ================================================================ serialising the two optional blocks *)
Lemma serialize_ext_stage m prof ev exts :
  hext_get m prof ev = Ok exts -> len ev mod 4 = 0 -> len ev / 4 < 65536 -> 0 <= prof < 65536 ->
  bytes_ok ev ->
  exists ex,
    (if negb (is_nil ev) then
       if u16ok prof && u16ok (Z.shiftr (len ev) 2)
       then Ok (be16 prof ++ be16 (Z.shiftr (len ev) 2) ++ ev) else Crash
     else Ok []) = Ok ex /\ bytes_ok ex /\ ext_part m (negb (is_nil ev)) ex exts.
Proof.
  intros Hget Hm4 Hw Hprof Hevok. assert (Hlev := len_nonneg ev).
  rewrite Z.shiftr_div_pow2 by lia. change (2 ^ 2) with 4.
  destruct ev as [|e0 ev']; cbn [is_nil negb ext_part].
  - exists []. split; [reflexivity|]. split; [apply bytes_ok_nil|]. split; [reflexivity|].
    rewrite hext_get_nil in Hget. congruence.
  - rewrite !u16ok_intro by lia. cbn [andb].
    eexists. split; [reflexivity|]. split.
    + repeat (apply bytes_ok_app; split); auto using be16_ok.
    + exists prof, (e0 :: ev'). auto.
Qed.

Lemma serialize_pad_stage padsz pad :
  0 <= padsz <= 255 -> (0 < padsz -> bytes_ok pad /\ Z.of_nat (length pad) = padsz - 1) ->
  exists tail,
    (if 0 <? padsz then if padsz <? 256 then Ok (pad ++ [padsz]) else ValueErr else Ok []) = Ok tail /\
    bytes_ok tail /\ pad_part (0 <? padsz) tail padsz.
Proof.
  intros Hps Hpad. destruct (Z.ltb_spec 0 padsz) as [Hpos|Hz]; cbn [pad_part].
  - destruct (Hpad Hpos) as [Hpadok Hpadlen]. rewrite (proj2 (Z.ltb_lt _ _)) by lia.
    eexists. split; [reflexivity|]. split.
    + apply bytes_ok_app. split; [exact Hpadok|]. apply bytes_ok_cons. split; [unfold byte_ok; lia|apply bytes_ok_nil].
    + exists pad. split; [reflexivity|]. split; lia.
  - exists []. split; [reflexivity|]. split; [apply bytes_ok_nil|]. split; [reflexivity|lia].
Qed.

(* ================================================================ the round trip *)
Theorem rtp_roundtrip m p pad :
  ids_ok m -> wf_rtp m p pad ->
  exists b, rtp_serialize m p pad = Ok b /\ bytes_ok b /\ rtp_parse m b = Ok p.
Proof.
  intros Hok Hwf. destruct p as [mk pt seq ts ssrc_ csrc_ exts payload_ padsz].
  unfold wf_rtp in Hwf. cbn [marker payload_type sequence_number timestamp ssrc csrc extensions payload padding_size] in Hwf.
  destruct Hwf as (Hmk & Hpt & Hseq & Hts & Hssrc & Hcsrc & Hcc & Hext & Hpay & Hps & Hpad).
  destruct (hext_get_set m exts Hok Hext) as (prof & ev & Hset & Hget & Hevok & Hm4 & Hevlen & Hprof).
  assert (Hw : len ev / 4 < 65536) by (unfold len; lia). clear Hevlen.
  destruct (be32s_ok csrc_ Hcsrc) as [cs Hcs].
  destruct (serialize_ext_stage m prof ev exts Hget Hm4 Hw Hprof Hevok) as (ex & Hex & Hexok & Hexpart).
  destruct (serialize_pad_stage padsz pad Hps Hpad) as (tail & Htl & Htailok & Htailpart).
  unfold rtp_serialize. cbn [marker payload_type sequence_number timestamp ssrc csrc extensions payload padding_size].
  rewrite Hset. cbn [bind].
  assert (Hpb := b2z_range (0 <? padsz)). assert (Hxb := b2z_range (negb (is_nil ev))).
  rewrite zlen_length, byte0_value, byte1_value by lia.
  assert (Hts' := Hts). assert (Hssrc' := Hssrc). unfold is_u32 in Hts', Hssrc'.
  rewrite !u8ok_intro, u16ok_intro, !u32ok_intro by lia.
  cbn [andb]. rewrite Hcs, Hex, Htl. cbn [bind].
  eexists. split; [reflexivity|]. split.
  { repeat (apply bytes_ok_app; split); eauto using be8_ok, be16_ok, be32_ok, be32s_bytes_ok. }
  apply rtp_parse_layout; auto.
Qed.

(* ================================================================ RTX *)
Theorem rtx_inverse p pt seq ssrc_ :
  0 <= sequence_number p < 65536 ->
  exists r, wrap_rtx p pt seq ssrc_ = Ok r /\
            payload_type r = pt /\ sequence_number r = seq /\ ssrc r = ssrc_ /\
            marker r = marker p /\ timestamp r = timestamp p /\
            unwrap_rtx r (payload_type p) (ssrc p) =
              Ok (mkRtp (marker p) (payload_type p) (sequence_number p) (timestamp p) (ssrc p)
                        (csrc p) (extensions p) (payload p) 0).
Proof.
  intros Hs. unfold wrap_rtx. rewrite u16ok_intro by assumption. eexists. split; [reflexivity|].
  cbn [payload_type sequence_number ssrc marker timestamp]. repeat (split; [reflexivity|]).
  unfold unwrap_rtx. cbn [payload marker timestamp csrc extensions].
  rewrite u16_be16 by assumption.
  change 2%nat with (length (be16 (sequence_number p))). now rewrite from_app.
Qed.

Corollary rtx_inverse_exact p pt seq ssrc_ :
  0 <= sequence_number p < 65536 -> padding_size p = 0 ->
  exists r, wrap_rtx p pt seq ssrc_ = Ok r /\ unwrap_rtx r (payload_type p) (ssrc p) = Ok p.
Proof.
  intros Hs Hp. destruct (rtx_inverse p pt seq ssrc_ Hs) as (r & Hw & _ & _ & _ & _ & _ & Hu).
  exists r. split; [exact Hw|]. rewrite Hu. destruct p. cbn in *. now subst.
Qed.
