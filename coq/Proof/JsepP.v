(* Proofs about Model/Jsep.v.  The generated guard lists of Gen/Jsep.v agree with the diagram and
   the content conditions of Model/JsepSpec.v: by computation, so that they are re-checked against
   the regenerated lists on every run.  On a consistent state (`inv`) a call of the alphabet that
   applies a description acts on the specification's verdict (`verdict`, `step_applied`); refinement,
   preservation of the invariant, events and edges follow from that equation.  Without the
   invariant: rejected calls are no-ops, closed is absorbing. *)
From Coq Require Import ZArith List Bool Lia.
From AV Require Import Lib.Sx Gen.Jsep Model.Jsep Model.JsepSpec.
Import ListNotations.
Local Open Scope Z_scope.

Lemma kind_eqb_eq : forall a b, kind_eqb a b = true <-> a = b.
Proof. intros [] []; cbn; split; intro H; try reflexivity; try discriminate. Qed.

Lemma keys_eqb_sections : forall a b, keys_eqb (keys a) (keys b) = same_sections (sections a) (sections b).
Proof.
  intros a b. unfold keys, sections.
  generalize (d_media a) (d_media b). induction l as [|x l IH]; intros [|y l']; cbn; try reflexivity.
  rewrite IH. destruct (m_kind x), (m_kind y); cbn; reflexivity.
Qed.

Definition side_of (is_local : bool) : side := if is_local then Local else Remote.

Lemma check_media_spec : forall t l m,
  check_media t l m = if media_well_formed (side_of l) t m then Done else ValueErr.
Proof.
  intros t l [k mid ice dtls mux].
  destruct ice; [|reflexivity]. destruct t, l, k, dtls as [[]|], mux; reflexivity.
Qed.

Lemma check_all_spec : forall t l ms,
  check_all t l ms = if forallb (media_well_formed (side_of l) t) ms then Done else ValueErr.
Proof.
  intros t l ms. induction ms as [|m ms IH]; cbn [check_all forallb]; [reflexivity|].
  rewrite check_media_spec. destruct (media_well_formed (side_of l) t m); cbn [andb]; [exact IH|reflexivity].
Qed.

Lemma same_sections_eq : forall a b, same_sections a b = true <-> a = b.
Proof.
  induction a as [|[x1 x2] a IH]; intros [|[y1 y2] b]; cbn; split; intro H; try reflexivity; try discriminate.
  - apply andb_prop in H. destruct H as [H1 H2]. apply andb_prop in H1. destruct H1 as [H0 H1].
    apply Z.eqb_eq in H0, H1. apply IH in H2. subst. reflexivity.
  - inversion H; subst. rewrite !Z.eqb_refl. cbn. apply IH. reflexivity.
Qed.

Lemma well_formed_remote_has_dtls : forall d,
  well_formed Remote d = true ->
  existsb (fun m => match m_dtls m with None => true | Some _ => false end) (d_media d) = false.
Proof.
  intros d. unfold well_formed. generalize (d_type d). intros t.
  induction (d_media d) as [|m ms IH]; cbn [forallb existsb]; [reflexivity|].
  intros H. apply andb_prop in H. destruct H as [Hm Hms]. rewrite (IH Hms).
  unfold media_well_formed in Hm. destruct (m_dtls m); [reflexivity|].
  cbn in Hm. rewrite !andb_false_r in Hm. cbn in Hm. rewrite ?andb_false_r in Hm. discriminate.
Qed.

Definition negotiable (t : dtype) : Prop := t = TOffer \/ t = TAnswer.

Lemma state_guard_spec : forall sg l t, negotiable t ->
  match state_guard l t with Some allowed => negb (mem_sig sg allowed) | None => false end =
  match jsep_next sg (side_of l) t with Some _ => false | None => true end.
Proof. intros sg l t [-> | ->]; destruct sg, l; reflexivity. Qed.

Lemma match_types_spec : forall t, mem_dtype t validate_match_types = answer_like t.
Proof. intros []; reflexivity. Qed.

Lemma state_update_local : forall sg t nxt, negotiable t ->
  jsep_next sg Local t = Some nxt -> state_update set_local_state_updates t sg = (nxt, true).
Proof. intros sg t nxt [H|H]; subst; destruct sg; cbn; intro E; inversion E; reflexivity. Qed.

Lemma state_update_remote : forall sg t nxt, negotiable t ->
  jsep_next sg Remote t = Some nxt -> state_update set_remote_state_updates t sg = (nxt, true).
Proof. intros sg t nxt [H|H]; subst; destruct sg; cbn; intro E; inversion E; reflexivity. Qed.

Definition in_alphabet (o : op) : Prop :=
  match o with
  | SetLocal (Some d) _ => negotiable (d_type d)
  | SetRemote d => negotiable (d_type d)
  | _ => True
  end.

Definition holds_offer (o : option desc) : Prop := exists d, o = Some d /\ d_type d = TOffer.
Definition typed (o : option desc) (t : dtype) : Prop := forall d, o = Some d -> d_type d = t.

Definition fresh (s : st) : Prop :=
  pend_local s = None /\ cur_local s = None /\ pend_remote s = None /\ cur_remote s = None.

Definition negotiated (s : st) : Prop :=
  exists o a, d_type o = TOffer /\ d_type a = TAnswer /\ sections a = sections o /\
    ((pend_local s = Some o /\ pend_remote s = None /\ cur_remote s = Some a) \/
     (pend_remote s = Some o /\ pend_local s = None /\ cur_local s = Some a)).

Record inv (s : st) : Prop := mkInv {
  inv_closed : is_closed s = true <-> sig s = Closed;
  inv_nopr_l : sig s <> HaveLocalPranswer;
  inv_nopr_r : sig s <> HaveRemotePranswer;
  inv_hlo : sig s = HaveLocalOffer -> holds_offer (pend_local s);
  inv_hro : sig s = HaveRemoteOffer -> holds_offer (pend_remote s);
  inv_stable : sig s = Stable -> fresh s \/ negotiated s;
  inv_pl : typed (pend_local s) TOffer;
  inv_cl : typed (cur_local s) TAnswer;
  inv_pr : typed (pend_remote s) TOffer;
  inv_cr : typed (cur_remote s) TAnswer
}.

Lemma inv_init : inv init.
Proof.
  constructor; cbn; try discriminate; try (intros d H; discriminate).
  - split; discriminate.
  - intros _. left. repeat split.
Qed.

Lemma not_closed_flag : forall s, inv s -> sig s <> Closed -> is_closed s = false.
Proof.
  intros s I H. destruct (is_closed s) eqn:E; [|reflexivity].
  exfalso. apply H. apply (inv_closed s I). exact E.
Qed.

Lemma closed_flag : forall s, inv s -> sig s = Closed -> is_closed s = true.
Proof. intros s I H. apply (inv_closed s I). exact H. Qed.

Definition have_offer (sd : side) : sigstate :=
  match sd with Local => HaveLocalOffer | Remote => HaveRemoteOffer end.
Definition other (sd : side) : side := match sd with Local => Remote | Remote => Local end.

Lemma jsep_next_cases : forall sg sd t nxt,
  negotiable t -> sg <> HaveLocalPranswer -> sg <> HaveRemotePranswer -> jsep_next sg sd t = Some nxt ->
  sg <> Closed /\
  ((t = TOffer /\ nxt = have_offer sd) \/ (t = TAnswer /\ nxt = Stable /\ sg = have_offer (other sd))).
Proof.
  intros sg sd t nxt [-> | ->] H1 H2; destruct sg, sd; cbn; intros [= <-]; try congruence; (split; [discriminate|]); auto.
Qed.

Lemma offer_pending : forall s sd, inv s -> sig s = have_offer (other sd) -> holds_offer (offer_answered s sd).
Proof. intros s sd I. destruct sd; [apply (inv_hro s I)|apply (inv_hlo s I)]. Qed.

Lemma judge_done : forall s sd d nxt, inv s -> negotiable (d_type d) -> judge s sd d = (Done, nxt) ->
  is_closed s = false /\ well_formed sd d = true /\ jsep_next (sig s) sd (d_type d) = Some nxt /\
  ((d_type d = TOffer /\ nxt = have_offer sd) \/
   (d_type d = TAnswer /\ nxt = Stable /\
    exists o, offer_answered s sd = Some o /\ d_type o = TOffer /\ sections d = sections o)).
Proof.
  intros s sd d nxt I Hn. unfold judge. destruct (jsep_next _ _ _) as [n|] eqn:J; [|discriminate].
  destruct (jsep_next_cases _ _ _ _ Hn (inv_nopr_l s I) (inv_nopr_r s I) J) as [Hc Hcase].
  destruct (well_formed sd d); [|discriminate]. cbn [andb].
  destruct (answers_offer s sd d) eqn:A; intros [= <-].
  split; [exact (not_closed_flag s I Hc)|]. split; [reflexivity|]. split; [reflexivity|].
  destruct Hcase as [[Ht ->]|(Ht & -> & Hs)]; [left; auto|right]. split; [exact Ht|]. split; [reflexivity|].
  destruct (offer_pending s sd I Hs) as (o & Ho & Hot). exists o.
  unfold answers_offer in A. rewrite Ht, Ho in A. apply same_sections_eq in A. auto.
Qed.

(* the model's validation is the verdict's outcome: the description an answer is compared with is
   the pending offer, which the invariant says is there *)
Lemma validate_judge : forall s d l, inv s -> negotiable (d_type d) ->
  validate s d l = fst (judge s (side_of l) d).
Proof.
  intros s d l I Hn. unfold validate, judge, answers_offer.
  rewrite (state_guard_spec _ _ _ Hn), check_all_spec, match_types_spec. fold (well_formed (side_of l) d).
  destruct (jsep_next (sig s) (side_of l) (d_type d)) as [nxt|] eqn:J; [|reflexivity].
  destruct (well_formed _ d); [|reflexivity].
  destruct (jsep_next_cases _ _ _ _ Hn (inv_nopr_l s I) (inv_nopr_r s I) J) as [_ [[-> _]|(-> & _ & Hs)]];
    cbn [answer_like andb]; [reflexivity|].
  destruct (offer_pending s _ I Hs) as (o & Ho & _). rewrite Ho.
  replace (if l then remote_description s else local_description s) with (Some o).
  - rewrite keys_eqb_sections. destruct (same_sections _ _); reflexivity.
  - destruct l; cbn in Ho; unfold remote_description, local_description; rewrite Ho; reflexivity.
Qed.

Definition applied_state (s : st) (sd : side) (d : desc) (nxt : sigstate) : st :=
  match sd, d_type d with
  | Local, TAnswer => mkSt nxt (is_closed s) None (Some d) (pend_remote s) (cur_remote s)
  | Local, _ => mkSt nxt (is_closed s) (Some d) (cur_local s) (pend_remote s) (cur_remote s)
  | Remote, TAnswer => mkSt nxt (is_closed s) (pend_local s) (cur_local s) None (Some d)
  | Remote, _ => mkSt nxt (is_closed s) (pend_local s) (cur_local s) (Some d) (cur_remote s)
  end.

Definition verdict (s : st) (sd : side) (d : desc) : result :=
  match judge s sd d with
  | (Done, nxt) => (applied_state s sd d nxt, (Done, true))
  | (r, _) => (s, (r, false))
  end.

Lemma set_remote_eq : forall s d, inv s -> negotiable (d_type d) -> set_remote s d = verdict s Remote d.
Proof.
  intros s d I Hn. unfold set_remote, verdict, fail, applied_state. rewrite (validate_judge s d false I Hn). cbn [side_of].
  destruct (judge s Remote d) as [r nxt] eqn:J. destruct r; try reflexivity. cbn [fst].
  destruct (judge_done s Remote d nxt I Hn J) as (Hnc & W & Hj & Hcase).
  rewrite (well_formed_remote_has_dtls d W), andb_false_r, Hnc, (state_update_remote _ _ _ Hn Hj).
  destruct Hcase as [[Ht _]|[Ht _]]; rewrite Ht; reflexivity.
Qed.

Lemma set_local_eq : forall s d c, inv s -> negotiable (d_type d) -> set_local s (Some d) c = verdict s Local d.
Proof.
  intros s d c I Hn. unfold set_local, verdict, fail, applied_state. destruct (is_closed s) eqn:Hc.
  { unfold judge. rewrite (proj1 (inv_closed s I) Hc). reflexivity. }
  rewrite (validate_judge s d true I Hn). cbn [side_of].
  destruct (judge s Local d) as [r nxt] eqn:J. destruct r; try reflexivity. cbn [fst].
  destruct (judge_done s Local d nxt I Hn J) as (_ & _ & Hj & Hcase).
  rewrite (state_update_local _ _ _ Hn Hj).
  destruct Hcase as [[Ht _]|[Ht _]]; rewrite Ht; reflexivity.
Qed.

Lemma verdict_spec : forall s sd d,
  fst (snd (verdict s sd d)) = fst (judge s sd d) /\ sig (fst (verdict s sd d)) = snd (judge s sd d) /\
  snd (snd (verdict s sd d)) = match fst (judge s sd d) with Done => true | _ => false end.
Proof.
  intros s sd d. unfold verdict, judge.
  destruct (jsep_next (sig s) sd (d_type d)) as [nxt|]; [destruct (_ && _)|]; cbn; auto.
  unfold applied_state. destruct sd, (d_type d); auto.
Qed.

Lemma set_local_implicit_eq : forall s c, inv s ->
  set_local s None c = set_local s (Some (mkDesc (d_id c) (implicit_type (sig s)) (d_media c))) c.
Proof.
  intros s c I. unfold set_local.
  destruct (is_closed s) eqn:Hc; [reflexivity|].
  destruct (sig s) eqn:Hs; cbn [sig_eqb sig_code Z.eqb implicit_type];
    unfold create_offer, create_answer; rewrite ?Hc, ?Hs; cbn; try reflexivity.
  all: try (exfalso; exact (inv_nopr_l s I Hs)).
  all: try (exfalso; exact (inv_nopr_r s I Hs)).
  all: try (assert (is_closed s = true) by (apply (closed_flag s I Hs)); congruence).
  destruct (inv_hro s I Hs) as [o [Ho _]]. unfold remote_description. rewrite Ho. reflexivity.
Qed.

Lemma implicit_negotiable : forall s c, negotiable (d_type (mkDesc (d_id c) (implicit_type (sig s)) (d_media c))).
Proof. intros s c. cbn. destruct (sig s); cbn; [left|left|right|right|left|right]; reflexivity. Qed.

Definition applied (s : st) (o : op) : option (side * desc) :=
  match o with
  | SetLocal (Some d) _ => Some (Local, d)
  | SetLocal None c => Some (Local, mkDesc (d_id c) (implicit_type (sig s)) (d_media c))
  | SetRemote d => Some (Remote, d)
  | _ => None
  end.

Lemma not_applied : forall s o, applied s o = None -> o = CreateOffer \/ o = CreateAnswer \/ o = Close.
Proof. intros s o. destruct o as [| |[d|] c|d|]; cbn; intros H; try discriminate; auto. Qed.

Lemma spec_applied : forall s o sd d, applied s o = Some (sd, d) -> spec s o = judge s sd d.
Proof.
  intros s o sd d. destruct o as [| |[d'|] c|d'|]; cbn; intro H; inversion H; subst; reflexivity.
Qed.

Lemma step_applied : forall s o sd d, inv s -> in_alphabet o -> applied s o = Some (sd, d) ->
  negotiable (d_type d) /\ step_full s o = verdict s sd d.
Proof.
  intros s o sd d I Ha. destruct o as [| |[d'|] c|d'|]; cbn [applied step_full]; intros [= <- <-].
  - split; [exact Ha|]. apply set_local_eq; assumption.
  - split; [apply implicit_negotiable|]. rewrite (set_local_implicit_eq s c I).
    apply set_local_eq; [assumption|apply implicit_negotiable].
  - split; [exact Ha|]. apply set_remote_eq; assumption.
Qed.

Lemma step_step_full : forall s o, step s o = (fst (step_full s o), fst (snd (step_full s o))).
Proof. intros s o. unfold step. destruct (step_full s o) as [s' [r ev]]. reflexivity. Qed.

Lemma create_offer_spec : forall s, inv s -> create_offer s = fst (spec s CreateOffer).
Proof.
  intros s I. unfold create_offer. cbn [spec]. destruct (is_closed s) eqn:Hc.
  - rewrite (proj1 (inv_closed s I) Hc). reflexivity.
  - destruct (sig s) eqn:Hs; try reflexivity. rewrite (closed_flag s I Hs) in Hc. discriminate.
Qed.

Lemma create_answer_spec : forall s, inv s -> create_answer s = fst (spec s CreateAnswer).
Proof.
  intros s I. unfold create_answer. cbn [spec]. destruct (is_closed s) eqn:Hc.
  - rewrite (proj1 (inv_closed s I) Hc). reflexivity.
  - destruct (sig s) eqn:Hs; cbn; try reflexivity.
    + destruct (inv_hro s I Hs) as [o [Ho _]]. unfold remote_description. rewrite Ho. reflexivity.
    + destruct (inv_nopr_l s I Hs).
Qed.

Theorem refines_spec : forall s o, inv s -> in_alphabet o ->
  snd (step s o) = fst (spec s o) /\ sig (fst (step s o)) = snd (spec s o).
Proof.
  intros s o I Ha. rewrite step_step_full. cbn [fst snd].
  destruct (applied s o) as [[sd d]|] eqn:Hap.
  { destruct (step_applied s o sd d I Ha Hap) as [_ ->]. rewrite (spec_applied s o sd d Hap).
    destruct (verdict_spec s sd d) as (H1 & H2 & _). auto. }
  destruct (not_applied s o Hap) as [-> | [-> | ->]]; cbn [step_full fail fst snd].
  - split; [apply create_offer_spec, I|]. cbn [spec]. destruct (sig s); reflexivity.
  - split; [apply create_answer_spec, I|]. cbn [spec]. destruct (can_create_answer (sig s)); reflexivity.
  - unfold close. destruct (is_closed s) eqn:Hc; cbn; [|auto].
    split; [reflexivity|]. apply (inv_closed s I). exact Hc.
Qed.

Lemma rejected_is_noop_full : forall s o,
  fst (snd (step_full s o)) <> Done -> fst (step_full s o) = s /\ snd (snd (step_full s o)) = false.
Proof.
  intros s o. destruct o as [| |arg c|d|]; cbn [step_full]; unfold fail; cbn [fst snd]; auto.
  - unfold set_local, fail. destruct (is_closed s); cbn [fst snd]; auto.
    destruct arg as [d|]; [|destruct (sig_eqb (sig s) HaveRemoteOffer); [destruct (create_answer s)|destruct (create_offer s)]];
      cbn [fst snd]; auto.
    (* whichever description was chosen, it is validated and applied the same way *)
    all: destruct (validate s _ true); cbn [fst snd]; auto.
    all: destruct (state_update _ _ _) as [sg ev]; destruct (dtype_eqb _ _); cbn; congruence.
  - unfold set_remote, fail. destruct (validate s d false); cbn [fst snd]; auto.
    destruct (_ && _); cbn [fst snd]; auto.
    destruct (is_closed s); cbn [fst snd]; auto.
    destruct (state_update _ _ _) as [sg ev]. destruct (dtype_eqb _ _); cbn; congruence.
  - unfold close. destruct (is_closed s); cbn; congruence.
Qed.

Theorem rejected_is_noop : forall s o, snd (step s o) <> Done -> fst (step s o) = s.
Proof.
  intros s o. rewrite step_step_full. cbn [fst snd]. intro H. apply (rejected_is_noop_full s o H).
Qed.

Lemma typed_some : forall d t, d_type d = t -> typed (Some d) t.
Proof. intros d t H d' E. inversion E; subst. reflexivity. Qed.
Lemma typed_none : forall t, typed None t.
Proof. intros t d E. discriminate. Qed.

Lemma inv_verdict : forall s sd d, inv s -> negotiable (d_type d) -> inv (fst (verdict s sd d)).
Proof.
  intros s sd d I Hn. unfold verdict. destruct (judge s sd d) as [r nxt] eqn:J. destruct r; try exact I.
  destruct (judge_done s sd d nxt I Hn J) as (Hnc & _ & _ & [[Ht ->]|(Ht & -> & o & Ho & Hot & Hsec)]);
    unfold applied_state; rewrite Ht; destruct sd; cbn in *.
  (* the slots not written keep their types; of the others only the clause of the new state says something *)
  all: constructor; cbn; rewrite ?Hnc; try discriminate; try (split; discriminate);
    eauto using typed_some, typed_none, inv_pl, inv_cl, inv_pr, inv_cr.
  - intros _. exists d. auto.
  - intros _. exists d. auto.
  - intros _. right. exists o, d. auto 7.
  - intros _. right. exists o, d. auto 7.
Qed.

Theorem inv_step : forall s o, inv s -> in_alphabet o -> inv (fst (step s o)).
Proof.
  intros s o I Ha. rewrite step_step_full. cbn [fst].
  destruct (applied s o) as [[sd d]|] eqn:Hap.
  { destruct (step_applied s o sd d I Ha Hap) as [Hn ->]. apply inv_verdict; assumption. }
  destruct (not_applied s o Hap) as [-> | [-> | ->]]; cbn [step_full fail fst]; auto.
  unfold close. destruct (is_closed s) eqn:Hc; cbn [fst]; [exact I|].
  constructor; cbn; try discriminate; eauto using inv_pl, inv_cl, inv_pr, inv_cr. split; reflexivity.
Qed.

Lemma run_cons : forall s o ops,
  run s (o :: ops) = (fst (run (fst (step s o)) ops), snd (step s o) :: snd (run (fst (step s o)) ops)).
Proof.
  intros s o ops. cbn [run]. destruct (step s o) as [s1 r]. cbn [fst snd].
  destruct (run s1 ops) as [s2 rs]. reflexivity.
Qed.

Theorem inv_run : forall ops s, inv s -> Forall in_alphabet ops -> inv (fst (run s ops)).
Proof.
  induction ops as [|o ops IH]; intros s I Ha; [exact I|].
  rewrite run_cons. cbn [fst]. inversion Ha; subst. apply IH; [apply inv_step; assumption|assumption].
Qed.

Definition closed_outcome (o : op) : outcome := match o with Close => Done | _ => InvalidState end.

Lemma closed_step : forall s o, is_closed s = true -> sig s = Closed -> in_alphabet o ->
  step s o = (s, closed_outcome o).
Proof.
  intros s o Hc Hs Ha. unfold step. destruct o as [| |arg c|d|]; cbn [step_full closed_outcome].
  - unfold fail, create_offer. rewrite Hc. reflexivity.
  - unfold fail, create_answer. rewrite Hc. reflexivity.
  - unfold set_local, fail. rewrite Hc. reflexivity.
  - unfold set_remote, validate. rewrite Hs.
    destruct Ha as [Ht|Ht]; rewrite Ht; cbn; reflexivity.
  - unfold close. rewrite Hc. reflexivity.
Qed.

Theorem closed_absorbing : forall ops s, is_closed s = true -> sig s = Closed -> Forall in_alphabet ops ->
  run s ops = (s, map closed_outcome ops).
Proof.
  induction ops as [|o ops IH]; intros s Hc Hs Ha; [reflexivity|].
  inversion Ha; subst. rewrite run_cons. rewrite (closed_step s o Hc Hs H1). cbn [fst snd map].
  rewrite (IH s Hc Hs H2). reflexivity.
Qed.

Lemma closed_step_any : forall s o, is_closed s = true -> sig s = Closed ->
  fst (step s o) = s /\ (snd (step s o) = Done -> o = Close).
Proof.
  intros s o Hc Hs. rewrite step_step_full. cbn [fst snd].
  destruct o as [| |arg c|d|]; cbn [step_full fail fst snd].
  - unfold create_offer. rewrite Hc. split; [reflexivity|discriminate].
  - unfold create_answer. rewrite Hc. split; [reflexivity|discriminate].
  - unfold set_local, fail. rewrite Hc. cbn. split; [reflexivity|discriminate].
  - unfold set_remote, fail. destruct (validate s d false); cbn [fst snd]; try (split; [reflexivity|discriminate]).
    destruct (_ && _); cbn [fst snd]; [split; [reflexivity|discriminate]|].
    rewrite Hc. cbn. split; [reflexivity|discriminate].
  - unfold close. rewrite Hc. cbn. split; reflexivity.
Qed.

Theorem closed_absorbing_any : forall ops s, is_closed s = true -> sig s = Closed ->
  fst (run s ops) = s /\
  Forall2 (fun o r => r = Done -> o = Close) ops (snd (run s ops)).
Proof.
  induction ops as [|o ops IH]; intros s Hc Hs; [split; [reflexivity|constructor]|].
  rewrite run_cons. cbn [fst snd]. destruct (closed_step_any s o Hc Hs) as [E H]. rewrite E.
  destruct (IH s Hc Hs) as [E2 H2]. split; [exact E2|]. constructor; assumption.
Qed.

Theorem closed_stays_closed : forall ops s, is_closed s = true -> sig s = Closed ->
  is_closed (fst (run s ops)) = true /\ sig (fst (run s ops)) = Closed.
Proof. intros ops s Hc Hs. rewrite (proj1 (closed_absorbing_any ops s Hc Hs)). auto. Qed.

Lemma judge_never_crashes : forall s sd d, fst (judge s sd d) <> Crash.
Proof.
  intros s sd d. unfold judge. destruct (jsep_next _ _ _); [destruct (_ && _)|]; discriminate.
Qed.

Lemma spec_never_crashes : forall s o, fst (spec s o) <> Crash.
Proof.
  intros s o. destruct (applied s o) as [[sd d]|] eqn:Hap.
  { rewrite (spec_applied s o sd d Hap). apply judge_never_crashes. }
  destruct (not_applied s o Hap) as [-> | [-> | ->]]; cbn [spec]; [destruct (sig s)|destruct (can_create_answer (sig s))|];
    discriminate.
Qed.

Theorem no_crash : forall s o, inv s -> in_alphabet o -> snd (step s o) <> Crash.
Proof.
  intros s o I Ha. destruct (refines_spec s o I Ha) as [H _]. rewrite H. apply spec_never_crashes.
Qed.

(* every change of the signalling state is an edge of the JSEP diagram, or close() *)
Definition jsep_edge (a b : sigstate) : Prop :=
  a = b \/ b = Closed \/ exists sd t, jsep_next a sd t = Some b.

Lemma spec_is_edge : forall s o, jsep_edge (sig s) (snd (spec s o)).
Proof.
  intros s o. destruct (applied s o) as [[sd d]|] eqn:Hap.
  { rewrite (spec_applied s o sd d Hap). unfold judge.
    destruct (jsep_next (sig s) sd (d_type d)) as [n|] eqn:J; [|left; reflexivity].
    destruct (_ && _); [right; right; exists sd, (d_type d); exact J|left; reflexivity]. }
  destruct (not_applied s o Hap) as [-> | [-> | ->]]; cbn [spec].
  - left. destruct (sig s); reflexivity.
  - left. destruct (can_create_answer (sig s)); reflexivity.
  - right. left. reflexivity.
Qed.

Theorem reachable_transitions_are_jsep_edges : forall ops o,
  Forall in_alphabet ops -> in_alphabet o ->
  jsep_edge (sig (fst (run init ops))) (sig (fst (step (fst (run init ops)) o))).
Proof.
  intros ops o Hops Ho.
  destruct (refines_spec _ o (inv_run ops init inv_init Hops) Ho) as [_ H]. rewrite H. apply spec_is_edge.
Qed.

(* 'signalingstatechange' is emitted exactly by the calls that set the state *)
Theorem event_spec : forall s o, inv s -> in_alphabet o ->
  snd (snd (step_full s o)) =
  match o with
  | CreateOffer | CreateAnswer => false
  | Close => negb (is_closed s)
  | _ => match fst (snd (step_full s o)) with Done => true | _ => false end
  end.
Proof.
  intros s o I Ha. destruct (applied s o) as [[sd d]|] eqn:Hap.
  { destruct (step_applied s o sd d I Ha Hap) as [_ ->]. destruct (verdict_spec s sd d) as (-> & _ & ->).
    destruct o as [| |arg c|d'|]; try discriminate; reflexivity. }
  destruct (not_applied s o Hap) as [-> | [-> | ->]]; try reflexivity.
  cbn [step_full]. unfold close. destruct (is_closed s); reflexivity.
Qed.

Definition media_defect (sd : side) (t : dtype) (m : media) : Prop :=
  m_ice m = false                                                          (* ICE credentials missing *)
  \/ ((t = TAnswer \/ t = TPranswer) /\ m_dtls m <> Some RClient /\ m_dtls m <> Some RServer)  (* role undecided *)
  \/ (sd = Remote /\ m_dtls m = None)                                      (* no DTLS role stated at all *)
  \/ ((m_kind m = KAudio \/ m_kind m = KVideo) /\ m_mux m = false).        (* rtcp-mux missing *)

Definition defective (sd : side) (d : desc) : Prop :=
  exists m, In m (d_media d) /\ media_defect sd (d_type d) m.

Definition mismatched (s : st) (sd : side) (d : desc) : Prop :=
  (d_type d = TAnswer \/ d_type d = TPranswer) /\
  forall o, offer_answered s sd = Some o -> sections d <> sections o.

Lemma if_true_false : forall a b : bool, (if a then b else true) = false <-> a = true /\ b = false.
Proof. intros [] []; intuition congruence. Qed.

Lemma answer_like_true : forall t, answer_like t = true <-> t = TAnswer \/ t = TPranswer.
Proof. intros []; cbn; intuition congruence. Qed.

Lemma role_decided_false : forall r, role_decided r = false <-> r <> Some RClient /\ r <> Some RServer.
Proof. intros [[]|]; cbn; intuition congruence. Qed.

Lemma remote_role_absent : forall sd r,
  match sd with Remote => role_present r | Local => true end = false <-> sd = Remote /\ r = None.
Proof. intros [] [r|]; cbn; intuition congruence. Qed.

Lemma rtp_kind_true : forall k, rtp_kind k = true <-> k = KAudio \/ k = KVideo.
Proof. intros []; cbn; intuition congruence. Qed.

Lemma media_well_formed_false : forall sd t m,
  media_well_formed sd t m = false <-> media_defect sd t m.
Proof.
  intros sd t m. unfold media_well_formed, media_defect.
  rewrite !andb_false_iff, !if_true_false, answer_like_true, role_decided_false, remote_role_absent, rtp_kind_true, !or_assoc.
  reflexivity.
Qed.

Lemma well_formed_false : forall sd d, well_formed sd d = false <-> defective sd d.
Proof.
  intros sd d. unfold well_formed, defective. generalize (d_type d). intro t.
  induction (d_media d) as [|m ms IH]; cbn [forallb In].
  - split; [discriminate|]. intros [m [[] _]].
  - rewrite andb_false_iff, IH, media_well_formed_false. split.
    + intros [H|[m' [Hin H]]]; [exists m; auto|exists m'; auto].
    + intros [m' [[E|Hin] H]]; [subst; left; exact H|right; exists m'; auto].
Qed.

Lemma answers_offer_false : forall s sd d, answers_offer s sd d = false <-> mismatched s sd d.
Proof.
  intros s sd d. unfold answers_offer, mismatched.
  pose proof (answer_like_true (d_type d)) as Hal.
  destruct (answer_like (d_type d)).
  2: { split; [discriminate|]. intros [H _]. apply Hal in H. discriminate. }
  destruct (offer_answered s sd) as [o|].
  - rewrite <- not_true_iff_false, same_sections_eq. split.
    + intros H. split; [apply Hal; reflexivity|]. intros o' [= <-]. exact H.
    + intros [_ H]. apply H. reflexivity.
  - split; [|reflexivity]. intros _. split; [apply Hal; reflexivity|]. discriminate.
Qed.

Theorem outcome_characterised : forall s o sd d, inv s -> in_alphabet o -> applied s o = Some (sd, d) ->
  (snd (step s o) = InvalidState <-> jsep_next (sig s) sd (d_type d) = None) /\
  (snd (step s o) = ValueErr <->
     jsep_next (sig s) sd (d_type d) <> None /\ (defective sd d \/ mismatched s sd d)) /\
  (snd (step s o) = Done <->
     jsep_next (sig s) sd (d_type d) <> None /\ ~ defective sd d /\ ~ mismatched s sd d).
Proof.
  intros s o sd d I Ha Hap. destruct (refines_spec s o I Ha) as [H _]. rewrite H, (spec_applied s o sd d Hap).
  unfold judge. destruct (jsep_next (sig s) sd (d_type d)) as [nxt|]; cbn [fst].
  2: { repeat split; try discriminate; try reflexivity; intros [Hn _]; exfalso; apply Hn; reflexivity. }
  rewrite <- well_formed_false, <- answers_offer_false.
  destruct (well_formed sd d), (answers_offer s sd d); cbn [andb fst];
    repeat split; try discriminate; try reflexivity; auto;
    try (intros [_ [Hx|Hx]]; discriminate);
    try (intros [_ [Hx Hy]]; exfalso; (apply Hx; reflexivity) || (apply Hy; reflexivity)).
Qed.

