(* Proofs about Model/Jitter.v, part 5 (T+): completeness.
   (a) An in-order, complete stream whose frames fit is released exactly: every frame except the
       last max(prefetch,1) comes out once, in order, byte for byte, and no key frame is requested.
   (b) The literal claim "complete and displaced by less than the capacity => everything but the
       trailing prefetch window is released" is FALSE after any reordering: add() releases at most
       one frame per call, so a backlog built while a hole was open is never worked off
       (refutation witness below, replayed on the implementation by the harness). *)
From Coq Require Import ZArith List Bool Lia.
From AV Require Import Lib.Sx Lib.Bytes Gen.Utils Gen.JbConst Model.Jitter Proof.JitterP Proof.JitterInvP
                       Proof.JitterOrderP.
Import ListNotations.
Local Open Scope Z_scope.

Definition wit_pkt (u : Z) : pkt := mkPkt u (u * 1000) [u].
Definition wit_stream : list pkt := map wit_pkt [0; 1; 2; 3; 4; 5; 6; 7].
Definition wit_arrivals : list pkt := map wit_pkt [0; 2; 3; 4; 5; 1; 6; 7].

(* eight one-packet frames, every packet delivered exactly once and at most 4 (< capacity 8)
   places from its position, prefetch 0 (trailing window: one frame) -- yet only 3 frames are
   released, 5 stay in the buffer, and nothing was discarded (no PLI). *)
Theorem jitter_complete_refuted :
  exists s outs,
    reaches 8 0 false wit_arrivals s outs /\
    Permutation.Permutation wit_arrivals wit_stream /\
    (forall i p, nth_error wit_arrivals i = Some p -> Z.abs (Z.of_nat i - pseq p) < 8) /\
    released outs = [mkFrame 0 [0]; mkFrame 1000 [1]; mkFrame 2000 [2]] /\
    (Z.of_nat (length (released outs)) < Z.of_nat (length wit_stream) - 1) /\
    held (slots s) = map wit_pkt [3; 4; 5; 6; 7].
Proof.
  eexists. eexists. split; [apply reaches_check; vm_compute; reflexivity|].
  split.
  { apply Permutation.Permutation_map. apply Permutation.perm_skip. symmetry.
    apply (Permutation.Permutation_middle [2; 3; 4; 5] [6; 7] 1). }
  split.
  { intros i p E. do 8 (destruct i as [|i]; [injection E as <-; cbn; lia|]). destruct i; discriminate. }
  split; [reflexivity|]. split; [cbn; lia|reflexivity].
Qed.

(* a group = the packets of one frame: non-empty, one timestamp *)
Definition uniform (t : Z) (g : list pkt) : Prop := g <> [] /\ Forall (fun q => pts q = t) g.

Fixpoint chain (t : Z) (gs : list (list pkt)) : Prop :=
  match gs with
  | [] => True
  | g :: gs' => exists t', t' <> t /\ uniform t' g /\ chain t' gs'
  end.

Lemma w_rf_nones k count pf fr frames packets rem tsv :
  w_rf (repeat None k) count pf fr frames packets rem tsv = None.
Proof. destruct k; reflexivity. Qed.

Lemma w_rf_group g : forall t rest count pf fr frames packets rem,
  Forall (fun q => pts q = t) g ->
  w_rf (map Some g ++ rest) count pf fr frames packets rem (Some t) =
  w_rf rest (count + Z.of_nat (length g)) pf fr frames (packets ++ g) rem (Some t).
Proof.
  induction g as [|q g IH]; intros t rest count pf fr frames packets rem HF.
  - cbn [map app length Z.of_nat]. rewrite Z.add_0_r, app_nil_r. reflexivity.
  - inversion HF as [|? ? Hq HF']; subst. cbn [map app w_rf]. rewrite Z.eqb_refl. cbn [negb].
    rewrite IH by exact HF'. cbn [length]. rewrite <- (app_assoc packets [q] g). cbn [app].
    f_equal. lia.
Qed.

(* the scan, in the middle of a frame with timestamp t, over the frames gs that follow: the first
   timestamp change fixes the frame to release (unless one is fixed already), and it comes out
   once pf changes have been counted *)
Lemma w_rf_chain gs : forall t k count pf fr frames packets rem,
  chain t gs ->
  w_rf (map Some (concat gs) ++ repeat None k) count pf fr frames packets rem (Some t) =
  if (1 <=? Z.of_nat (length gs)) && (pf <=? frames + Z.of_nat (length gs))
  then Some (match fr with Some f => f | None => mkFrame t (concat (map pdata packets)) end,
             match fr with Some _ => rem | None => count end)
  else None.
Proof.
  induction gs as [|g gs IH]; intros t k count pf fr frames packets rem HC.
  - cbn [concat map app length Z.of_nat]. apply w_rf_nones.
  - destruct HC as (t' & Hne & [Hg HU] & HC'). destruct g as [|q g]; [contradiction|].
    inversion HU as [|? ? Hq HU']; subst.
    cbn [concat map app w_rf]. rewrite map_app, <- app_assoc.
    destruct (Z.eqb_spec (pts q) t) as [E|_]; [contradiction|]. cbn [negb length].
    replace (1 <=? Z.of_nat (S (length gs))) with true by (symmetry; apply Z.leb_le; lia). cbn [andb].
    destruct (Z.geb_spec (frames + 1) pf) as [Hge|Hlt].
    + destruct (Z.leb_spec pf (frames + Z.of_nat (S (length gs)))); [reflexivity|lia].
    + rewrite w_rf_group by exact HU'. rewrite IH by exact HC'.
      destruct (Z.leb_spec 1 (Z.of_nat (length gs)));
        destruct (Z.leb_spec pf (frames + 1 + Z.of_nat (length gs)));
        destruct (Z.leb_spec pf (frames + Z.of_nat (S (length gs)))); try reflexivity; lia.
Qed.

Lemma w_frame_groups g1 gs t1 k pf :
  uniform t1 g1 -> chain t1 gs ->
  w_frame (map Some (concat (g1 :: gs)) ++ repeat None k) pf =
  if Z.max pf 1 <=? Z.of_nat (length gs)
  then Some (mkFrame t1 (concat (map pdata g1)), Z.of_nat (length g1))
  else None.
Proof.
  intros [Hg HU] HC. destruct g1 as [|q g1]; [contradiction|].
  inversion HU as [|? ? Hq HU']; subst.
  unfold w_frame. cbn [concat map app w_rf]. rewrite map_app, <- app_assoc.
  rewrite w_rf_group by exact HU'. rewrite w_rf_chain by exact HC. cbn [app length].
  replace (0 + 1 + Z.of_nat (length g1)) with (Z.of_nat (S (length g1))) by lia.
  destruct (Z.leb_spec 1 (Z.of_nat (length gs))); destruct (Z.leb_spec pf (0 + Z.of_nat (length gs)));
    destruct (Z.leb_spec (Z.max pf 1) (Z.of_nat (length gs))); try reflexivity; lia.
Qed.

Definition wfg (gs : list (list pkt)) : Prop :=
  match gs with
  | [] => True
  | g1 :: gs' => exists t1, uniform t1 g1 /\ chain t1 gs'
  end.

Definition gframe (g : list pkt) : frame :=
  mkFrame (match g with q :: _ => pts q | [] => 0 end) (concat (map pdata g)).

Definition Fit (Pn : nat) (c : Z) (L : list (list pkt)) : Prop :=
  forall i n, (n <= Pn)%nat -> (length (concat (firstn n (skipn i L))) <= Z.to_nat c - 1)%nat.

Definition St (c pf : Z) (v : bool) (o : Z) (A : list pkt) : jb :=
  mkJb c pf v (Some o) (map Some A ++ repeat None (Z.to_nat c - length A)).

Lemma inord_delta o h : 0 <= h < 32768 ->
  uint16_add (uint16_add o h) (- o) = h /\
  (uint16_add o (- uint16_add o h) <? uint16_add (uint16_add o h) (- o)) = false.
Proof.
  intros Hh.
  assert (Ed : uint16_add (uint16_add o h) (- o) = h).
  { rewrite uint16_add_add, uint16_add_mod. replace (o + (h + - o)) with h by lia. apply Z.mod_small. lia. }
  split; [exact Ed|]. rewrite Ed. apply Z.ltb_ge.
  rewrite !uint16_add_mod, Z.add_opp_r, Zminus_mod_idemp_r. replace (o - (o + h)) with (- h) by lia.
  destruct (Z.eq_dec h 0) as [->|Hne]; [reflexivity|].
  rewrite Z_mod_nz_opp_full; rewrite Z.mod_small; lia.
Qed.

Lemma set_nth_mid {A} (l1 : list A) x y l2 : set_nth (l1 ++ x :: l2) (length l1) y = Some (l1 ++ y :: l2).
Proof.
  induction l1 as [|h t IH]; [reflexivity|]. cbn [app length set_nth]. rewrite IH. reflexivity.
Qed.

Lemma w_set_append (A : list pkt) k p : (1 <= k)%nat ->
  w_set (map Some A ++ repeat None k) (length A) (Some p) = map Some (A ++ [p]) ++ repeat None (k - 1).
Proof.
  intros Hk. destruct k as [|k]; [lia|]. cbn [repeat]. unfold w_set.
  rewrite <- (map_length Some A) at 1. rewrite set_nth_mid.
  rewrite map_app, <- app_assoc. cbn [map app]. replace (S k - 1)%nat with k by lia. reflexivity.
Qed.

Lemma uniform_head t g : uniform t g -> gframe g = mkFrame t (concat (map pdata g)).
Proof.
  intros [Hne HF]. destruct g as [|q g]; [contradiction|]. inversion HF; subst. reflexivity.
Qed.

Lemma uniform_prefix t g g' : g <> [] -> uniform t (g ++ g') -> uniform t g.
Proof.
  intros Hne [_ HF]. split; [exact Hne|]. apply Forall_app in HF. exact (proj1 HF).
Qed.

Lemma chain_cut l1 : forall t g g' l2, g <> [] -> chain t (l1 ++ (g ++ g') :: l2) -> chain t (l1 ++ [g]).
Proof.
  induction l1 as [|h l1 IH]; intros t g g' l2 Hne H; cbn [app chain] in *;
    destruct H as (t' & Hd & HU & HC); exists t'; (split; [exact Hd|]).
  - split; [|exact I]. eapply uniform_prefix; eassumption.
  - split; [exact HU|]. eapply IH; eassumption.
Qed.

Lemma wfg_cut l1 g g' l2 : g <> [] -> wfg (l1 ++ (g ++ g') :: l2) -> wfg (l1 ++ [g]).
Proof.
  intros Hne. destruct l1 as [|h l1]; cbn [app wfg]; intros (t1 & HU & HC); exists t1.
  - split; [|exact I]. eapply uniform_prefix; eassumption.
  - split; [exact HU|]. eapply chain_cut; eassumption.
Qed.

Lemma wfg_tail g L : wfg (g :: L) -> wfg L.
Proof.
  intros (t1 & _ & HC). destruct L as [|g2 L]; [exact I|]. destruct HC as (t' & _ & HU & HC'). exists t'. auto.
Qed.

Lemma wfg_skip l1 l2 : wfg (l1 ++ l2) -> wfg l2.
Proof. induction l1 as [|g l1 IH]; intros H; [exact H|]. apply IH. exact (wfg_tail g _ H). Qed.

Lemma chain_nonempty l : forall t g l2, chain t (l ++ g :: l2) -> g <> [].
Proof.
  induction l as [|h l IH]; intros t g l2 H; cbn [app chain] in H; destruct H as (t' & _ & [Hne _] & HC).
  - exact Hne.
  - eapply IH. exact HC.
Qed.

Lemma wfg_nonempty l g l2 : wfg (l ++ g :: l2) -> g <> [].
Proof.
  destruct l as [|h l]; cbn [app wfg]; intros (t & [Hne _] & HC); [exact Hne|].
  eapply chain_nonempty. exact HC.
Qed.

Lemma Fit_skip Pn c l1 l2 : Fit Pn c (l1 ++ l2) -> Fit Pn c l2.
Proof.
  induction l1 as [|g l1 IH]; intros H; [exact H|]. apply IH. intros i n Hn. exact (H (S i) n Hn).
Qed.

Lemma Fit_prefix Pn c l1 l2 : Fit Pn c (l1 ++ l2) -> (length l1 <= Pn)%nat ->
  (length (concat l1) <= Z.to_nat c - 1)%nat.
Proof.
  intros H Hl. specialize (H 0%nat (length l1) Hl). cbn [skipn] in H.
  rewrite firstn_app, firstn_all, Nat.sub_diag in H. cbn [firstn] in H. rewrite app_nil_r in H. exact H.
Qed.

Lemma concat_snoc {A} (l : list (list A)) g : concat (l ++ [g]) = concat l ++ g.
Proof. rewrite concat_app. cbn [concat]. rewrite app_nil_r. reflexivity. Qed.

Lemma length_tl_snoc {A} (l : list A) x : length (tl (l ++ [x])) = length l.
Proof. destruct l; cbn [app tl length]; [reflexivity|]. rewrite app_length. cbn [length]. lia. Qed.

Lemma run_at_cons o S p l : run_at o S (p :: l) -> pseq p = uint16_add o S /\ run_at o (S + 1) l.
Proof.
  intros H. split; [rewrite (H 0%nat p eq_refl); f_equal; lia|].
  intros j q E. rewrite (H (Datatypes.S j) q E). f_equal. lia.
Qed.

Lemma run_at_app o S l1 l2 : run_at o S (l1 ++ l2) ->
  run_at o S l1 /\ run_at o (S + Z.of_nat (length l1)) l2.
Proof.
  intros H. split; intros j q E.
  - apply H. rewrite nth_error_app1; [exact E|]. eapply nth_error_some_lt. exact E.
  - rewrite (H (length l1 + j)%nat q); [f_equal; lia|].
    rewrite nth_error_app2 by lia. replace (length l1 + j - length l1)%nat with j by lia. exact E.
Qed.

Lemma a_run_app l1 : forall a l2,
  a_run a (l1 ++ l2) = (fst (a_run (fst (a_run a l1)) l2), snd (a_run a l1) ++ snd (a_run (fst (a_run a l1)) l2)).
Proof.
  induction l1 as [|p l1 IH]; intros a l2; cbn [app a_run fst snd]; [destruct (a_run a l2); reflexivity|].
  rewrite IH. reflexivity.
Qed.

Lemma released_app o1 o2 : released (o1 ++ o2) = released o1 ++ released o2.
Proof. apply flat_map_app. Qed.

Lemma released_cons pli f outs : released ((pli, Some f) :: outs) = f :: released outs.
Proof. reflexivity. Qed.

Lemma released_none n : released (repeat (false, None) n) = [].
Proof. induction n as [|n IH]; [reflexivity|]. exact IH. Qed.

Lemma nopli_none n : Forall (fun x : out => fst x = false) (repeat (false, None) n).
Proof. induction n as [|n IH]; constructor; [reflexivity|exact IH]. Qed.

Section InOrder.
Variables (c pf : Z) (v : bool) (b : Z).
Hypothesis Hc : 0 < c <= 32768.

(* The stream is numbered from b.  K of its packets are in frames that were released already; the
   buffer holds the frames G that follow them, the last one maybe in part. *)
Definition Sg (K : Z) (G : list (list pkt)) : jb := St c pf v (uint16_add b K) (concat G).

(* The next packet in sequence turns the held frames G into G': the oldest frame comes out iff
   max(prefetch,1) further frames have begun. *)
Lemma pkt_step K G G' p :
  wfg G' -> concat G' = concat G ++ [p] -> (length (concat G) < Z.to_nat c)%nat ->
  pseq p = uint16_add b (K + Z.of_nat (length (concat G))) ->
  a_add (Sg K G) p =
  if Z.max pf 1 <=? Z.of_nat (length (tl G'))
  then (Sg (K + Z.of_nat (length (hd [] G'))) (tl G'), (false, Some (gframe (hd [] G'))))
  else (Sg K G', (false, None)).
Proof.
  intros HG EB Hh Hp. rewrite <- uint16_add_add in Hp.
  destruct G' as [|g1 gs]; [destruct (concat G); discriminate EB|]. cbn [hd tl].
  destruct HG as (t1 & HU1 & HCh).
  destruct (inord_delta (uint16_add b K) (Z.of_nat (length (concat G))) ltac:(lia)) as [Ed Em].
  unfold Sg, a_add, St. cbn [origin slots]. rewrite Hp, Em, Ed. rewrite a_place_in by (cbn [cap]; lia).
  unfold a_tail, placed. cbv zeta. cbn [cap prefetch is_video]. rewrite Hp, Ed, Nat2Z.id.
  rewrite w_set_append by lia. rewrite <- EB.
  rewrite (w_frame_groups g1 gs t1 _ pf HU1 HCh).
  assert (EL : (length g1 + length (concat gs) = S (length (concat G)))%nat).
  { rewrite <- app_length. change (g1 ++ concat gs) with (concat (g1 :: gs)).
    rewrite EB, app_length. cbn [length]. lia. }
  destruct (Z.max pf 1 <=? Z.of_nat (length gs)).
  - rewrite (uniform_head t1 g1 HU1), Nat2Z.id, uint16_add_add. cbn [concat]. rewrite map_app, <- app_assoc.
    rewrite (w_remove_app _ _ (length g1)) by apply map_length.
    rewrite <- app_assoc, <- repeat_app. do 4 f_equal. lia.
  - do 4 f_equal. rewrite EB, app_length. cbn [length]. lia.
Qed.

Lemma within_frame K todo : forall hs cur,
  cur <> [] -> wfg (hs ++ [cur ++ todo]) -> Z.of_nat (length hs) < Z.max pf 1 ->
  (length (concat hs) + length cur + length todo <= Z.to_nat c)%nat ->
  run_at b (K + Z.of_nat (length (concat hs) + length cur)) todo ->
  a_run (Sg K (hs ++ [cur])) todo = (Sg K (hs ++ [cur ++ todo]), repeat (false, None) (length todo)).
Proof.
  induction todo as [|p todo IH]; intros hs cur Hcur Hw HP HL Hseq.
  - rewrite app_nil_r. reflexivity.
  - cbn [a_run length repeat] in *. apply run_at_cons in Hseq. destruct Hseq as [Hp Hseq].
    assert (Ecur : cur ++ p :: todo = (cur ++ [p]) ++ todo) by (rewrite <- app_assoc; reflexivity).
    rewrite Ecur in Hw |- *.
    rewrite (pkt_step K _ (hs ++ [cur ++ [p]]) p).
    + rewrite length_tl_snoc. destruct (Z.leb_spec (Z.max pf 1) (Z.of_nat (length hs))); [lia|].
      cbn [fst snd]. rewrite IH; [reflexivity|destruct cur; discriminate|exact Hw|exact HP| |].
      * rewrite app_length. cbn [length]. lia.
      * rewrite app_length. cbn [length].
        replace (Z.of_nat (length (concat hs) + (length cur + 1))) with
          (Z.of_nat (length (concat hs) + length cur) + 1) by lia. rewrite Z.add_assoc. exact Hseq.
    + apply (wfg_cut hs (cur ++ [p]) todo []); [destruct cur; discriminate|exact Hw].
    + rewrite !concat_snoc, app_assoc. reflexivity.
    + rewrite concat_snoc, app_length. lia.
    + rewrite concat_snoc, app_length. exact Hp.
Qed.

Variable Pn : nat.
Hypothesis HPn : Z.of_nat Pn = Z.max pf 1.

(* when a frame begins while the frames hs are held: the frames released, and those still held *)
Definition feed (hs : list (list pkt)) : list (list pkt) * list (list pkt) :=
  if Z.max pf 1 <=? Z.of_nat (length hs) then ([hd [] hs], tl hs) else ([], hs).

Lemma feed_spec hs : (length hs <= Pn)%nat ->
  fst (feed hs) ++ snd (feed hs) = hs /\ (length (snd (feed hs)) < Pn)%nat /\
  (length (fst (feed hs)) = 0%nat \/ length (fst (feed hs)) = 1%nat /\ length hs = Pn).
Proof.
  intros H. unfold feed. destruct (Z.leb_spec (Z.max pf 1) (Z.of_nat (length hs))); cbn [fst snd].
  - destruct hs as [|h hs]; cbn [length hd tl app] in *; [lia|]. split; [reflexivity|]. lia.
  - split; [reflexivity|]. cbn [length]. lia.
Qed.

Lemma frame_run hs g K :
  g <> [] -> wfg (hs ++ [g]) -> (length hs <= Pn)%nat ->
  (length (concat hs) < Z.to_nat c)%nat -> (length (concat (snd (feed hs))) + length g <= Z.to_nat c)%nat ->
  run_at b (K + Z.of_nat (length (concat hs))) g ->
  exists outs,
    a_run (Sg K hs) g =
      (Sg (K + Z.of_nat (length (concat (fst (feed hs))))) (snd (feed hs) ++ [g]), outs) /\
    released outs = map gframe (fst (feed hs)) /\ Forall (fun x : out => fst x = false) outs.
Proof.
  intros Hg Hw HP HL1 HL2 Hseq. destruct g as [|p todo]; [congruence|].
  apply run_at_cons in Hseq. destruct Hseq as [Hp Hseq]. cbn [a_run].
  rewrite (pkt_step K hs (hs ++ [[p]]) p);
    [|apply (wfg_cut hs [p] todo []); [discriminate|exact Hw]|apply concat_snoc|exact HL1|exact Hp].
  rewrite length_tl_snoc. unfold feed in *.
  destruct (Z.leb_spec (Z.max pf 1) (Z.of_nat (length hs))) as [Hrel|Hno]; cbn [fst snd] in *.
  - destruct hs as [|h1 hr]; [cbn [length] in Hrel; lia|]. cbn [hd tl app concat length] in *.
    rewrite app_nil_r. rewrite (within_frame _ todo hr [p]); [|discriminate|apply (wfg_tail h1); exact Hw|lia|cbn [length]; lia|].
    + cbn [fst snd]. eexists. split; [reflexivity|]. split; [rewrite released_cons, released_none; reflexivity|].
      constructor; [reflexivity|apply nopli_none].
    + rewrite app_length in Hseq. cbn [length].
      replace (K + Z.of_nat (length h1) + Z.of_nat (length (concat hr) + 1))
        with (K + Z.of_nat (length h1 + length (concat hr)) + 1) by lia. exact Hseq.
  - cbn [concat length Z.of_nat]. rewrite Z.add_0_r.
    rewrite (within_frame _ todo hs [p]); [|discriminate|exact Hw|exact Hno|cbn [length] in *; lia|].
    + cbn [fst snd]. eexists. split; [reflexivity|]. split; [exact (released_none (S (length todo)))|].
      exact (nopli_none (S (length todo))).
    + cbn [length]. rewrite Nat2Z.inj_add, Z.add_assoc. exact Hseq.
Qed.

Lemma stream_run rest : forall hs K,
  wfg (hs ++ rest) -> (length hs <= Pn)%nat -> Fit Pn c (hs ++ rest) ->
  run_at b (K + Z.of_nat (length (concat hs))) (concat rest) ->
  released (snd (a_run (Sg K hs) (concat rest))) =
    map gframe (firstn (length hs + length rest - Pn) (hs ++ rest)) /\
  Forall (fun x : out => fst x = false) (snd (a_run (Sg K hs) (concat rest))).
Proof.
  induction rest as [|g rest IH]; intros hs K Hw HP HFit Hseq.
  - cbn [concat a_run snd released flat_map length]. rewrite Nat.add_0_r.
    replace (length hs - Pn)%nat with 0%nat by lia. split; [reflexivity|constructor].
  - pose proof (wfg_nonempty _ _ _ Hw) as Hg.
    pose proof (feed_spec hs HP) as HF. pose proof (frame_run hs g K Hg) as FR.
    destruct (feed hs) as [rel hs']. cbn [fst snd] in HF, FR. destruct HF as (Efeed & HP' & Hrel).
    assert (Eapp : hs ++ g :: rest = rel ++ (hs' ++ [g]) ++ rest).
    { rewrite <- Efeed, <- !app_assoc. reflexivity. }
    assert (HL : (length (hs' ++ [g]) <= Pn)%nat) by (rewrite app_length; cbn [length]; lia).
    assert (EK : length (concat hs) = (length (concat rel) + length (concat hs'))%nat).
    { rewrite <- Efeed, concat_app, app_length. reflexivity. }
    assert (EL : length hs = (length rel + length hs')%nat) by (rewrite <- Efeed; apply app_length).
    cbn [concat] in Hseq |- *. rewrite a_run_app. apply run_at_app in Hseq. destruct Hseq as [Hseq1 Hseq2].
    destruct FR as (outs & E & Erel & Epli); [|exact HP| | |exact Hseq1|].
    { apply (wfg_cut hs g [] rest Hg). rewrite app_nil_r. exact Hw. }
    { pose proof (Fit_prefix _ _ _ _ HFit HP). lia. }
    { rewrite Eapp in HFit. pose proof (Fit_prefix _ _ _ _ (Fit_skip _ _ _ _ HFit) HL) as HL'.
      rewrite concat_snoc, app_length in HL'. lia. }
    rewrite E. cbn [fst snd]. rewrite Eapp in Hw, HFit |- *.
    destruct (IH _ (K + Z.of_nat (length (concat rel))) (wfg_skip _ _ Hw) HL (Fit_skip _ _ _ _ HFit))
      as [IH1 IH2].
    { rewrite concat_snoc, app_length.
      replace (K + Z.of_nat (length (concat rel)) + Z.of_nat (length (concat hs') + length g))
        with (K + Z.of_nat (length (concat hs)) + Z.of_nat (length g)) by lia. exact Hseq2. }
    split; [|apply Forall_app; split; assumption].
    rewrite released_app, Erel, IH1, <- map_app, <- firstn_app_2. do 2 f_equal.
    rewrite app_length in HL |- *. cbn [length] in HL |- *. lia.
Qed.
End InOrder.

Lemma a_add_init_St c pf v p : a_add (a_init c pf v) p = a_add (St c pf v (pseq p) []) p.
Proof.
  unfold a_add, a_init, St. cbn [origin slots is_video map app length]. rewrite Nat.sub_0_r.
  rewrite uint16_add_opp. reflexivity.
Qed.

(* C10_complete, in-order case.  gs = the sender's frames (each a non-empty list of packets with
   one timestamp, neighbouring frames with different timestamps), numbered consecutively from b
   (mod 2^16) and delivered in order, completely; every max(prefetch,1) consecutive frames have at
   most capacity-1 packets in total.  Then exactly the frames except the last max(prefetch,1)
   are released, each once, in order, byte for byte -- and no key frame is ever requested. *)
Theorem jitter_complete_inorder c pf v gs b s outs :
  cap_ok c -> c <= 32768 -> 0 <= b < 65536 ->
  wfg gs -> Fit (Z.to_nat (Z.max pf 1)) c gs ->
  (forall j q, nth_error (concat gs) j = Some q -> pseq q = uint16_add b (Z.of_nat j)) ->
  reaches c pf v (concat gs) s outs ->
  released outs = map gframe (firstn (length gs - Z.to_nat (Z.max pf 1)) gs) /\
  Forall (fun x : out => fst x = false) outs.
Proof.
  intros Hc Hle Hb Hw HFit Hseq HR. pose proof (cap_ok_pos _ Hc) as Hpos.
  assert (HF : Forall seq16 (concat gs)).
  { apply Forall_forall. intros q Hq. apply In_nth_error in Hq. destruct Hq as [j Ej].
    unfold seq16. rewrite (Hseq j q Ej). apply uint16_add_range. }
  destruct (reaches_abs c pf v _ s outs Hc HF HR) as [-> _].
  destruct gs as [|g gs].
  - cbn [concat a_run snd released flat_map length firstn map]. split; [reflexivity|constructor].
  - destruct g as [|p todo]; [exfalso; exact (wfg_nonempty [] _ _ Hw eq_refl)|].
    assert (Ep : pseq p = b).
    { rewrite (Hseq 0%nat p eq_refl). apply uint16_add_0. exact Hb. }
    assert (E : a_run (a_init c pf v) (concat ((p :: todo) :: gs)) =
                a_run (Sg c pf v b 0 []) (concat ((p :: todo) :: gs))).
    { unfold Sg. cbn [concat app a_run]. rewrite a_add_init_St, Ep, (uint16_add_0 b Hb). reflexivity. }
    rewrite E.
    exact (stream_run c pf v b ltac:(lia) (Z.to_nat (Z.max pf 1)) ltac:(lia) ((p :: todo) :: gs) [] 0 Hw
             ltac:(cbn [length]; lia) HFit Hseq).
Qed.
