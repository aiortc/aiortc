(* VP8 payload descriptor and packetiser: parse totality (C05), descriptor
   round trip for every field combination, packetiser size / lossless /
   partition-start / picture-id facts (C16). *)
From Coq Require Import ZArith List Bool Lia.
From AV Require Import Lib.Bytes Lib.BytesP Lib.CodecX Lib.CodecXP Gen.VpxConst Model.Vp8.
Import ListNotations.
Local Open Scope Z_scope.

(* The parser in stages (definitionally the same function).
   Every read of the parser is guarded the same way; read8 / read16 are that
   guarded read, with what is done with the value as a continuation. *)
Definition read8 {T : Type} (data : bytes) (pos : nat) (k : Z -> result T) : result T :=
  if len data <? Z.of_nat pos + 1 then ValueErr
  else match u8 data pos with
       | None => Crash
       | Some b => k b
       end.

Definition read16 {T : Type} (data : bytes) (pos : nat) (k : Z -> result T) : result T :=
  if len data <? Z.of_nat pos + 2 then ValueErr
  else match u16 data pos with
       | None => Crash
       | Some v => k v
       end.

Lemma read8_total {T : Type} data pos (k : Z -> result T) :
  (forall b, total (k b)) -> total (read8 data pos k).
Proof.
  intros Hk. unfold read8. destruct (Z.ltb_spec (len data) (Z.of_nat pos + 1)); [apply total_valueerr|].
  destruct (u8_some data pos) as [b ->]; [unfold len in *; lia | apply Hk].
Qed.

Lemma read16_total {T : Type} data pos (k : Z -> result T) :
  (forall v, total (k v)) -> total (read16 data pos k).
Proof.
  intros Hk. unfold read16. destruct (Z.ltb_spec (len data) (Z.of_nat pos + 2)); [apply total_valueerr|].
  destruct (u16_some data pos) as [v ->]; [unfold len in *; lia | apply Hk].
Qed.

Lemma read8_mid {T : Type} pre x post (k : Z -> result T) :
  read8 (pre ++ x :: post) (length pre) k = k x.
Proof.
  unfold read8. rewrite u8_mid, (proj2 (Z.ltb_ge _ _)); [reflexivity|].
  rewrite len_app, len_cons. unfold len. lia.
Qed.

Lemma read8_0 {T : Type} x post (k : Z -> result T) : read8 (x :: post) 0 k = k x.
Proof. exact (read8_mid [] x post k). Qed.
Lemma read8_1 {T : Type} a x post (k : Z -> result T) : read8 (a :: x :: post) 1 k = k x.
Proof. exact (read8_mid [a] x post k). Qed.

Lemma read16_mid {T : Type} pre v post (k : Z -> result T) :
  0 <= v < 65536 -> read16 (pre ++ be16 v ++ post) (length pre) k = k v.
Proof.
  intros Hv. unfold read16. rewrite u16_at by exact Hv. rewrite (proj2 (Z.ltb_ge _ _)); [reflexivity|].
  rewrite !len_app. change (len (be16 v)) with 2. unfold len. lia.
Qed.

Definition parse_I (data : bytes) (pos : nat) (ext_I : Z) : result (option Z * nat) :=
  if negb (ext_I =? 0) then
    read8 data pos (fun b =>
      if negb (Z.land b 128 =? 0)
      then read16 data pos (fun v => Ok (Some (Z.land v 32767), (pos + 2)%nat))
      else Ok (Some b, (pos + 1)%nat))
  else Ok (None, pos).

Definition parse_L (data : bytes) (pos : nat) (ext_L : Z) : result (option Z * nat) :=
  if negb (ext_L =? 0) then read8 data pos (fun b => Ok (Some b, (pos + 1)%nat))
  else Ok (None, pos).

Definition parse_TK (data : bytes) (pos : nat) (ext_T ext_K : Z)
  : result (option (Z * Z) * option Z * nat) :=
  if negb (ext_T =? 0) || negb (ext_K =? 0) then
    read8 data pos (fun t_k =>
      let tid := if negb (ext_T =? 0)
                 then Some (Z.land (Z.shiftr t_k 6) 3, Z.land (Z.shiftr t_k 5) 1)
                 else None in
      let keyidx := if negb (ext_K =? 0) then Some (Z.land t_k 31) else None in
      Ok (tid, keyidx, (pos + 1)%nat))
  else Ok (None, None, pos).

Definition parse_ext (data : bytes) (ps pid : Z) : result (descr * bytes) :=
  read8 data 1 (fun octet =>
    '(picture_id, pos) <- parse_I data 2 (Z.land (Z.shiftr octet 7) 1) ;;
    '(tl0picidx, pos) <- parse_L data pos (Z.land (Z.shiftr octet 6) 1) ;;
    '(tid, keyidx, pos) <- parse_TK data pos (Z.land (Z.shiftr octet 5) 1) (Z.land (Z.shiftr octet 4) 1) ;;
    Ok (mkDescr ps pid picture_id tl0picidx tid keyidx, skipn pos data)).

Lemma parse_staged data :
  parse data =
  read8 data 0 (fun octet =>
    if negb (Z.shiftr octet 7 =? 0)
    then parse_ext data (Z.land (Z.shiftr octet 4) 1) (Z.land octet 15)
    else Ok (mkDescr (Z.land (Z.shiftr octet 4) 1) (Z.land octet 15) None None None None, skipn 1 data)).
Proof. reflexivity. Qed.

Lemma parse_I_total data pos e : total (parse_I data pos e).
Proof.
  unfold parse_I. destruct (negb (e =? 0)); [|apply total_ok].
  apply read8_total. intros b. destruct (negb (Z.land b 128 =? 0)); [|apply total_ok].
  apply read16_total. intros v. apply total_ok.
Qed.

Lemma parse_L_total data pos e : total (parse_L data pos e).
Proof.
  unfold parse_L. destruct (negb (e =? 0)); [|apply total_ok].
  apply read8_total. intros b. apply total_ok.
Qed.

Lemma parse_TK_total data pos t k : total (parse_TK data pos t k).
Proof.
  unfold parse_TK. destruct (negb (t =? 0) || negb (k =? 0)); [|apply total_ok].
  apply read8_total. intros b. apply total_ok.
Qed.

(* C05: VpxPayloadDescriptor.parse returns a value or ValueError for EVERY byte
   string (there is no loop, so no fuel) *)
Theorem vpx_descriptor_parse_total : forall b, bytes_ok b ->
  (exists v, parse b = Ok v) \/ parse b = ValueErr.
Proof.
  intros data _. change (total (parse data)). rewrite parse_staged.
  apply read8_total. intros o. destruct (negb (Z.shiftr o 7 =? 0)); [|apply total_ok].
  apply read8_total. intros e.
  apply total_bind; [apply parse_I_total|]. intros [pic pos] _.
  apply total_bind; [apply parse_L_total|]. intros [tl0 pos'] _.
  apply total_bind; [apply parse_TK_total|]. intros [[t k] pos''] _.
  apply total_ok.
Qed.

Definition b2z (b : bool) : Z := if b then 1 else 0.

Definition ext_of (i l t k : bool) : Z :=
  let e := 0 in
  let e := if i then Z.lor e (Z.shiftl 1 7) else e in
  let e := if l then Z.lor e (Z.shiftl 1 6) else e in
  let e := if t then Z.lor e (Z.shiftl 1 5) else e in
  let e := if k then Z.lor e (Z.shiftl 1 4) else e in
  e.

Definition enc_I (pic : option Z) : result bytes :=
  match pic with
  | None => Ok []
  | Some p => if p <? 128 then pack_B p else pack_H (Z.lor (Z.shiftl 1 15) p)
  end.

Definition enc_L (tl0 : option Z) : result bytes :=
  match tl0 with
  | None => Ok []
  | Some t => pack_B t
  end.

Definition tk_of (tid : option (Z * Z)) (keyidx : option Z) : Z :=
  let t_k := 0 in
  let t_k := match tid with
             | Some (t0, t1) => Z.lor t_k (Z.lor (Z.shiftl t0 6) (Z.shiftl t1 5))
             | None => t_k
             end in
  let t_k := match keyidx with
             | Some k => Z.lor t_k k
             | None => t_k
             end in
  t_k.

Definition enc_TK (tid : option (Z * Z)) (keyidx : option Z) : result bytes :=
  if is_some tid || is_some keyidx then pack_B (tk_of tid keyidx) else Ok [].

Lemma descr_bytes_staged d :
  descr_bytes d =
  let octet := Z.lor (Z.shiftl (partition_start d) 4) (partition_id d) in
  let e := ext_of (is_some (picture_id d)) (is_some (tl0picidx d)) (is_some (tid d)) (is_some (keyidx d)) in
  if negb (e =? 0) then
    b0 <- pack_B (Z.lor (Z.shiftl 1 7) octet) ;;
    b1 <- pack_B e ;;
    bI <- enc_I (picture_id d) ;;
    bL <- enc_L (tl0picidx d) ;;
    bTK <- enc_TK (tid d) (keyidx d) ;;
    Ok (b0 ++ b1 ++ bI ++ bL ++ bTK)
  else pack_B octet.
Proof. reflexivity. Qed.

(* the first octet: X (extension present) at bit 7, S (partition start) at bit 4,
   partition id below *)
Lemma first_octet_facts x ps pid : 0 <= x < 2 -> 0 <= ps < 2 -> 0 <= pid < 16 ->
  let o := Z.lor (Z.shiftl x 7) (Z.lor (Z.shiftl ps 4) pid) in
  0 <= o < 256 /\ Z.shiftr o 7 = x /\ Z.land (Z.shiftr o 4) 1 = ps /\ Z.land o 15 = pid.
Proof.
  intros Hx Hps Hpid. cbv zeta.
  rewrite (lor_shiftl_add ps 4), (lor_shiftl_add x 7) by lia.
  rewrite !Z.shiftr_div_pow2, (Z.land_ones _ 1), (Z.land_ones _ 4) by lia.
  repeat split; Z.div_mod_to_equations; lia.
Qed.

Lemma ext_facts i l t k :
  let e := ext_of i l t k in
  0 <= e < 256 /\ negb (e =? 0) = (i || l || t || k) /\
  negb (Z.land (Z.shiftr e 7) 1 =? 0) = i /\ negb (Z.land (Z.shiftr e 6) 1 =? 0) = l /\
  negb (Z.land (Z.shiftr e 5) 1 =? 0) = t /\ negb (Z.land (Z.shiftr e 4) 1 =? 0) = k.
Proof. destruct i, l, t, k; vm_compute; intuition congruence. Qed.

(* a 15-bit picture id under the M bit: M is the top bit of the first byte sent *)
Lemma long_pid_facts p : 128 <= p < 32768 ->
  let v := Z.lor (Z.shiftl 1 15) p in
  0 <= v < 65536 /\ negb (Z.land ((v / 256) mod 256) 128 =? 0) = true /\ Z.land v 32767 = p.
Proof.
  intros Hp. cbv zeta. rewrite (lor_shiftl_add 1 15) by lia.
  rewrite byte_top_bit by (apply Z.mod_pos_bound; lia).
  rewrite (Z.land_ones _ 15) by lia.
  split; [lia|]. split; [|Z.div_mod_to_equations; lia].
  apply negb_true_iff, Z.ltb_ge. Z.div_mod_to_equations. lia.
Qed.

Definition tid_ok (tid : option (Z * Z)) : Prop :=
  match tid with Some (t0, t1) => 0 <= t0 < 4 /\ 0 <= t1 < 2 | None => True end.
Definition keyidx_ok (k : option Z) : Prop :=
  match k with Some k => 0 <= k < 32 | None => True end.

(* the T/K octet: TID at bits 7-6, Y at bit 5, KEYIDX below *)
Lemma tk_facts t0 t1 k : 0 <= t0 < 4 -> 0 <= t1 < 2 -> 0 <= k < 32 ->
  let v := tk_of (Some (t0, t1)) (Some k) in
  0 <= v < 256 /\ Z.land (Z.shiftr v 6) 3 = t0 /\ Z.land (Z.shiftr v 5) 1 = t1 /\ Z.land v 31 = k.
Proof.
  intros H0 H1 Hk. unfold tk_of. cbv zeta.
  rewrite Z.lor_0_l, <- Z.lor_assoc, (lor_shiftl_add t1 5), (lor_shiftl_add t0 6) by lia.
  rewrite !Z.shiftr_div_pow2, (Z.land_ones _ 2), (Z.land_ones _ 1), (Z.land_ones _ 5) by lia.
  repeat split; Z.div_mod_to_equations; lia.
Qed.

Lemma pack_B_ok n : 0 <= n < 256 -> pack_B n = Ok [n].
Proof.
  intros H. unfold pack_B.
  rewrite (proj2 (Z.leb_le _ _)), (proj2 (Z.ltb_lt _ _)) by lia. reflexivity.
Qed.
Lemma pack_H_ok n : 0 <= n < 65536 -> pack_H n = Ok (be16 n).
Proof.
  intros H. unfold pack_H.
  rewrite (proj2 (Z.leb_le _ _)), (proj2 (Z.ltb_lt _ _)) by lia. reflexivity.
Qed.

Definition pic_ok (pic : option Z) : Prop :=
  match pic with Some p => 0 <= p < 32768 | None => True end.
Definition tl0_ok (t : option Z) : Prop :=
  match t with Some t => 0 <= t < 256 | None => True end.

Lemma b2z_flag (b : bool) : negb (b2z b =? 0) = b.
Proof. destruct b; reflexivity. Qed.

(* Each stage, given the flag bits its value calls for, writes at most n bytes
   that its parser reads back from wherever they stand, ending right behind them. *)
Lemma stage_I pic e :
  pic_ok pic -> negb (e =? 0) = is_some pic ->
  exists bI, enc_I pic = Ok bI /\ len bI <= 2 /\
    forall pre post, parse_I (pre ++ bI ++ post) (length pre) e = Ok (pic, length (pre ++ bI)).
Proof.
  intros Hok He. unfold parse_I. rewrite He. destruct pic as [p|]; cbn [is_some enc_I pic_ok] in *.
  - destruct (p <? 128) eqn:Es.
    + rewrite pack_B_ok by lia. eexists. split; [reflexivity|]. split; [cbn; lia|]. intros pre post.
      rewrite app_length. cbn [app]. rewrite read8_mid, byte_top_bit, Es by lia. reflexivity.
    + apply Z.ltb_ge in Es. destruct (long_pid_facts p ltac:(lia)) as (Hr & Hb & Hv).
      rewrite pack_H_ok by lia. eexists. split; [reflexivity|]. split; [cbn; lia|]. intros pre post.
      rewrite app_length, read16_mid by exact Hr. unfold be16 at 1. cbn [app].
      rewrite read8_mid, Hb, Hv. reflexivity.
  - exists []. split; [reflexivity|]. split; [cbn; lia|]. intros pre post. now rewrite app_nil_r.
Qed.

Lemma stage_L tl0 e :
  tl0_ok tl0 -> negb (e =? 0) = is_some tl0 ->
  exists bL, enc_L tl0 = Ok bL /\ len bL <= 1 /\
    forall pre post, parse_L (pre ++ bL ++ post) (length pre) e = Ok (tl0, length (pre ++ bL)).
Proof.
  intros Hok He. unfold parse_L. rewrite He. destruct tl0 as [t|]; cbn [is_some enc_L tl0_ok] in *.
  - rewrite pack_B_ok by lia. eexists. split; [reflexivity|]. split; [cbn; lia|]. intros pre post.
    rewrite app_length. cbn [app]. rewrite read8_mid. reflexivity.
  - exists []. split; [reflexivity|]. split; [cbn; lia|]. intros pre post. now rewrite app_nil_r.
Qed.

Lemma stage_TK tid keyidx et ek :
  tid_ok tid -> keyidx_ok keyidx -> negb (et =? 0) = is_some tid -> negb (ek =? 0) = is_some keyidx ->
  exists bTK, enc_TK tid keyidx = Ok bTK /\ len bTK <= 1 /\
    forall pre post, parse_TK (pre ++ bTK ++ post) (length pre) et ek =
                     Ok (tid, keyidx, length (pre ++ bTK)).
Proof.
  intros Ht Hk Het Hek. unfold parse_TK, enc_TK. rewrite Het, Hek.
  destruct (is_some tid || is_some keyidx) eqn:E.
  - (* an absent field is written as 0: the octet is the one of (t, k0), and the fields present read back *)
    set (t := match tid with Some p => p | None => (0, 0) end).
    set (k0 := match keyidx with Some k => k | None => 0 end).
    assert (Etk : tk_of tid keyidx = tk_of (Some (fst t, snd t)) (Some k0))
      by (subst t k0; destruct tid as [[]|], keyidx; try reflexivity; symmetry; apply Z.lor_0_r).
    assert (Hb : 0 <= fst t < 4 /\ 0 <= snd t < 2 /\ 0 <= k0 < 32)
      by (subst t k0; destruct tid as [[]|], keyidx; cbn in *; lia).
    destruct (tk_facts (fst t) (snd t) k0) as (Hr & H1 & H2 & H3); try apply Hb.
    rewrite Etk, pack_B_ok by exact Hr. eexists. split; [reflexivity|]. split; [cbn; lia|]. intros pre post.
    rewrite app_length. cbn [app]. rewrite read8_mid. cbv zeta. rewrite H1, H2, H3.
    subst t k0. destruct tid as [[]|], keyidx; reflexivity.
  - destruct tid, keyidx; try discriminate E.
    exists []. split; [reflexivity|]. split; [cbn; lia|]. intros pre post. now rewrite app_nil_r.
Qed.

Definition descr_ok (d : descr) : Prop :=
  0 <= partition_start d < 2 /\ 0 <= partition_id d < 16 /\
  pic_ok (picture_id d) /\ tl0_ok (tl0picidx d) /\ tid_ok (tid d) /\ keyidx_ok (keyidx d).

Theorem descr_roundtrip : forall d, descr_ok d ->
  exists b, descr_bytes d = Ok b /\ (1 <= len b <= 6) /\
            forall rest, parse (b ++ rest) = Ok (d, rest).
Proof.
  intros [ps pid pic tl0 tid kx] (Hps & Hpid & Hpic & Htl0 & Htid & Hkx).
  cbn [partition_start partition_id picture_id tl0picidx Vp8.tid keyidx] in *.
  rewrite descr_bytes_staged.
  cbn [partition_start partition_id picture_id tl0picidx Vp8.tid keyidx]. cbv zeta.
  destruct (ext_facts (is_some pic) (is_some tl0) (is_some tid) (is_some kx)) as (He1 & He2 & HeI & HeL & HeT & HeK).
  set (e := ext_of (is_some pic) (is_some tl0) (is_some tid) (is_some kx)) in *.
  set (octet := Z.lor (Z.shiftl ps 4) pid) in *.
  rewrite He2.
  destruct (is_some pic || is_some tl0 || is_some tid || is_some kx) eqn:Eext.
  - destruct (first_octet_facts 1 ps pid) as (Hx1 & Hx2 & Hx3 & Hx4); try lia. fold octet in Hx1, Hx2, Hx3, Hx4.
    destruct (stage_I pic _ Hpic HeI) as (bI & HbI & HlI & HpI).
    destruct (stage_L tl0 _ Htl0 HeL) as (bL & HbL & HlL & HpL).
    destruct (stage_TK tid kx _ _ Htid Hkx HeT HeK) as (bTK & HbTK & HlTK & HpTK).
    rewrite (pack_B_ok _ Hx1), (pack_B_ok _ He1), HbI, HbL, HbTK. cbn [bind].
    set (o := Z.lor (Z.shiftl 1 7) octet) in *.
    eexists. split; [reflexivity|]. split.
    { rewrite !len_app. change (len [o]) with 1. change (len [e]) with 1.
      pose proof (len_nonneg bI). pose proof (len_nonneg bL). pose proof (len_nonneg bTK). lia. }
    intros rest. rewrite parse_staged, <- !app_assoc. cbn [app].
    rewrite read8_0, Hx2, Hx3, Hx4. cbn [Z.eqb negb]. unfold parse_ext. rewrite read8_1.
    (* each stage reads its bytes right after what the stages before it consumed *)
    change (o :: e :: bI ++ bL ++ bTK ++ rest) with ([o; e] ++ bI ++ bL ++ bTK ++ rest).
    rewrite (HpI [o; e]). cbn [bind].
    rewrite app_assoc, HpL. cbn [bind].
    rewrite app_assoc, HpTK. cbn [bind].
    rewrite app_assoc, skipn_app, skipn_all, Nat.sub_diag. reflexivity.
  - (* one-byte descriptor: no optional field is present *)
    assert (pic = None /\ tl0 = None /\ tid = None /\ kx = None) as (-> & -> & -> & ->).
    { destruct pic, tl0, tid, kx; cbn [is_some orb] in Eext; try discriminate. auto. }
    destruct (first_octet_facts 0 ps pid) as (Ho1 & Ho2 & Ho3 & Ho4); try lia.
    rewrite Z.shiftl_0_l, Z.lor_0_l in Ho1, Ho2, Ho3, Ho4. fold octet in Ho1, Ho2, Ho3, Ho4.
    cbn [negb]. rewrite (pack_B_ok _ Ho1). eexists. split; [reflexivity|]. split; [cbn; lia|].
    intros rest. rewrite parse_staged. cbn [app]. rewrite read8_0, Ho2, Ho3, Ho4. reflexivity.
Qed.

Lemma vpx_consts_ok : 6 < vpx_PACKET_MAX.
Proof. vm_compute. reflexivity. Qed.

Definition frame_descr (s pid : Z) : descr := mkDescr s 0 (Some pid) None None None.

Lemma packetize_loop_eq fuel buffer d length pos :
  packetize_loop fuel buffer d length pos =
  if pos <? length then
    match fuel with
    | O => OutOfFuel
    | S f =>
        descr_bytes_ <- descr_bytes d ;;
        let size := Z.min (length - pos) (vpx_PACKET_MAX - len descr_bytes_) in
        let payload := descr_bytes_ ++ pyslice buffer pos (pos + size) in
        rest <- packetize_loop f buffer (set_partition_start d 0) length (pos + size) ;;
        Ok (payload :: rest)
    end
  else Ok [].
Proof. destruct fuel; reflexivity. Qed.

Lemma packetize_loop_exit fuel buffer d length pos :
  length <= pos -> packetize_loop fuel buffer d length pos = Ok [].
Proof. intros H. rewrite packetize_loop_eq, (proj2 (Z.ltb_ge _ _) H). reflexivity. Qed.

Definition payload_of (d : descr) (c p : bytes) : Prop :=
  len p <= vpx_PACKET_MAX /\ 1 <= len c /\ parse p = Ok (d, c).

Definition vp8_payload (s pid : Z) (c p : bytes) : Prop :=
  len p <= vpx_PACKET_MAX /\ 1 <= len c /\ parse p = Ok (frame_descr s pid, c).

(* pk is a correct packetisation of the frame: the chunks concatenate to the
   buffer, the first payload (only) is marked as partition start *)
Definition vp8_packets (buffer : bytes) (pid : Z) (pk : list bytes) : Prop :=
  exists chunks, concat chunks = buffer /\
    match chunks, pk with
    | [], [] => True
    | c0 :: cs, p0 :: ps => vp8_payload 1 pid c0 p0 /\ Forall2 (vp8_payload 0 pid) cs ps
    | _, _ => False
    end.

(* The loop with ANY in-range descriptor d: from pos on it cuts the buffer into
   non-empty chunks, sends the first under d and the others under d with S = 0,
   each within the limit, and needs one unit of fuel per remaining byte at most. *)
Lemma packetize_loop_spec : forall fuel buffer d pos,
  descr_ok d -> 0 <= pos <= len buffer -> (Z.to_nat (len buffer - pos) <= fuel)%nat ->
  exists chunks pk,
    packetize_loop fuel buffer d (len buffer) pos = Ok pk /\
    concat chunks = skipn (Z.to_nat pos) buffer /\
    match chunks, pk with
    | [], [] => True
    | c0 :: cs, p0 :: ps => payload_of d c0 p0 /\ Forall2 (payload_of (set_partition_start d 0)) cs ps
    | _, _ => False
    end.
Proof.
  induction fuel as [|fuel IH]; intros buffer d pos Hd Hpos Hfuel.
  - assert (pos = len buffer) as -> by lia. exists [], [].
    rewrite packetize_loop_exit, skipn_len by lia. repeat split.
  - destruct (Z.ltb_spec pos (len buffer)) as [Hlt | Hge].
    2:{ assert (pos = len buffer) as -> by lia. exists [], [].
        rewrite packetize_loop_exit, skipn_len by lia. repeat split. }
    destruct (descr_roundtrip d Hd) as (db & Hdb & Hlen & Hparse).
    pose proof vpx_consts_ok as Hmax.
    rewrite packetize_loop_eq, (proj2 (Z.ltb_lt _ _) Hlt), Hdb. cbn [bind]. cbv zeta.
    set (size := Z.min (len buffer - pos) (vpx_PACKET_MAX - len db)).
    assert (Hsize : 1 <= size <= len buffer - pos) by (unfold size; lia).
    destruct (pyslice_chunk buffer pos size) as [Hl Hk]; try lia.
    assert (Hd0 : descr_ok (set_partition_start d 0)).
    { destruct Hd as (_ & Hrest). split; [cbn; lia | exact Hrest]. }
    destruct (IH buffer _ (pos + size) Hd0 ltac:(lia) ltac:(lia)) as (chunks & pk & Hrun & Hcat & Hshape).
    rewrite Hrun. cbn [bind].
    exists (pyslice buffer pos (pos + size) :: chunks). eexists. split; [reflexivity|].
    split; [cbn [concat]; rewrite Hcat; exact Hk|].
    split.
    + split; [rewrite len_app, Hl; unfold size; lia|]. split; [lia | apply Hparse].
    + (* the rest went out under a descriptor that already has S = 0 *)
      destruct chunks, pk; try contradiction; constructor; apply Hshape.
Qed.

Theorem vp8_packetize_spec : forall buffer pid,
  0 <= pid < 32768 ->
  exists pk, packetize buffer pid = Ok pk /\ vp8_packets buffer pid pk.
Proof.
  intros buffer pid Hpid. unfold packetize.
  destruct (packetize_loop_spec (length buffer) buffer (frame_descr 1 pid) 0)
    as (chunks & pk & Hrun & Hcat & Hshape).
  - unfold descr_ok, frame_descr. cbn. lia.
  - pose proof (len_nonneg buffer). lia.
  - unfold len. lia.
  - exists pk. split; [exact Hrun|]. exists chunks. split; [exact Hcat | exact Hshape].
Qed.

Fixpoint vp8_depay_all (pk : list bytes) : result bytes :=
  match pk with
  | [] => Ok []
  | p :: tl => d <- depayload p ;; r <- vp8_depay_all tl ;; Ok (d ++ r)
  end.

(* what losslessness and the size bound need of a packetisation: chunk by chunk *)
Lemma vp8_packets_payloads buffer pid pk :
  vp8_packets buffer pid pk ->
  exists chunks, concat chunks = buffer /\ Forall2 (fun c p => exists s, vp8_payload s pid c p) chunks pk.
Proof.
  intros (chunks & Hcat & Hshape). exists chunks. split; [exact Hcat|].
  destruct chunks as [|c0 cs], pk as [|p0 ps]; try contradiction; [constructor|].
  destruct Hshape as [H0 HF]. constructor; [exists 1; exact H0|]. clear Hcat. induction HF; constructor; eauto.
Qed.

Theorem vp8_packets_lossless buffer pid pk : vp8_packets buffer pid pk -> vp8_depay_all pk = Ok buffer.
Proof.
  intros H. destruct (vp8_packets_payloads _ _ _ H) as (chunks & <- & HF). clear H.
  induction HF as [|c p cs ps (s & _ & _ & Hp) _ IH]; [reflexivity|].
  cbn [vp8_depay_all concat]. unfold depayload. rewrite Hp. cbn [bind]. rewrite IH. reflexivity.
Qed.

Theorem vp8_packets_size buffer pid pk :
  vp8_packets buffer pid pk -> Forall (fun p => len p <= vpx_PACKET_MAX) pk.
Proof.
  intros H. destruct (vp8_packets_payloads _ _ _ H) as (chunks & _ & HF). clear H.
  induction HF as [|c p cs ps (s & Hs & _) _ IH]; constructor; assumption.
Qed.
