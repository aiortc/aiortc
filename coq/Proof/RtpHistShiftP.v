(* C17: the RTP sender's retransmission history does not depend on the origin of the RTP
   sequence numbers.  Shifting the sender's sequence counter and every NACKed sequence number
   by any delta d (mod 2^16) - e.g. so that the stream crosses 65535 -> 0 - yields the same
   packets with their sequence numbers shifted, the same retransmissions (verbatim, or as RTX
   carrying the shifted original sequence number), and a history that is the unshifted one with
   its slots rotated by d (the dictionary is keyed by sequence_number % 128). *)
From Coq Require Import ZArith List Bool Lia ZifyBool.
From AV Require Import Lib.Bytes Lib.RtpX Gen.Utils Gen.RtpConst Model.RtpSend Proof.SerialP Proof.SctpSsnShiftP.
From AV Require Model.Rtp Proof.RtpBitsP Proof.RtpSendP.
Import ListNotations.
Local Open Scope Z_scope.

Ltac Zify.zify_post_hook ::= Z.to_euclidean_division_equations.

Definition rmap {A B} (f : A -> B) (r : result A) : result B :=
  match r with Ok v => Ok (f v) | ValueErr => ValueErr | Crash => Crash | OutOfFuel => OutOfFuel end.

Section HistShift.
Variable d : Z.
Notation sh := (sh16 d).

Definition rot (k : Z) : Z := (k + d) mod 128.
Definition shp (p : Rtp.rtp) : Rtp.rtp :=
  Rtp.mkRtp (Rtp.marker p) (Rtp.payload_type p) (sh (Rtp.sequence_number p)) (Rtp.timestamp p) (Rtp.ssrc p)
            (Rtp.csrc p) (Rtp.extensions p) (Rtp.payload p) (Rtp.padding_size p).
(* an RTX packet: the original sequence number is the first two payload bytes *)
Definition shrtx (r : Rtp.rtp) : Rtp.rtp :=
  Rtp.mkRtp (Rtp.marker r) (Rtp.payload_type r) (Rtp.sequence_number r) (Rtp.timestamp r) (Rtp.ssrc r)
            (Rtp.csrc r) (Rtp.extensions r)
            (match Rtp.payload r with a :: b :: rest => be16 (sh (a * 256 + b)) ++ rest | p => p end)
            (Rtp.padding_size r).
Definition shh (h : hist) : hist := map (fun kv => (rot (fst kv), shp (snd kv))) h.
Definition shs (s : sender) : sender :=
  mkSender (s_pt s) (s_ssrc s) (s_rtx_ssrc s) (s_rtx_pt s) (s_mid s) (sh (s_seq s)) (s_ts_origin s) (s_rtx_seq s)
           (shh (s_hist s)).
Definition is_rtx (s : sender) : bool := match s_rtx_pt s with Some _ => true | None => false end.
Definition shres (rtx : bool) (p : Rtp.rtp) : Rtp.rtp := if rtx then shrtx p else shp p.
Definition shout (rtx : bool) (o : out) : out :=
  match o with Sent l => Sent (map shp l) | Resent l => Resent (map (shres rtx) l) end.
Definition shop (o : op) : op := match o with Frame f => Frame f | Nack lost => Nack (map sh lost) end.

Definition slot (k : Z) : Prop := 0 <= k < 128.
Definition hok (h : hist) : Prop := Forall (fun kv => slot (fst kv) /\ in16 (Rtp.sequence_number (snd kv))) h.
Definition sok (s : sender) : Prop := in16 (s_seq s) /\ hok (s_hist s).
Definition opok (o : op) : Prop := match o with Frame _ => True | Nack lost => Forall in16 lost end.

Lemma rot_eqb k k' : slot k -> slot k' -> (rot k =? rot k') = (k =? k').
Proof. unfold slot, rot. intros. apply eq_true_iff_eq. rewrite !Z.eqb_eq. lia. Qed.
Lemma rot_slot k : slot (rot k). Proof. unfold slot, rot. lia. Qed.
Lemma sh_slot x : in16 x -> sh x mod rtp_RTP_HISTORY_SIZE = rot (x mod rtp_RTP_HISTORY_SIZE) /\ slot (x mod rtp_RTP_HISTORY_SIZE).
Proof. unfold in16, sh16, rot, slot, rtp_RTP_HISTORY_SIZE. lia. Qed.

Lemma hget_sh : forall h k, hok h -> slot k -> hget (shh h) (rot k) = option_map shp (hget h k).
Proof.
  induction h as [|[k' v] h IH]; intros k Hh Hk; [reflexivity|]. inversion Hh as [|? ? [Hk' _] Hh']; subst.
  cbn [shh map hget fst snd]. fold (shh h). rewrite rot_eqb by assumption. destruct (k =? k'); [reflexivity|now apply IH].
Qed.

Lemma hget_ok : forall h k v, hok h -> hget h k = Some v -> in16 (Rtp.sequence_number v).
Proof.
  induction h as [|[k' w] h IH]; intros k v Hh H; [discriminate|]. inversion Hh as [|? ? [_ Hw] Hh']; subst.
  cbn [hget] in H. destruct (k =? k'); [injection H as <-; exact Hw|eapply IH; eauto].
Qed.

Lemma hremove_sh : forall h k, hok h -> slot k -> hremove (shh h) (rot k) = shh (hremove h k) /\ hok (hremove h k).
Proof.
  induction h as [|[k' v] h IH]; intros k Hh Hk; [split; [reflexivity|constructor]|].
  inversion Hh as [|? ? Hkv Hh']; subst. destruct (IH k Hh' Hk) as [E O].
  cbn [shh map hremove fst snd]. fold (shh h). rewrite rot_eqb by (try assumption; exact (proj1 Hkv)).
  destruct (k =? k'); [split; assumption|]. rewrite E. split; [reflexivity|constructor; assumption].
Qed.

Lemma hset_sh h k v : hok h -> slot k -> in16 (Rtp.sequence_number v) ->
  hset (shh h) (rot k) (shp v) = shh (hset h k v) /\ hok (hset h k v).
Proof.
  intros Hh Hk Hv. destruct (hremove_sh h k Hh Hk) as [E O]. unfold hset. rewrite E.
  split; [reflexivity|constructor; [split; assumption|exact O]].
Qed.

Lemma mk_packet_sh s ts a n i pl ntp : mk_packet (shs s) ts a n i pl ntp = shp (mk_packet s ts a n i pl ntp).
Proof. reflexivity. Qed.

Lemma set_seq_hist_sh s q h : set_seq_hist (shs s) (sh q) (shh h) = shs (set_seq_hist s q h).
Proof. reflexivity. Qed.

Lemma send_payloads_sh : forall pl s ts a n i, sok s ->
  send_payloads (shs s) ts a n i pl = (shs (fst (send_payloads s ts a n i pl)), map shp (snd (send_payloads s ts a n i pl))) /\
  sok (fst (send_payloads s ts a n i pl)) /\ s_rtx_pt (fst (send_payloads s ts a n i pl)) = s_rtx_pt s.
Proof.
  induction pl as [|[payload ntp] pl IH]; intros s ts a n i [Hs Hh]; [split; [reflexivity|split; [split; assumption|reflexivity]]|].
  cbn [send_payloads]. rewrite mk_packet_sh. set (packet := mk_packet s ts a n i payload ntp).
  change (Rtp.sequence_number (shp packet)) with (sh (s_seq s)). change (Rtp.sequence_number packet) with (s_seq s).
  change (s_hist (shs s)) with (shh (s_hist s)). change (s_seq (shs s)) with (sh (s_seq s)).
  destruct (sh_slot (s_seq s) Hs) as [E1 E2]. rewrite E1, sh16_add.
  destruct (hset_sh (s_hist s) _ packet Hh E2 Hs) as [E3 O3]. rewrite E3, set_seq_hist_sh.
  set (s1 := set_seq_hist s (uint16_add (s_seq s) 1) (hset (s_hist s) (s_seq s mod rtp_RTP_HISTORY_SIZE) packet)).
  destruct (IH s1 ts a n (S i) (conj (uint16_add_range (s_seq s) 1) O3)) as (E & O & R). rewrite E.
  destruct (send_payloads s1 ts a n (S i) pl) as [s2 out]. cbn [fst snd map]. auto.
Qed.

Lemma lookup_sh s x : sok s -> in16 x -> lookup (shs s) (sh x) = option_map shp (lookup s x).
Proof.
  intros [_ Hh] Hx. unfold lookup. cbn [shs s_hist]. destruct (sh_slot x Hx) as [E1 E2]. rewrite E1, hget_sh by assumption.
  destruct (hget (s_hist s) (x mod rtp_RTP_HISTORY_SIZE)) as [packet|] eqn:Eg; cbn [option_map]; [|reflexivity].
  change (Rtp.sequence_number (shp packet)) with (sh (Rtp.sequence_number packet)).
  rewrite sh16_eqb by (try assumption; eapply hget_ok; eauto).
  destruct (Rtp.sequence_number packet =? x); reflexivity.
Qed.

Lemma lookup_ok s x p : sok s -> lookup s x = Some p -> in16 (Rtp.sequence_number p).
Proof.
  intros [_ Hh]. unfold lookup. destruct (hget (s_hist s) (x mod rtp_RTP_HISTORY_SIZE)) as [packet|] eqn:Eg; [|discriminate].
  destruct (Rtp.sequence_number packet =? x); [|discriminate]. intros H. injection H as <-. eapply hget_ok; eauto.
Qed.

Lemma wrap_rtx_sh p pt q ss : in16 (Rtp.sequence_number p) ->
  Rtp.wrap_rtx (shp p) pt q ss = rmap shrtx (Rtp.wrap_rtx p pt q ss).
Proof.
  intros Hp. unfold Rtp.wrap_rtx. change (Rtp.sequence_number (shp p)) with (sh (Rtp.sequence_number p)).
  rewrite (RtpBitsP.u16ok_intro _ Hp), (RtpBitsP.u16ok_intro _ (sh16_in16 d _)). cbn [rmap]. f_equal. unfold shrtx. cbn [Rtp.marker Rtp.payload_type Rtp.sequence_number Rtp.timestamp Rtp.ssrc Rtp.csrc Rtp.extensions Rtp.payload Rtp.padding_size shp].
  unfold be16 at 2. cbn [app].
  assert (Eq : (Rtp.sequence_number p / 256) mod 256 * 256 + Rtp.sequence_number p mod 256 = Rtp.sequence_number p)
    by (unfold in16 in Hp; lia).
  rewrite Eq. reflexivity.
Qed.

Definition shret (rtx : bool) (r : sender * list Rtp.rtp) : sender * list Rtp.rtp := (shs (fst r), map (shres rtx) (snd r)).

Lemma retransmit_sh s x : sok s -> in16 x ->
  retransmit (shs s) (sh x) = rmap (shret (is_rtx s)) (retransmit s x).
Proof.
  intros Hs Hx. unfold retransmit. rewrite lookup_sh by assumption.
  destruct (lookup s x) as [packet|] eqn:El; cbn [option_map]; [|reflexivity].
  pose proof (lookup_ok s x packet Hs El) as Hp. unfold is_rtx. cbn [shs s_rtx_pt s_rtx_seq s_rtx_ssrc].
  destruct (s_rtx_pt s) as [pt|]; [|reflexivity].
  rewrite wrap_rtx_sh by exact Hp. destruct (Rtp.wrap_rtx packet pt (s_rtx_seq s) (s_rtx_ssrc s)); reflexivity.
Qed.

(* a NACK only moves the RTX counter (RtpSendP.retransmit_state), which neither `sok` nor `is_rtx`
   nor the shift looks at *)
Lemma handle_nack_sh : forall lost s, sok s -> Forall in16 lost ->
  handle_nack (shs s) (map sh lost) = rmap (shret (is_rtx s)) (handle_nack s lost).
Proof.
  induction lost as [|x lost IH]; intros s Hs Hl; [reflexivity|].
  inversion Hl as [|? ? Hx Hl']; subst. cbn [map handle_nack]. rewrite (retransmit_sh s x Hs Hx).
  destruct (retransmit s x) as [[s1 l1]| | |] eqn:E1; cbn [rmap bind]; try reflexivity.
  destruct (RtpSendP.retransmit_state _ _ _ _ E1) as [rs ->]. cbn [shret fst snd].
  rewrite (IH (set_rtx_seq s rs) Hs Hl').
  destruct (handle_nack (set_rtx_seq s rs) lost) as [r2| | |]; cbn [rmap bind]; try reflexivity.
  unfold shret. cbn [fst snd]. rewrite map_app. reflexivity.
Qed.

Definition shstep (rtx : bool) (r : sender * out) : sender * out := (shs (fst r), shout rtx (snd r)).

Lemma step_sh s o : sok s -> opok o ->
  step (shs s) (shop o) = rmap (shstep (is_rtx s)) (step s o) /\
  (forall r, step s o = Ok r -> sok (fst r) /\ s_rtx_pt (fst r) = s_rtx_pt s).
Proof.
  intros Hs Ho. destruct o as [f|lost]; cbn [step shop opok] in *.
  - unfold send_frame. cbn [shs s_ts_origin].
    destruct (send_payloads_sh (ef_payloads f) s (uint32_add (s_ts_origin s) (ef_ts f)) (ef_audio f) (length (ef_payloads f)) 0%nat Hs) as (E & O & R).
    fold (shs s). rewrite E. rewrite (surjective_pairing (send_payloads s _ _ _ _ _)). cbn [rmap]. split; [reflexivity|].
    intros r H. injection H as <-. cbn [fst]. split; assumption.
  - rewrite (handle_nack_sh lost s Hs Ho).
    destruct (handle_nack s lost) as [[s1 l]| | |] eqn:E; cbn [rmap bind]; try (split; [reflexivity|discriminate]).
    split; [reflexivity|]. intros r0 H. injection H as <-. cbn [fst].
    destruct (RtpSendP.handle_nack_state _ _ _ _ E) as [rs ->]. split; [exact Hs|reflexivity].
Qed.

Definition shrun (rtx : bool) (r : sender * list out) : sender * list out := (shs (fst r), map (shout rtx) (snd r)).

Theorem history_shift_invariant : forall ops s, sok s -> Forall opok ops ->
  run (shs s) (map shop ops) = rmap (shrun (is_rtx s)) (run s ops).
Proof.
  induction ops as [|o ops IH]; intros s Hs Ho; [reflexivity|]. inversion Ho as [|? ? H1 H2]; subst.
  cbn [map run]. destruct (step_sh s o Hs H1) as [E O]. rewrite E.
  destruct (step s o) as [r| | |]; cbn [rmap bind]; try reflexivity.
  destruct (O r eq_refl) as [Hs1 R1]. cbn [shstep fst snd]. rewrite (IH (fst r) Hs1 H2).
  assert (Ex : is_rtx (fst r) = is_rtx s) by (unfold is_rtx; now rewrite R1). rewrite Ex.
  destruct (run (fst r) ops) as [r'| | |]; reflexivity.
Qed.
End HistShift.

Theorem history_origin_independent d s ops : in16 (s_seq s) -> s_hist s = [] -> Forall opok ops ->
  run (shs d s) (map (shop d) ops) = rmap (shrun d (is_rtx s)) (run s ops).
Proof. intros Hs Hh Ho. apply history_shift_invariant; [split; [exact Hs|rewrite Hh; constructor]|exact Ho]. Qed.
