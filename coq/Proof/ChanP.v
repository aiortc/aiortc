(* C13: readyState only moves forward, at most one open / close event per channel,
   for every input list (any interleaving of application calls, deferred tasks and
   received messages).

   Also what every proof about Model.Chan.step shares: how the primitives touch the
   state, names and equations for the sub-steps the model writes inline (flush_one,
   new_chan, accept_open, purge; recv_dcep_cases), and the walk through `step` made once
   for an arbitrary reflexive and transitive relation on states (Section Walk). *)
From Coq Require Import ZArith List Bool Lia Arith.
From AV Require Import Lib.Bytes Gen.Utils Gen.SctpConst Model.Chan.
Import ListNotations.
Local Open Scope Z_scope.

Lemma upd_length {A} (l : list A) n x : length (upd l n x) = length l.
Proof. revert n. induction l as [|y l IH]; intros [|n]; cbn [upd length]; auto. Qed.

Lemma nth_upd {A} (l : list A) n m x d : nth m (upd l n x) d = if (Nat.eqb n m && Nat.ltb n (length l))%bool then x else nth m l d.
Proof.
  revert n m. induction l as [|y l IH]; intros n m.
  - destruct n; cbn [upd nth length]; now rewrite andb_false_r.
  - destruct n as [|n], m as [|m]; cbn [upd nth length Nat.eqb andb]; try reflexivity.
    rewrite IH. change (Nat.ltb (S n) (S (length l))) with (Nat.ltb n (length l)). reflexivity.
Qed.

Lemma upd_nth {A} (l : list A) n d : upd l n (nth n l d) = l.
Proof. revert n. induction l as [|y l IH]; intros [|n]; cbn [upd nth]; [reflexivity..|now rewrite IH]. Qed.

Lemma pair_eta {A B} (p : A * B) : p = (fst p, snd p).
Proof. now destruct p. Qed.

Lemma rstate_eqb_eq a b : rstate_eqb a b = true <-> a = b.
Proof. unfold rstate_eqb. rewrite Z.eqb_eq. destruct a, b; cbn; split; intros H; try reflexivity; try discriminate; try lia. Qed.

Definition rk (s : st) (h : nat) : Z :=
  if Nat.ltb h (length (chans s)) then rank (ch_state (getc s h)) else 0.

Definition is_open (h : nat) (e : event) : bool := match e with EvOpen h' => Nat.eqb h h' | _ => false end.
Definition is_close (h : nat) (e : event) : bool := match e with EvClose h' => Nat.eqb h h' | _ => false end.
Definition opens (h : nat) (evs : list event) : nat := length (filter (is_open h) evs).
Definition closes (h : nat) (evs : list event) : nat := length (filter (is_close h) evs).

Lemma opens_app h a b : opens h (a ++ b) = (opens h a + opens h b)%nat.
Proof. unfold opens. now rewrite filter_app, app_length. Qed.
Lemma closes_app h a b : closes h (a ++ b) = (closes h a + closes h b)%nat.
Proof. unfold closes. now rewrite filter_app, app_length. Qed.

Definition wf (s : st) : Prop :=
  Forall (fun kv => (snd kv < length (chans s))%nat) (table s) /\
  Forall (fun it => (fst (fst it) < length (chans s))%nat) (queue s).

Definition okstep (s : st) (evs : list event) (s' : st) : Prop :=
  (length (chans s) <= length (chans s'))%nat /\
  forall h, rk s h <= rk s' h /\
            (opens h evs <= 1)%nat /\ ((1 <= opens h evs)%nat -> rk s h = 0 /\ 1 <= rk s' h) /\
            (closes h evs <= 1)%nat /\ ((1 <= closes h evs)%nat -> rk s h < 3 /\ rk s' h = 3).

Definition good (s : st) (evs : list event) (s' : st) : Prop := wf s -> wf s' /\ okstep s evs s'.

Lemma rk_range s h : 0 <= rk s h <= 3.
Proof. unfold rk. destruct (Nat.ltb _ _); [destruct (ch_state _); cbn; lia|lia]. Qed.

Lemma okstep_refl s : okstep s [] s.
Proof. split; [lia|]. intros h. cbn. lia. Qed.

Lemma good_refl s : good s [] s.
Proof. intros H. split; [exact H|apply okstep_refl]. Qed.

Lemma okstep_trans s e1 s1 e2 s2 : okstep s e1 s1 -> okstep s1 e2 s2 -> okstep s (e1 ++ e2) s2.
Proof.
  intros [L1 H1] [L2 H2]. split; [lia|]. intros h.
  destruct (H1 h) as (A1 & B1 & C1 & D1 & E1). destruct (H2 h) as (A2 & B2 & C2 & D2 & E2).
  rewrite opens_app, closes_app.
  pose proof (rk_range s h). pose proof (rk_range s1 h). pose proof (rk_range s2 h).
  lia.
Qed.

Lemma good_trans s e1 s1 e2 s2 : good s e1 s1 -> good s1 e2 s2 -> good s (e1 ++ e2) s2.
Proof.
  intros G1 G2 W. destruct (G1 W) as [W1 O1]. destruct (G2 W1) as [W2 O2].
  split; [exact W2|eapply okstep_trans; eauto].
Qed.

(* events that are neither open, close nor the KeyError of a failed unregistration:
   what a step may emit without any proof about channel states having to look at it *)
Definition inert (e : event) : bool :=
  match e with EvOpen _ | EvClose _ | EvRaise 3 => false | _ => true end.

Lemma inert_silent h evs : forallb inert evs = true -> opens h evs = 0%nat /\ closes h evs = 0%nat.
Proof.
  induction evs as [|e evs IH]; [now split|]. cbn [forallb]. intros H. apply andb_true_iff in H as [He H].
  destruct (IH H) as [A B]. unfold opens, closes in *. destruct e; try discriminate; cbn [filter is_open is_close]; auto.
Qed.

Definition no_raise (k : Z) (evs : list event) : Prop := ~ In (EvRaise k) evs.
Lemma no_raise_nil k : no_raise k []. Proof. intros []. Qed.
Lemma no_raise_app k a b : no_raise k a -> no_raise k b -> no_raise k (a ++ b).
Proof. unfold no_raise. intros A B H. apply in_app_or in H as [H|H]; auto. Qed.
Lemma inert_no_raise evs : forallb inert evs = true -> no_raise 3 evs.
Proof. intros H Hin. rewrite forallb_forall in H. now apply H in Hin. Qed.

Lemma good_frame s evs s' :
  (wf s -> wf s') -> (length (chans s) <= length (chans s'))%nat -> (forall h, rk s h = rk s' h) ->
  (forall h, opens h evs = 0%nat /\ closes h evs = 0%nat) -> good s evs s'.
Proof.
  intros HW L R S W. split; [auto|]. split; [exact L|]. intros h.
  destruct (S h) as [-> ->]. rewrite (R h). lia.
Qed.

Lemma good_pre s s1 e s2 : good s [] s1 -> good s1 e s2 -> good s e s2.
Proof. exact (good_trans s [] s1 e s2). Qed.
Lemma good_post s e s1 s2 : good s e s1 -> good s1 [] s2 -> good s e s2.
Proof. intros G1 G2. rewrite <- (app_nil_r e). now apply (good_trans s e s1). Qed.

Lemma good_same s evs s' : chans s' = chans s -> table s' = table s -> queue s' = queue s -> dc_id s' = dc_id s ->
  forallb inert evs = true -> good s evs s'.
Proof.
  intros Ec Et Eq _ Hp. apply good_frame; [|now rewrite Ec| |intros h; now apply inert_silent].
  - intros [A B]. split; [rewrite Et, Ec|rewrite Eq, Ec]; assumption.
  - intros h. unfold rk, getc. now rewrite Ec.
Qed.

Lemma good_inert s evs s' : good s [] s' -> forallb inert evs = true -> good s evs s'.
Proof. intros G Hp. apply (good_pre s s'); [exact G|now apply good_same]. Qed.

Lemma tset_handles t k v n : Forall (fun kv : Z * nat => (snd kv < n)%nat) t -> (v < n)%nat ->
  Forall (fun kv : Z * nat => (snd kv < n)%nat) (tset t k v).
Proof.
  intros H Hv. unfold tset. destruct (tget t k).
  - rewrite Forall_map. eapply Forall_impl; [|exact H]. intros [a b] Hb. cbn [fst snd] in *.
    destruct (k =? a); cbn [snd]; lia.
  - apply Forall_app. split; [exact H|]. constructor; [exact Hv|constructor].
Qed.

Lemma tdel_handles t k n : Forall (fun kv : Z * nat => (snd kv < n)%nat) t ->
  Forall (fun kv : Z * nat => (snd kv < n)%nat) (tdel t k).
Proof.
  induction t as [|[a b] t IH]; cbn [tdel]; intros H; [constructor|].
  inversion H; subst. destruct (k =? a); [now apply IH|constructor; [assumption|now apply IH]].
Qed.

Lemma tget_handles t k v n : Forall (fun kv : Z * nat => (snd kv < n)%nat) t -> tget t k = Some v -> (v < n)%nat.
Proof.
  induction t as [|[a b] t IH]; cbn [tget]; intros H E; [discriminate|].
  inversion H; subst. destruct (k =? a); [injection E as <-; assumption|now apply IH].
Qed.

Lemma tget_tset_fresh t k v k' : tget t k = None -> tget (tset t k v) k' = if Z.eqb k' k then Some v else tget t k'.
Proof.
  intros Hf. unfold tset. rewrite Hf. induction t as [|[a b] t IH]; cbn [app tget].
  - destruct (k' =? k); reflexivity.
  - cbn [tget] in Hf. destruct (Z.eqb_spec k a) as [->|Hne]; [discriminate|].
    destruct (Z.eqb_spec k' a) as [->|Hne'].
    + destruct (Z.eqb_spec a k); [congruence|reflexivity].
    + now apply IH.
Qed.

Lemma tget_tset_keeps t k v k' v' : tget t k = None -> tget t k' = Some v' -> tget (tset t k v) k' = Some v'.
Proof. intros Hf H. rewrite tget_tset_fresh by exact Hf. destruct (Z.eqb_spec k' k) as [->|_]; [congruence|exact H]. Qed.

Lemma tget_tdel t k k' : tget (tdel t k) k' = if Z.eqb k' k then None else tget t k'.
Proof.
  induction t as [|[a b] t IH]; cbn [tdel tget]; [now destruct (k' =? k)|].
  destruct (Z.eqb_spec k a) as [->|Hne].
  - rewrite IH. destruct (Z.eqb_spec k' a); reflexivity.
  - cbn [tget]. destruct (Z.eqb_spec k' a) as [->|Hne'].
    + destruct (Z.eqb_spec a k); [congruence|reflexivity].
    + exact IH.
Qed.

Lemma getc_setc s h c h' : getc (setc s h c) h' =
  if (Nat.eqb h h' && Nat.ltb h (length (chans s)))%bool then c else getc s h'.
Proof. unfold getc, setc. cbn [chans]. apply nth_upd. Qed.

Lemma getc_setc_same s h c : (h < length (chans s))%nat -> getc (setc s h c) h = c.
Proof. intros Hh. apply Nat.ltb_lt in Hh. now rewrite getc_setc, Nat.eqb_refl, Hh. Qed.

Lemma getc_setc_other s h c h' : h' <> h -> getc (setc s h c) h' = getc s h'.
Proof. intros Hne. rewrite getc_setc. destruct (Nat.eqb_spec h h'); [congruence|reflexivity]. Qed.

Lemma setc_length s h c : length (chans (setc s h c)) = length (chans s).
Proof. unfold setc. cbn [chans]. apply upd_length. Qed.

Lemma setc_getc s h : setc s h (getc s h) = s.
Proof. unfold setc, getc. rewrite upd_nth. now destruct s. Qed.

Lemma getc_out_of_range s h : (length (chans s) <= h)%nat -> getc s h = dummy.
Proof. intros H. unfold getc. now apply nth_overflow. Qed.

Lemma live_in_range s h : ch_state (getc s h) <> Closed -> (h < length (chans s))%nat.
Proof.
  intros E. destruct (Nat.lt_ge_cases h (length (chans s))) as [H|H]; [exact H|].
  now rewrite getc_out_of_range in E by exact H.
Qed.

Lemma rk_setc s h c h' : (h < length (chans s))%nat ->
  rk (setc s h c) h' = if Nat.eqb h h' then rank (ch_state c) else rk s h'.
Proof.
  intros Hh. unfold rk. rewrite setc_length. destruct (Nat.eqb_spec h h') as [<-|Hne].
  - rewrite getc_setc_same by exact Hh. apply Nat.ltb_lt in Hh. now rewrite Hh.
  - now rewrite getc_setc_other by congruence.
Qed.

Lemma state_setc s h c : ch_state c = ch_state (getc s h) -> forall x, ch_state (getc (setc s h c) x) = ch_state (getc s x).
Proof. intros E x. rewrite getc_setc. destruct (Nat.eqb_spec h x) as [<-|]; [|reflexivity]. now destruct (Nat.ltb _ _). Qed.

Lemma rk_setc_same_state s h c : ch_state c = ch_state (getc s h) -> forall h', rk (setc s h c) h' = rk s h'.
Proof. intros E h'. unfold rk. now rewrite setc_length, state_setc. Qed.

Lemma wf_setc s h c : wf s -> wf (setc s h c).
Proof. intros [A B]. split; cbn [table queue setc]; [eapply Forall_impl; [|exact A]|eapply Forall_impl; [|exact B]];
  intros x Hx; rewrite setc_length; exact Hx. Qed.

Lemma good_setc s h c : ch_state c = ch_state (getc s h) -> good s [] (setc s h c).
Proof. intros E. apply good_frame; [apply wf_setc|now rewrite setc_length| |easy]. intros h'. now rewrite rk_setc_same_state. Qed.

Lemma rk_set_table s t h : rk (set_table s t) h = rk s h. Proof. reflexivity. Qed.
Lemma rk_set_queue s q h : rk (set_queue s q) h = rk s h. Proof. reflexivity. Qed.

Lemma good_eq s evs s' p : p = (s', evs) -> good s (snd p) (fst p) -> good s evs s'.
Proof. intros ->. auto. Qed.

Lemma wf_mk s e d t q rq rr rs rp :
  Forall (fun kv : Z * nat => (snd kv < length (chans s))%nat) t ->
  Forall (fun it : nat * Z * bytes => (fst (fst it) < length (chans s))%nat) q ->
  wf (mkSt e d (chans s) t q rq rr rs rp).
Proof. intros A B. split; assumption. Qed.

Lemma set_ready_fst s h r : fst (set_ready s h r) = setc s h (with_state (getc s h) r).
Proof.
  unfold set_ready. destruct (rstate_eqb _ r) eqn:E; [|reflexivity]. apply rstate_eqb_eq in E. cbn [fst].
  rewrite <- E. replace (with_state (getc s h) (ch_state (getc s h))) with (getc s h) by now destruct (getc s h).
  symmetry. apply setc_getc.
Qed.

Lemma set_ready_length s h r : length (chans (fst (set_ready s h r))) = length (chans s).
Proof. rewrite set_ready_fst. apply setc_length. Qed.
Lemma set_ready_table s h r : table (fst (set_ready s h r)) = table s.
Proof. now rewrite set_ready_fst. Qed.
Lemma set_ready_queue s h r : queue (fst (set_ready s h r)) = queue s.
Proof. now rewrite set_ready_fst. Qed.

Lemma set_ready_other s h r h' : h <> h' -> getc (fst (set_ready s h r)) h' = getc s h'.
Proof. intros Hne. rewrite set_ready_fst. apply getc_setc_other. congruence. Qed.

Lemma set_ready_same s h r : (h < length (chans s))%nat -> getc (fst (set_ready s h r)) h = with_state (getc s h) r.
Proof. intros Hh. now rewrite set_ready_fst, getc_setc_same. Qed.

Lemma closed_after_set_ready s h : (h < length (chans s))%nat -> ch_state (getc (fst (set_ready s h Closed)) h) = Closed.
Proof. intros Hh. now rewrite set_ready_same. Qed.

Lemma set_ready_absent s h : (length (chans s) <= h)%nat -> set_ready s h Closed = (s, []).
Proof. intros Hh. unfold set_ready. now rewrite getc_out_of_range. Qed.

Lemma set_ready_no_raise s h r k : no_raise k (snd (set_ready s h r)).
Proof. unfold no_raise, set_ready. destruct (rstate_eqb _ _); [intros []|]. destruct r; cbn; intuition discriminate. Qed.

Lemma set_ready_set_table s t h r :
  set_ready (set_table s t) h r = (set_table (fst (set_ready s h r)) t, snd (set_ready s h r)).
Proof. unfold set_ready. change (getc (set_table s t) h) with (getc s h). now destruct (rstate_eqb _ _). Qed.
Lemma set_ready_set_queue s q h r :
  set_ready (set_queue s q) h r = (set_queue (fst (set_ready s h r)) q, snd (set_ready s h r)).
Proof. unfold set_ready. change (getc (set_queue s q) h) with (getc s h). now destruct (rstate_eqb _ _). Qed.

Lemma rank_closed r : rank r <= rank Closed.
Proof. now destruct r. Qed.

Lemma set_ready_good s h r : rank (ch_state (getc s h)) <= rank r -> good s (snd (set_ready s h r)) (fst (set_ready s h r)).
Proof.
  intros Hr W. unfold set_ready, rstate_eqb.
  destruct (Z.eqb_spec (rank (ch_state (getc s h))) (rank r)) as [E|Hne]; cbn [fst snd].
  - split; [exact W|apply okstep_refl].
  - assert (Hh : (h < length (chans s))%nat).
    { apply live_in_range. intros Ec. rewrite Ec in Hr, Hne. pose proof (rank_closed r). lia. }
    split; [now apply wf_setc|].
    split; [rewrite setc_length; lia|]. intros h'. rewrite rk_setc by exact Hh. cbn [with_state ch_state].
    pose proof (rk_range s h') as R. destruct (Nat.eqb_spec h h') as [<-|Hn].
    + replace (rk s h) with (rank (ch_state (getc s h))) in * by (unfold rk; apply Nat.ltb_lt in Hh; now rewrite Hh).
      destruct r; unfold opens, closes; cbn [filter is_open is_close rank] in *; rewrite ?Nat.eqb_refl; cbn [length]; lia.
    + assert (Eh' : Nat.eqb h' h = false) by (apply Nat.eqb_neq; congruence).
      replace (opens h' _) with 0%nat by (destruct r; unfold opens; cbn [filter is_open]; now rewrite ?Eh').
      replace (closes h' _) with 0%nat by (destruct r; unfold closes; cbn [filter is_close]; now rewrite ?Eh').
      lia.
Qed.

Lemma set_ready_closed_good s h : good s (snd (set_ready s h Closed)) (fst (set_ready s h Closed)).
Proof. apply set_ready_good, rank_closed. Qed.

Lemma getc_add_buffered s h a h' :
  getc (fst (add_buffered s h a)) h' =
  if (Nat.eqb h h' && Nat.ltb h (length (chans s)))%bool then with_buf (getc s h) (ch_buf (getc s h) + a) else getc s h'.
Proof. unfold add_buffered. cbn [fst]. apply getc_setc. Qed.

Lemma add_buffered_length s h a : length (chans (fst (add_buffered s h a))) = length (chans s).
Proof. unfold add_buffered. cbn [fst]. apply setc_length. Qed.

Lemma add_buffered_chan s h a h' : (h < length (chans s))%nat ->
  ch_id (getc (fst (add_buffered s h a)) h') = ch_id (getc s h') /\
  ch_state (getc (fst (add_buffered s h a)) h') = ch_state (getc s h') /\
  ch_buf (getc (fst (add_buffered s h a)) h') = ch_buf (getc s h') + (if Nat.eqb h h' then a else 0).
Proof.
  intros Hh. unfold add_buffered. cbn [fst]. destruct (Nat.eqb_spec h h') as [<-|Hne].
  - rewrite getc_setc_same by exact Hh. now cbn.
  - rewrite getc_setc_other by congruence. auto with zarith.
Qed.

Lemma add_buffered_good s h a : good s (snd (add_buffered s h a)) (fst (add_buffered s h a)).
Proof. unfold add_buffered. cbn [fst snd]. apply good_inert; [now apply good_setc|now destruct (_ && _)]. Qed.

Lemma getc_add_chan s c h' : getc (fst (add_chan s c)) h' =
  if Nat.eqb h' (length (chans s)) then c else getc s h'.
Proof.
  unfold add_chan, getc. cbn [fst chans]. destruct (Nat.eqb_spec h' (length (chans s))) as [->|Hne].
  - rewrite app_nth2 by lia. now rewrite Nat.sub_diag.
  - destruct (Nat.lt_ge_cases h' (length (chans s))); [now rewrite app_nth1|].
    rewrite !nth_overflow; [reflexivity|lia|rewrite app_length; cbn; lia].
Qed.

Lemma getc_add_chan_new s c : getc (fst (add_chan s c)) (length (chans s)) = c.
Proof. now rewrite getc_add_chan, Nat.eqb_refl. Qed.

(* dropping what is still queued for h (chan_closed, close_local) *)
Definition purge (s : st) (h : nat) : st :=
  set_queue s (filter (fun it => negb (Nat.eqb (fst (fst it)) h)) (queue s)).

(* one turn of flush_loop once the message (h, pp, data) has been taken off the queue (flush_one): a channel
   without a stream id gets the next free one of the role's parity (assign_id), then the message is sent (send_one) *)
Definition assign_id (s : st) (h : nat) : st * Z :=
  match ch_id (getc s h) with
  | Some i => (s, i)
  | None => let i := pick_id (S (length (table s))) (table s) (dc_id s) in
            (setc (set_table s (tset (table s) i h)) h (with_id (getc s h) (Some i)), i)
  end.

Lemma assign_id_length s h : length (chans (fst (assign_id s h))) = length (chans s).
Proof. unfold assign_id. destruct (ch_id (getc s h)); cbn [fst]; [reflexivity|now rewrite setc_length]. Qed.
Lemma assign_id_queue s h : queue (fst (assign_id s h)) = queue s.
Proof. unfold assign_id. now destruct (ch_id (getc s h)). Qed.
Lemma assign_id_has s h : (h < length (chans s))%nat -> ch_id (getc (fst (assign_id s h)) h) <> None.
Proof.
  intros Hh. unfold assign_id. destruct (ch_id (getc s h)) eqn:E; cbn [fst]; [now rewrite E|].
  now rewrite getc_setc_same by exact Hh.
Qed.

Definition send_one (s : st) (sidv : Z) (h : nat) (pp : Z) (data : bytes) : st * list event :=
  if Z.eqb pp WEBRTC_DCEP then (s, [EvSend sidv pp data true None None])
  else let '(s', e) := add_buffered s h (- len data) in
       (s', EvSend sidv pp data (ch_ordered (getc s h)) (ch_maxrt (getc s h))
                   (match ch_maxlt (getc s h) with Some 0 => None | x => x end) :: e).

Definition flush_one (s : st) (h : nat) (pp : Z) (data : bytes) : st * list event :=
  let '(s2, sidv) := assign_id s h in send_one s2 sidv h pp data.

Lemma flush_loop_S f s oracle : flush_loop (S f) s oracle =
  match queue s with
  | [] => (s, [])
  | (h, pp, data) :: q' =>
      let '(s3, evs) := flush_one (set_queue s q') h pp data in
      if match oracle with b :: _ => b | [] => false end then (s3, evs)
      else let '(s4, evs2) := flush_loop f s3 (tl oracle) in (s4, evs ++ evs2)
  end.
Proof.
  cbn [flush_loop]. destruct (queue s) as [|[[h pp] data] q']; [reflexivity|].
  unfold flush_one, assign_id, send_one. now destruct (ch_id (getc (set_queue s q') h)).
Qed.

Lemma flush_one_set_queue s q h pp data :
  flush_one (set_queue s q) h pp data = (set_queue (fst (flush_one s h pp data)) q, snd (flush_one s h pp data)).
Proof.
  unfold flush_one, assign_id, send_one. change (getc (set_queue s q) h) with (getc s h).
  destruct (ch_id (getc s h)); destruct (pp =? WEBRTC_DCEP); reflexivity.
Qed.

(* _data_channel_receive on a well-formed OPEN for a free stream, up to the flush *)
Definition accept_open (s : st) (sidv : Z) (c : chan) : st * list event :=
  let h := length (chans s) in
  let r := set_ready (fst (add_chan s c)) h Open in
  (set_queue (set_table (fst r) (tset (table (fst r)) sidv h)) (queue (fst r) ++ [(h, WEBRTC_DCEP, be8 DATA_CHANNEL_ACK)]),
   snd r).

(* what create and accept_open have in common *)
Definition new_chan (s : st) (c : chan) (q : list (nat * Z * bytes)) : st :=
  set_queue (set_table (fst (add_chan s c))
                       (match ch_id c with Some i => tset (table s) i (length (chans s)) | None => table s end)) q.

Lemma new_chan_length s c q : length (chans (new_chan s c q)) = S (length (chans s)).
Proof. cbn [new_chan add_chan chans set_queue set_table fst]. rewrite app_length. cbn. lia. Qed.

Lemma getc_new_chan s c q h : getc (new_chan s c q) h = if Nat.eqb h (length (chans s)) then c else getc s h.
Proof. exact (getc_add_chan s c h). Qed.

Lemma create_eq s neg id ordered maxrt maxlt label proto :
  create s neg id ordered maxrt maxlt label proto =
  let c := mkChan id Connecting 0 0 neg ordered maxrt maxlt label proto in
  if match id with Some i => match tget (table s) i with Some _ => true | None => false end | None => false end
  then (s, [EvRaise 1])
  else if neg then
         if established s then set_ready (new_chan s c (queue s)) (length (chans s)) Open else (new_chan s c (queue s), [])
       else (new_chan s c (queue s ++ [(length (chans s), WEBRTC_DCEP, dcep_open c)]), [EvSchedFlush]).
Proof. unfold create, new_chan. cbv zeta. now destruct id. Qed.

(* registering and queueing first, opening last: the order in which every invariant holds in between *)
Lemma accept_open_eq s sidv c : ch_id c = Some sidv ->
  accept_open s sidv c =
  set_ready (new_chan s c (queue s ++ [(length (chans s), WEBRTC_DCEP, be8 DATA_CHANNEL_ACK)])) (length (chans s)) Open.
Proof.
  intros E. unfold new_chan. rewrite E, set_ready_set_queue, set_ready_set_table. unfold accept_open. cbv zeta.
  now rewrite set_ready_table, set_ready_queue.
Qed.

(* _data_channel_receive: the message is ignored, or fails to parse, or is a well-formed OPEN for a free
   stream (accept_open, then the flush and the `datachannel` event), or is an ACK for a connecting channel.
   The pairs are taken apart by `let '(_, _)`, not by fst / snd: asked whether `fst (x, y)` and
   `fst (flush ..)` agree, the kernel unfolds flush and all below it before it reduces the left side. *)
Lemma recv_dcep_cases (Q : st * list event -> Prop) s sidv data ok oracle :
  Q (s, []) ->
  (12 <= len data -> dcep_parse_open data = None -> Q (s, [EvRaise 4])) ->
  (forall p, tget (table s) sidv = None ->
     Q (let '(s4, e1) := accept_open s sidv (mkChan (Some sidv) Connecting 0 0 false (op_ordered p) (op_maxrt p) (op_maxlt p)
                                                   (op_label p) (op_proto p)) in
        let '(s5, e2) := flush s4 oracle in (s5, e1 ++ e2 ++ [EvDataChannel (length (chans s))]))) ->
  (forall h, ch_state (getc s h) = Connecting -> Q (set_ready s h Open)) ->
  Q (recv_dcep s sidv data ok oracle).
Proof.
  intros Q0 Q4 Qo Qa. unfold recv_dcep. destruct data as [|m rest]; [exact Q0|]. destruct (_ && _) eqn:E.
  - apply andb_true_iff in E as [_ E]. apply Z.leb_le in E. destruct (tget (table s) sidv); [exact Q0|].
    destruct (dcep_parse_open (m :: rest)) as [p|]; [|now apply Q4]. destruct (negb ok); [exact Q0|].
    specialize (Qo p eq_refl). revert Qo. unfold accept_open, add_chan. cbv beta iota zeta. now destruct (set_ready _ _ Open).
  - destruct (m =? DATA_CHANNEL_ACK); [|exact Q0]. destruct (tget (table s) sidv) as [h|]; [|exact Q0].
    destruct (rstate_eqb (ch_state (getc s h)) Connecting) eqn:Ec; [|exact Q0]. apply Qa. now apply rstate_eqb_eq.
Qed.

(* chan_closed and close_local, with the state change first *)
Lemma chan_closed_eq s i h : tget (table s) i = Some h ->
  chan_closed s i = (set_table (purge (fst (set_ready s h Closed)) h) (tdel (table s) i), snd (set_ready s h Closed)).
Proof.
  intros E. unfold chan_closed. rewrite E. cbv zeta. rewrite set_ready_set_queue, set_ready_set_table. cbn [fst snd].
  unfold purge. now rewrite set_ready_queue.
Qed.

Lemma close_local_eq s h id :
  close_local s h id =
  match id with
  | Some i => match tget (table s) i with
              | None => (purge s h, [EvRaise 3])
              | Some _ => (set_table (purge (fst (set_ready s h Closed)) h) (tdel (table s) i), snd (set_ready s h Closed))
              end
  | None => (purge (fst (set_ready s h Closed)) h, snd (set_ready s h Closed))
  end.
Proof.
  unfold close_local. cbv zeta. fold (purge s h). destruct id as [i|].
  - change (table (purge s h)) with (table s). destruct (tget (table s) i); [|reflexivity].
    unfold purge. rewrite set_ready_set_table, set_ready_set_queue. cbn [fst snd]. now rewrite set_ready_queue.
  - unfold purge. rewrite set_ready_set_queue. now rewrite set_ready_queue.
Qed.

(* Every operation of `step` is put together from a few leaves: a change of `established` and the
   RE-CONFIG bookkeeping only (T_same), set_ready to a state other than closed, close_local, chan_closed, flush_one,
   create, app_send, the threshold setter, accept_open, set_closed.  A relation T that is reflexive,
   transitive along the emitted events and holds of these leaves holds of every step on an input satisfying
   P (walk_step).  set_closed is a leaf as a whole: emptying the queue at its end is sound only because of
   what went before.  Its two loops have walks of their own (walk_closed_streams, and walk_close_queued,
   the one user of T_closed) for whoever proves that leaf.  Each lemma depends only on the hypotheses it uses. *)
Section Walk.
  Variable T : st -> list event -> st -> Prop.
  Variable P : input -> Prop.
  Hypothesis T_refl : forall s, T s [] s.
  Hypothesis T_trans : forall s e1 s1 e2 s2, T s e1 s1 -> T s1 e2 s2 -> T s (e1 ++ e2) s2.
  Hypothesis T_same : forall s evs s', chans s' = chans s -> table s' = table s -> queue s' = queue s ->
    dc_id s' = dc_id s -> forallb inert evs = true -> T s evs s'.
  Hypothesis T_set_ready : forall s h r, rank (ch_state (getc s h)) <= rank r -> r <> Closed ->
    T s (snd (set_ready s h r)) (fst (set_ready s h r)).
  Hypothesis T_closed : forall s h, T s (snd (set_ready s h Closed)) (fst (set_ready s h Closed)).
  Hypothesis T_close_local : forall s h, (h < length (chans s))%nat -> ch_state (getc s h) <> Closed ->
    T s (snd (close_local s h (ch_id (getc s h)))) (fst (close_local s h (ch_id (getc s h)))).
  Hypothesis T_chan_closed : forall s i, T s (snd (chan_closed s i)) (fst (chan_closed s i)).
  Hypothesis T_flush_one : forall s h pp data q', queue s = (h, pp, data) :: q' ->
    T s (snd (flush_one (set_queue s q') h pp data)) (fst (flush_one (set_queue s q') h pp data)).
  Hypothesis T_create : forall s neg id ordered maxrt maxlt label proto, P (ICreate neg id ordered maxrt maxlt label proto) ->
    T s (snd (create s neg id ordered maxrt maxlt label proto)) (fst (create s neg id ordered maxrt maxlt label proto)).
  Hypothesis T_app_send : forall s h pp data, P (ISend h pp data) -> (h < length (chans s))%nat ->
    T s (snd (app_send s h pp data)) (fst (app_send s h pp data)).
  Hypothesis T_threshold : forall s h v, T s [] (setc s h (with_thr (getc s h) v)).
  Hypothesis T_accept_open : forall s sidv c, tget (table s) sidv = None -> ch_id c = Some sidv ->
    ch_state c = Connecting -> ch_buf c = 0 -> T s (snd (accept_open s sidv c)) (fst (accept_open s sidv c)).
  Hypothesis T_set_closed : forall s, T s (snd (set_closed s)) (fst (set_closed s)).

  (* p, then f on the state p leaves, the events concatenated: the shape of every loop of the model *)
  Lemma walk_seq s (p : st * list event) (f : st -> st * list event) :
    T s (snd p) (fst p) -> T (fst p) (snd (f (fst p))) (fst (f (fst p))) ->
    T s (snd (let '(s1, e1) := p in let '(s2, e2) := f s1 in (s2, e1 ++ e2)))
        (fst (let '(s1, e1) := p in let '(s2, e2) := f s1 in (s2, e1 ++ e2))).
  Proof. destruct p as [s1 e1]. cbn [fst snd]. destruct (f s1) as [s2 e2]. apply T_trans. Qed.

  Lemma walk_pre s s1 e s2 : T s [] s1 -> T s1 e s2 -> T s e s2.
  Proof. exact (T_trans s [] s1 e s2). Qed.

  Lemma walk_open s h : ch_state (getc s h) = Connecting -> T s (snd (set_ready s h Open)) (fst (set_ready s h Open)).
  Proof. intros E. apply T_set_ready; [now rewrite E|discriminate]. Qed.

  Lemma walk_flush_loop : forall fuel s oracle, T s (snd (flush_loop fuel s oracle)) (fst (flush_loop fuel s oracle)).
  Proof.
    induction fuel as [|f IH]; intros s oracle; [apply T_refl|]. rewrite flush_loop_S.
    destruct (queue s) as [|[[h pp] data] q'] eqn:Eq; [apply T_refl|].
    rewrite (pair_eta (flush_one _ h pp data)).
    destruct (match oracle with b :: _ => b | [] => false end); [now apply T_flush_one|].
    rewrite (pair_eta (flush_loop f _ _)). cbn [fst snd]. eapply T_trans; [now apply T_flush_one|apply IH].
  Qed.

  Lemma walk_flush s oracle : T s (snd (flush s oracle)) (fst (flush s oracle)).
  Proof. unfold flush. destruct (_ && _); [apply walk_flush_loop|apply T_refl]. Qed.

  Lemma walk_close_body s h hs : rank (ch_state (getc s h)) <= 2 -> T s (snd (close_body s h hs)) (fst (close_body s h hs)).
  Proof.
    intros Hr. assert (Hh : (h < length (chans s))%nat) by (apply live_in_range; intros E; now rewrite E in Hr).
    pose proof (T_set_ready s h Closing Hr ltac:(discriminate)) as T1. pose proof (T_close_local (fst (set_ready s h Closing)) h) as T2.
    rewrite set_ready_length, set_ready_same in T2 by exact Hh. specialize (T2 Hh ltac:(discriminate)). cbn [with_state ch_id] in T2.
    revert T1 T2. unfold close_body. destruct (set_ready s h Closing) as [s1 e1]. cbn [fst snd]. intros T1 T2.
    destruct (established s1 || hs); [destruct (ch_id (getc s h))|].
    - cbn [fst snd]. eapply T_trans; [exact T1|]. apply T_same; try reflexivity. now destruct (Nat.eqb _ 1).
    - rewrite (pair_eta (close_local s1 h None)). cbn [fst snd]. eapply T_trans; [exact T1|exact T2].
    - rewrite (pair_eta (close_local s1 h _)). destruct (ch_id (getc s h)); cbn [fst snd]; (eapply T_trans; [exact T1|exact T2]).
  Qed.

  Lemma walk_chan_close s h hs : T s (snd (chan_close s h hs)) (fst (chan_close s h hs)).
  Proof.
    unfold chan_close. destruct (ch_state (getc s h)) eqn:E; try apply T_refl; apply walk_close_body; now rewrite E.
  Qed.

  Lemma walk_reset_streams : forall strs s, T s (snd (reset_streams s strs)) (fst (reset_streams s strs)).
  Proof.
    induction strs as [|i strs IH]; intros s; cbn [reset_streams]; [apply T_refl|].
    apply (walk_seq s _ (fun s1 => reset_streams s1 strs)); [|apply IH].
    destruct (tget (table s) i); [apply walk_chan_close|apply T_refl].
  Qed.

  Lemma walk_recv_reset_request s seq strs :
    T s (snd (recv_reset_request s seq strs)) (fst (recv_reset_request s seq strs)).
  Proof.
    unfold recv_reset_request. rewrite (pair_eta (reset_streams s strs)). cbn [fst snd].
    eapply T_trans; [apply walk_reset_streams|apply T_same; reflexivity].
  Qed.

  Lemma walk_closed_streams : forall strs s, T s (snd (closed_streams s strs)) (fst (closed_streams s strs)).
  Proof.
    induction strs as [|i strs IH]; intros s; cbn [closed_streams]; [apply T_refl|].
    apply (walk_seq s _ (fun s1 => closed_streams s1 strs)); [apply T_chan_closed|apply IH].
  Qed.

  Lemma walk_transmit_reconfig s : T s (snd (transmit_reconfig s)) (fst (transmit_reconfig s)).
  Proof.
    unfold transmit_reconfig. destruct (rq_request s); [apply T_refl|]. destruct (_ && _); [apply T_same; reflexivity|apply T_refl].
  Qed.

  Lemma walk_recv_reset_response s seq :
    T s (snd (recv_reset_response s seq)) (fst (recv_reset_response s seq)).
  Proof.
    unfold recv_reset_response. destruct (rq_request s) as [[rs strs]|]; [|apply T_refl].
    destruct (seq =? rs); [|apply T_refl].
    rewrite (pair_eta (closed_streams s strs)), (pair_eta (transmit_reconfig _)). cbn [fst snd].
    eapply T_trans; [apply walk_closed_streams|]. eapply walk_pre; [|apply walk_transmit_reconfig]. apply T_same; reflexivity.
  Qed.

  Lemma walk_open_negotiated : forall t s, T s (snd (open_negotiated s t)) (fst (open_negotiated s t)).
  Proof.
    induction t as [|[k h] t IH]; intros s; cbn [open_negotiated]; [apply T_refl|].
    apply (walk_seq s _ (fun s1 => open_negotiated s1 t)); [|apply IH].
    destruct (ch_neg (getc s h) && rstate_eqb (ch_state (getc s h)) Connecting) eqn:E; [|apply T_refl].
    apply andb_true_iff in E as [_ E]. now apply walk_open, rstate_eqb_eq.
  Qed.

  Lemma walk_set_established s : T s (snd (set_established s)) (fst (set_established s)).
  Proof.
    unfold set_established. rewrite (pair_eta (open_negotiated _ _)). cbn [fst snd].
    eapply walk_pre; [|eapply T_trans; [apply walk_open_negotiated|]]; [apply T_same; reflexivity|].
    apply T_same; try reflexivity. now destruct (rq_queue _).
  Qed.

  Lemma walk_close_queued : forall q s, T s (snd (close_queued s q)) (fst (close_queued s q)).
  Proof.
    induction q as [|[[h pp] d] q IH]; intros s; cbn [close_queued]; [apply T_refl|].
    apply (walk_seq s _ (fun s1 => close_queued s1 q)); [|apply IH].
    apply T_closed.
  Qed.

  Lemma walk_recv_dcep s sidv data ok oracle :
    T s (snd (recv_dcep s sidv data ok oracle)) (fst (recv_dcep s sidv data ok oracle)).
  Proof.
    apply (recv_dcep_cases (fun p => T s (snd p) (fst p))); [apply T_refl|intros _ _; apply T_same; reflexivity| |apply walk_open].
    intros p Et. match goal with |- context [accept_open s sidv ?c] => pose proof (T_accept_open s sidv c Et eq_refl eq_refl eq_refl) as Ta end.
    destruct (accept_open s sidv _) as [s4 e1]. pose proof (walk_flush s4 oracle) as Tf. destruct (flush s4 oracle) as [s5 e2].
    eapply T_trans; [exact Ta|]. eapply T_trans; [exact Tf|apply T_same; reflexivity].
  Qed.

  Lemma walk_recv_user s sidv pp data ok : T s (snd (recv_user s sidv pp data ok)) (fst (recv_user s sidv pp data ok)).
  Proof.
    unfold recv_user. destruct (tget (table s) sidv); [|apply T_refl].
    destruct (pp =? WEBRTC_STRING); [now destruct ok; apply T_same|].
    destruct (pp =? WEBRTC_STRING_EMPTY); [apply T_same; reflexivity|]. destruct (pp =? WEBRTC_BINARY); [apply T_same; reflexivity|].
    destruct (pp =? WEBRTC_BINARY_EMPTY); [apply T_same; reflexivity|apply T_refl].
  Qed.

  Theorem walk_step s i : P i -> T s (snd (step s i)) (fst (step s i)).
  Proof.
    intros Hi. destruct i; cbn [step].
    - now apply T_create.
    - destruct (Nat.ltb_spec h (length (chans s))); [now apply T_app_send|apply T_refl].
    - destruct (Nat.ltb h (length (chans s))); [apply walk_chan_close|apply T_refl].
    - destruct (Nat.ltb h (length (chans s))); [apply T_threshold|apply T_refl].
    - apply walk_flush.
    - apply walk_transmit_reconfig.
    - apply walk_set_established.
    - apply T_set_closed.
    - destruct (pp =? WEBRTC_DCEP); [apply walk_recv_dcep|apply walk_recv_user].
    - destruct (established s); [apply walk_recv_reset_request|apply T_refl].
    - destruct (established s); [apply walk_recv_reset_response|apply T_refl].
    - apply T_same; reflexivity.
  Qed.
End Walk.

Lemma wf_purge s h : wf s -> wf (purge s h).
Proof. intros [A B]. split; [exact A|]. exact (incl_Forall (incl_filter _ _) B). Qed.

Lemma close_good s h t' :
  (Forall (fun kv : Z * nat => (snd kv < length (chans s))%nat) (table s) ->
   Forall (fun kv : Z * nat => (snd kv < length (chans s))%nat) t') ->
  good s (snd (set_ready s h Closed)) (set_table (purge (fst (set_ready s h Closed)) h) t').
Proof.
  intros Ht. eapply good_post; [apply set_ready_closed_good|].
  apply good_frame; try easy. intros W. destruct (wf_purge _ h W) as [A B]. split; [|exact B].
  cbn [table chans set_table purge set_queue] in *. rewrite set_ready_length, set_ready_table in *. auto.
Qed.

Lemma chan_closed_good s i : good s (snd (chan_closed s i)) (fst (chan_closed s i)).
Proof.
  destruct (tget (table s) i) as [h|] eqn:E; [|unfold chan_closed; rewrite E; apply good_refl].
  rewrite (chan_closed_eq s i h E). intros W.
  apply close_good; [apply tdel_handles|exact W].
Qed.

Lemma close_local_good s h id : good s (snd (close_local s h id)) (fst (close_local s h id)).
Proof.
  rewrite close_local_eq. destruct id as [i|]; [destruct (tget (table s) i)|]; cbn [fst snd].
  - apply close_good, tdel_handles.
  - apply good_frame; try easy. apply wf_purge.
  - apply (close_good s h (table (fst (set_ready s h Closed)))). now rewrite set_ready_table.
Qed.

Lemma assign_id_good s h : (h < length (chans s))%nat -> good s [] (fst (assign_id s h)).
Proof.
  intros Hh. unfold assign_id. destruct (ch_id (getc s h)); cbn [fst]; [apply good_refl|].
  apply good_frame; [|now rewrite setc_length| |easy].
  - intros [A B]. apply wf_setc. split; [now apply tset_handles|exact B].
  - intros h'. now rewrite rk_setc_same_state.
Qed.

Lemma send_one_good s i h pp data : good s (snd (send_one s i h pp data)) (fst (send_one s i h pp data)).
Proof.
  unfold send_one. destruct (pp =? WEBRTC_DCEP); [now apply good_frame|].
  rewrite (pair_eta (add_buffered _ _ _)). cbn [fst snd].
  apply (good_trans s [_] s); [now apply good_frame|apply add_buffered_good].
Qed.

Lemma flush_one_good s h pp data q' : queue s = (h, pp, data) :: q' ->
  good s (snd (flush_one (set_queue s q') h pp data)) (fst (flush_one (set_queue s q') h pp data)).
Proof.
  intros Eq W. pose proof (proj2 W) as B. rewrite Eq in B. apply Forall_cons_iff in B as [Hh B]. cbn [fst] in Hh.
  revert W. unfold flush_one. rewrite (pair_eta (assign_id _ h)).
  apply (good_pre s (set_queue s q')); [apply good_frame; try easy; intros [A _]; now split|].
  eapply good_pre; [|apply send_one_good]. now apply assign_id_good.
Qed.

Lemma wf_queue_S s : wf s -> Forall (fun it : nat * Z * bytes => (fst (fst it) < S (length (chans s)))%nat) (queue s).
Proof. intros [_ B]. eapply Forall_impl; [|exact B]. intros it Hit. cbv beta in *. lia. Qed.

Lemma wf_enqueue s pp d : wf s ->
  Forall (fun it : nat * Z * bytes => (fst (fst it) < S (length (chans s)))%nat) (queue s ++ [(length (chans s), pp, d)]).
Proof. intros W. apply Forall_app. split; [now apply wf_queue_S|]. constructor; [cbn [fst]; lia|constructor]. Qed.

Lemma new_chan_good s c q : ch_state c = Connecting ->
  (wf s -> Forall (fun it : nat * Z * bytes => (fst (fst it) < S (length (chans s)))%nat) q) -> good s [] (new_chan s c q).
Proof.
  intros Hc Hq. apply good_frame; [|rewrite new_chan_length; lia| |easy].
  - intros W. assert (A' : Forall (fun kv : Z * nat => (snd kv < S (length (chans s)))%nat) (table s))
      by (eapply Forall_impl; [|exact (proj1 W)]; intros x Hx; cbv beta in *; lia).
    split; rewrite new_chan_length; cbn [table queue new_chan set_table set_queue]; [|exact (Hq W)].
    destruct (ch_id c); [apply tset_handles; [exact A'|lia]|exact A'].
  - intros h. unfold rk. rewrite new_chan_length, getc_new_chan. destruct (Nat.eqb_spec h (length (chans s))) as [->|Hne].
    + rewrite Nat.ltb_irrefl, Hc. now destruct (Nat.ltb _ _).
    + destruct (Nat.ltb_spec h (length (chans s))), (Nat.ltb_spec h (S (length (chans s)))); try reflexivity; lia.
Qed.

Lemma new_chan_opens s c q : ch_state c = Connecting -> rank (ch_state (getc (new_chan s c q) (length (chans s)))) <= rank Open.
Proof. intros Hc. now rewrite getc_new_chan, Nat.eqb_refl, Hc. Qed.

Lemma create_good s neg id ordered maxrt maxlt label proto :
  good s (snd (create s neg id ordered maxrt maxlt label proto)) (fst (create s neg id ordered maxrt maxlt label proto)).
Proof.
  rewrite create_eq. cbv zeta. set (c := mkChan _ _ _ _ _ _ _ _ _ _).
  destruct (match id with Some i => _ | None => _ end); [now apply good_frame|].
  destruct neg; [destruct (established s)|]; cbn [fst snd].
  - eapply good_pre; [|apply set_ready_good; now apply new_chan_opens]. apply new_chan_good; [reflexivity|apply wf_queue_S].
  - apply new_chan_good; [reflexivity|apply wf_queue_S].
  - apply good_inert; [|reflexivity]. apply new_chan_good; [reflexivity|apply wf_enqueue].
Qed.

Lemma app_send_good s h pp data : (h < length (chans s))%nat ->
  good s (snd (app_send s h pp data)) (fst (app_send s h pp data)).
Proof.
  intros Hh. unfold app_send. destruct (negb _); [now apply good_frame|].
  rewrite (pair_eta (add_buffered s h (len data))). cbn [fst snd].
  eapply good_trans; [apply add_buffered_good|]. apply good_frame; try easy.
  intros [A B]. split; [exact A|]. apply Forall_app. split; [exact B|].
  constructor; [|constructor]. cbn [fst chans set_queue]. now rewrite add_buffered_length.
Qed.

Lemma accept_open_good s sidv c : ch_id c = Some sidv -> ch_state c = Connecting ->
  good s (snd (accept_open s sidv c)) (fst (accept_open s sidv c)).
Proof.
  intros Hi Hc. rewrite (accept_open_eq s sidv c Hi).
  eapply good_pre; [|apply set_ready_good; now apply new_chan_opens]. apply new_chan_good; [exact Hc|apply wf_enqueue].
Qed.

Lemma set_closed_good s : good s (snd (set_closed s)) (fst (set_closed s)).
Proof.
  unfold set_closed. set (s0 := mkSt false _ _ _ _ _ _ _ _).
  pose proof (walk_closed_streams good good_refl good_trans chan_closed_good (map fst (table s0)) s0) as G1.
  destruct (closed_streams s0 _) as [s1 e1].
  pose proof (walk_close_queued good good_refl good_trans set_ready_closed_good (queue s1) s1) as G2.
  destruct (close_queued s1 _) as [s2 e2]. cbn [fst snd] in *.
  apply (good_pre s s0); [now apply good_same|]. eapply good_trans; [exact G1|]. eapply good_post; [exact G2|].
  apply good_frame; try easy. intros [A _]. split; [exact A|constructor].
Qed.

Theorem step_good s i : good s (snd (step s i)) (fst (step s i)).
Proof.
  apply (walk_step good (fun _ => True) good_refl good_trans good_same); auto.
  - intros s0 h r Hr _. now apply set_ready_good.
  - intros. apply close_local_good.
  - apply chan_closed_good.
  - apply flush_one_good.
  - intros. apply create_good.
  - intros. now apply app_send_good.
  - intros. now apply good_setc.
  - intros. now apply accept_open_good.
  - apply set_closed_good.
Qed.

Lemma run_cons s i is :
  run s (i :: is) = (fst (run (fst (step s i)) is), snd (step s i) :: snd (run (fst (step s i)) is)).
Proof.
  cbn [run]. destruct (step s i) as [s1 e]. cbn [fst snd]. destruct (run s1 is) as [s2 es]. reflexivity.
Qed.

Theorem run_good : forall is s, good s (concat (snd (run s is))) (fst (run s is)).
Proof.
  induction is as [|i is IH]; intros s; [apply good_refl|].
  rewrite run_cons. cbn [fst snd concat]. eapply good_trans; [apply step_good|apply IH].
Qed.

Lemma wf_init r q : wf (init r q).
Proof. split; constructor. Qed.
