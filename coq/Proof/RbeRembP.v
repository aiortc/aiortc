(* Proofs about pack_remb_fci / unpack_remb_fci of Model/Rbe.v (property C15).
   With Proof/RtpBitsP.v loaded `lia` also decides goals with / and mod by numerals. *)
From Coq Require Import ZArith List Bool Lia.
From AV Require Import Lib.Sx Lib.Bytes Lib.BytesP Model.RateCounter Model.Aimd Model.Rbe Proof.RtpBitsP.
Import ListNotations.
Local Open Scope Z_scope.

(* byte 5 = exponent (6 bits) . top two bits of the mantissa *)
Lemma remb_byte5 k m : 0 <= k -> 0 <= m < 262144 -> Z.lor (Z.shiftl k 2) (Z.shiftr m 16) = k * 4 + m / 65536.
Proof.
  intros Hk Hm. rewrite shiftl_mul, shiftr_div by lia. change (2 ^ 2) with 4. change (2 ^ 16) with 65536.
  apply (lor_add _ _ 2); [lia|change (2 ^ 2) with 4; lia|apply Z.mod_mul; lia].
Qed.

Lemma remb_exponent d5 : 0 <= d5 < 256 -> Z.shiftr (Z.land d5 252) 2 = d5 / 4.
Proof.
  intros Hd. rewrite Z.shiftr_land. change (Z.shiftr 252 2) with (Z.ones 6).
  rewrite land_ones_mod, shiftr_div by lia. change (2 ^ 2) with 4. change (2 ^ 6) with 64. lia.
Qed.

Lemma remb_mantissa d5 d6 d7 :
  0 <= d6 < 256 -> 0 <= d7 < 256 ->
  Z.lor (Z.lor (Z.shiftl (Z.land d5 3) 16) (Z.shiftl d6 8)) d7 = d5 mod 4 * 65536 + d6 * 256 + d7.
Proof.
  intros H6 H7. rewrite land_3, !shiftl_mul by lia.
  rewrite (lor_add (d5 mod 4 * 2 ^ 16) (d6 * 2 ^ 8) 16);
    [|lia|change (2 ^ 8) with 256; change (2 ^ 16) with 65536; lia|apply Z.mod_mul; lia].
  apply (lor_add _ _ 8); [lia|exact H7|].
  change (2 ^ 16) with (256 * 2 ^ 8). rewrite Z.mul_assoc, <- Z.mul_add_distr_r. apply Z.mod_mul. lia.
Qed.

(* the loop ends with the 18 top bits of m and the number k of bits dropped *)
Lemma remb_norm_ok fuel : forall m ex,
  0 <= m < 2 ^ (18 + Z.of_nat fuel) ->
  exists m' k, remb_norm fuel m ex = Ok (m', ex + k) /\ 0 <= k /\ 0 <= m' < 262144 /\
               m' * 2 ^ k <= m < (m' + 1) * 2 ^ k /\ (m < 262144 -> m' = m /\ k = 0) /\
               (0 < k -> 131072 <= m').
Proof.
  induction fuel as [|fuel IH]; intros m ex Hm; cbn [remb_norm]; destruct (Z.ltb_spec 262143 m) as [Hb|Hs].
  (* at most 0x3FFFF: the loop does not run, whatever fuel there is *)
  2, 4: exists m, 0; rewrite Z.add_0_r, Z.pow_0_r; repeat split; lia.
  - change (2 ^ (18 + Z.of_nat 0)) with 262144 in Hm. lia.
  - rewrite shiftr_div by lia. change (2 ^ 1) with 2.
    destruct (IH (m / 2) (ex + 1)) as (m' & k & E & Hk & Hr & Hq & _ & Hhi).
    { replace (18 + Z.of_nat (S fuel)) with (Z.succ (18 + Z.of_nat fuel)) in Hm by lia.
      rewrite Z.pow_succ_r in Hm by lia. lia. }
    exists m', (Z.succ k). rewrite E, Z.pow_succ_r by exact Hk.
    split; [do 2 f_equal; lia|]. split; [lia|]. split; [exact Hr|]. split; [lia|]. split; [lia|]. intros _.
    destruct (Z.eq_dec k 0) as [->|Hk0]; [rewrite Z.pow_0_r in Hq; lia|apply Hhi; lia].
Qed.

Lemma remb_fuel_enough e : 0 <= e -> e < 2 ^ (18 + Z.of_nat (remb_fuel e)).
Proof.
  intros He. unfold remb_fuel. destruct (Z.eq_dec e 0) as [->|Hnz]; [cbn; lia|].
  rewrite Z2Nat.id by apply Z.log2_nonneg.
  destruct (Z.log2_spec e ltac:(lia)) as [_ Hlt].
  apply Z.lt_le_trans with (2 ^ Z.succ (Z.log2 e)); [exact Hlt|].
  apply Z.pow_le_mono_r; [lia|]. pose proof (Z.log2_nonneg e). lia.
Qed.

(* a mantissa with bit 17 set leaves room for 63 more bits below 2^81 *)
Lemma remb_exponent_bound m k : 131072 <= m -> m * 2 ^ k < 2 ^ 81 -> k <= 63.
Proof.
  intros Hm Hlt. destruct (Z.le_gt_cases k 63) as [Hok|Hbad]; [exact Hok|exfalso].
  assert (2 ^ 64 <= 2 ^ k) by (apply Z.pow_le_mono_r; lia).
  assert (2 ^ 17 * 2 ^ 64 <= m * 2 ^ k) by (apply Z.mul_le_mono_nonneg; lia).
  change (2 ^ 17 * 2 ^ 64) with (2 ^ 81) in *. lia.
Qed.

Lemma length_flat_be32 ss : length (flat_map be32 ss) = (4 * length ss)%nat.
Proof. induction ss as [|x ss IH]; cbn [flat_map length]; [reflexivity|]. rewrite app_length, IH. cbn. lia. Qed.

Lemma bytes_ok_flat_be32 ss : bytes_ok (flat_map be32 ss).
Proof.
  induction ss as [|x ss IH]; cbn [flat_map]; [constructor|].
  apply bytes_ok_app. split; [apply be32_ok|exact IH].
Qed.

Lemma remb_ssrc_list_ok ss : forall pre,
  Forall (fun x => 0 <= x < 4294967296) ss ->
  remb_ssrc_list (pre ++ flat_map be32 ss) (length pre) (length ss) = Some ss.
Proof.
  induction ss as [|x ss IH]; intros pre Hs; cbn [remb_ssrc_list length flat_map]; [reflexivity|].
  apply Forall_cons_iff in Hs. destruct Hs as [Hx Hs].
  rewrite (u32_at pre x (flat_map be32 ss) Hx).
  replace (4 + length pre)%nat with (length (pre ++ be32 x)) by (rewrite app_length; cbn; lia).
  rewrite app_assoc. rewrite IH by exact Hs. reflexivity.
Qed.

Lemma in_range_intro lo x hi : lo <= x < hi -> in_range lo x hi = true.
Proof. intros H. unfold in_range. apply andb_true_iff. split; [apply Z.leb_le|apply Z.ltb_lt]; lia. Qed.

(* unpack_remb_fci on a packet laid out as pack_remb_fci does: byte 5 is b1, bytes 6-7 are h *)
Lemma unpack_remb_packet b1 h ss :
  0 <= b1 < 256 -> 0 <= h < 65536 -> (length ss <= 255)%nat ->
  Forall (fun x => 0 <= x < 4294967296) ss ->
  unpack_remb_fci ([82; 69; 77; 66] ++ be8 (len ss) ++ be8 b1 ++ be16 h ++ flat_map be32 ss) =
  Ok ((b1 mod 4 * 65536 + h) * 2 ^ (b1 / 4), ss).
Proof.
  intros H1 Hh Hn Hs. unfold be8, be16. rewrite !(Z.mod_small _ 256) by (unfold len; lia).
  unfold unpack_remb_fci.
  cbn [app length Nat.ltb Nat.leb slice firstn skipn Nat.sub bytes_eqb Z.eqb Pos.eqb andb orb negb u8 nth_error].
  change (82 :: 69 :: 77 :: 66 :: len ss :: b1 :: h / 256 :: h mod 256 :: flat_map be32 ss)
    with ([82; 69; 77; 66; len ss; b1; h / 256; h mod 256] ++ flat_map be32 ss).
  replace (len (_ ++ flat_map be32 ss)) with (8 + len ss * 4)
    by (unfold len; rewrite app_length, length_flat_be32; cbn [length]; lia).
  rewrite Z.ltb_irrefl. replace (Z.to_nat (len ss)) with (length ss) by (unfold len; lia).
  change 8%nat with (length [82; 69; 77; 66; len ss; b1; h / 256; h mod 256]).
  rewrite remb_ssrc_list_ok by exact Hs.
  rewrite remb_exponent, remb_mantissa, shiftl_mul by lia. do 3 f_equal. lia.
Qed.

(* the packet for a normalised bitrate, exponent k and mantissa m: every field
   passes its range check and unpack_remb_fci reads k and m back *)
Lemma remb_layout e k m ss :
  remb_norm (remb_fuel e) e 0 = Ok (m, k) -> 0 <= k <= 63 -> 0 <= m < 262144 ->
  (length ss <= 255)%nat -> Forall (fun x => 0 <= x < 4294967296) ss ->
  exists bs, pack_remb_fci e ss = Ok bs /\ bytes_ok bs /\ length bs = (8 + 4 * length ss)%nat /\
             unpack_remb_fci bs = Ok (m * 2 ^ k, ss).
Proof.
  intros En Hk Hm Hn Hs.
  assert (Hlen : 0 <= len ss < 256) by (unfold len; lia).
  assert (Hfa : forallb (fun x => in_range 0 x 4294967296) ss = true).
  { apply forallb_forall. intros x Hin. apply in_range_intro. rewrite Forall_forall in Hs. exact (Hs x Hin). }
  unfold pack_remb_fci. rewrite En, remb_byte5, land_65535, Hfa, !in_range_intro by lia. cbn [andb].
  eexists. split; [reflexivity|]. split; [|split].
  - apply bytes_ok_app. split; [repeat constructor; unfold byte_ok; lia|].
    repeat (apply bytes_ok_app; split); try apply be8_ok; try apply be16_ok; apply bytes_ok_flat_be32.
  - rewrite !app_length, length_flat_be32. cbn. lia.
  - rewrite unpack_remb_packet by (lia || assumption). do 2 f_equal. f_equal; [|f_equal]; lia.
Qed.

Theorem remb_roundtrip : forall e ss,
  0 <= e < 2 ^ 81 -> (length ss <= 255)%nat -> Forall (fun x => 0 <= x < 4294967296) ss ->
  exists bs m k,
    pack_remb_fci e ss = Ok bs /\ bytes_ok bs /\ length bs = (8 + 4 * length ss)%nat /\
    unpack_remb_fci bs = Ok (m * 2 ^ k, ss) /\
    0 <= m < 2 ^ 18 /\ 0 <= k <= 63 /\ m * 2 ^ k <= e < (m + 1) * 2 ^ k /\ (e < 2 ^ 18 -> m = e /\ k = 0).
Proof.
  intros e ss He Hn Hs.
  destruct (remb_norm_ok (remb_fuel e) e 0 (conj (proj1 He) (remb_fuel_enough e (proj1 He))))
    as (m & k & En & Hk & Hm & Hq & Hsmall & Hbig).
  rewrite Z.add_0_l in En.
  assert (Hk63 : k <= 63).
  { destruct (Z.eq_dec k 0) as [->|Hk0]; [lia|]. apply (remb_exponent_bound m); [apply Hbig|]; lia. }
  destruct (remb_layout e k m ss En (conj Hk Hk63) Hm Hn Hs) as (bs & Ep & Hok & Hlen & Eu).
  exists bs, m, k. change (2 ^ 18) with 262144. auto 10.
Qed.
