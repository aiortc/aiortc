(* C01 / C02: completeness of ordered delivery, at the transport level and end to end: once the
   receiver has accepted every chunk of the ordered messages sent on a stream, it has delivered
   every one of those messages (in order, each once - SctpOrderEP). *)
From Coq Require Import ZArith List Bool Lia.
From AV Require Import Lib.Bytes Gen.Utils Gen.SctpConst Model.SctpRecv Model.SctpSend Proof.SctpRecvP Proof.SctpC01P
  Proof.SctpSendP Proof.SctpDupP Proof.SctpOrderP Proof.SctpOrderSP Proof.SctpOrderTP Proof.SctpOrderEP.
Import ListNotations.
Local Open Scope Z_scope.

Section Transport.
Variable base N : Z.
Hypothesis Hbase : r32 base.
Hypothesis HN : 0 <= N < 2147483648.

Theorem transport_ordered_complete (M : list (list chunk)) (o : nat -> Z) (s0 : Z) (st : Z) :
  (forall j f, nth_error M j = Some f ->
     f <> [] /\ o j + Z.of_nat (length f) <= o (S j) /\ forall i c, nth_error f i = Some c -> chunk_ok base N o s0 j i f c) ->
  forall es, Forall (data_ev base N) es ->
  (forall c, In (EvData c) es -> sid c = st -> exists j i, at_ M j i c) ->
  swin M [] (ssn s0 0) 0 (filter (on_stream st) (accepted_chunks (rinit base) es)) ->
  ssn s0 0 = 0 ->
  (forall c, In c (concat M) -> sid c = st /\ In c (accepted_chunks (rinit base) es)) ->
  msgs_on st (rinit base) es = map msgf M.
Proof.
  intros wfM es Hes Hlab Hw Hs0 Hall. destruct (accepted_on_stream base N Hbase HN st es Hes) as (Hnd & Hin & E).
  pose proof (ordered_complete base N Hbase HN M o s0 wfM _ Hnd) as C. rewrite Hs0, E in C.
  enough (H : Some (msgs_on st (rinit base) es) = Some (map msgf M)) by (now injection H). apply C.
  - intros c Hc. destruct (Hin c Hc) as [H1 H2]. exact (Hlab c H1 H2).
  - rewrite <- Hs0. exact Hw.
  - intros c Hc. destruct (Hall c Hc) as [Hs Ha]. apply filter_In. split; [exact Ha|]. unfold on_stream. now apply Z.eqb_eq.
Qed.
End Transport.

Lemma sel_sid st : forall ms s c, In c (concat (sel st s ms)) -> sid c = st.
Proof.
  induction ms as [|m ms IH]; intros s c H; cbn [sel] in H; [destruct H|].
  destruct (selected st m) eqn:Es; [|eapply IH; eauto].
  cbn [concat] in H. apply in_app_or in H as [H|H]; [|eapply IH; eauto].
  unfold selected in Es. apply andb_true_iff in Es as [Eo Ei]. apply Z.eqb_eq in Ei.
  unfold send_msg in H. cbn [snd] in H. apply In_nth_error in H as (i & Hi).
  apply frag_loop_nth in Hi as (_ & Hs & _). congruence.
Qed.

(* COMPLETE DELIVERY, end to end.  The application sends ANY list of messages from ANY initial
   TSN; the network hands the receiver ANY list of DATA chunks inside the TSN window whose chunks
   on stream st are chunks of st's ordered messages (every order, loss, duplication and
   retransmission pattern).  If every chunk of those messages is among the chunks the receiver
   ACCEPTED (it arrived at least once while inside the receive window), then the messages
   delivered on stream st are EXACTLY ALL ordered messages sent on st, in sending order, each
   once: nothing that has arrived stays behind in the reassembly queue. *)
Theorem ordered_complete_delivery base N t0 msgs st es :
  r32 base -> 0 <= N < 2147483648 -> r32 t0 ->
  off base t0 + Z.of_nat (total_frags msgs) <= N ->
  Forall (fun m => o_data m <> []) msgs ->
  let M := sel st (mkS t0 []) msgs in
  Forall (data_ev base N) es ->
  (forall c, In (EvData c) es -> sid c = st -> In c (concat M)) ->
  swin M [] 0 0 (filter (on_stream st) (accepted_chunks (rinit base) es)) ->
  (forall c, In c (concat M) -> In c (accepted_chunks (rinit base) es)) ->
  msgs_on st (rinit base) es = map triple (filter (selected st) msgs).
Proof.
  intros Hbase HN Ht0 Hfit Hd M Hes Hin Hw Hall.
  pose proof (sender_wf_start base N HN st t0 msgs Ht0 Hfit Hd) as W. fold M in W.
  rewrite (transport_ordered_complete base N Hbase HN M _ 0 st W es Hes).
  - unfold M. now rewrite sel_msgs.
  - intros c Hc Hs. apply in_concat_at. now apply Hin.
  - exact Hw.
  - reflexivity.
  - intros c Hc. split; [eapply sel_sid; exact Hc|now apply Hall].
Qed.
