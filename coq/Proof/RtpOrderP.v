(* C11: frames reach the decoder in stream order.  The jitter buffer's ordering theorem (C10)
   lifted through the receive pipeline of a video RTCRtpReceiver. *)
From Coq Require Import ZArith List Bool Lia.
From AV Require Import Lib.Bytes Model.Rtp.
From AV Require Lib.RtpX.
From AV Require Lib.CodecX Model.Jitter Model.RtpRecv Proof.JitterP Proof.JitterInvP Proof.JitterOrderP Proof.RtpRecvP.
Import ListNotations.
Local Open Scope Z_scope.

Module V := AV.Model.RtpRecv. Module VP := AV.Proof.RtpRecvP.
Module J := AV.Model.Jitter. Module JP := AV.Proof.JitterP. Module JI := AV.Proof.JitterInvP. Module JO := AV.Proof.JitterOrderP.

Definition decoder_frames (outs : list V.rout) : list bytes :=
  flat_map (fun o => match V.o_frame o with Some (_, _, d) => [d] | None => [] end) outs.

Lemma aligned_frames b outs jouts : VP.aligned b outs jouts ->
  decoder_frames outs = map J.fdata (JO.released jouts).
Proof.
  induction 1 as [|o outs jouts Hp Hf _ IH|o outs pli fr jouts Hp Hf _ IH]; [reflexivity| |].
  - unfold decoder_frames in *. cbn [flat_map]. rewrite Hf. exact IH.
  - unfold decoder_frames, JO.released in *. cbn [flat_map snd]. destruct fr as [f|].
    + destruct Hf as (cpt & t & Hf). rewrite Hf. cbn [app map]. f_equal. exact IH.
    + rewrite Hf. cbn [app]. exact IH.
Qed.

(* For every arrival list handled by a fresh video receiver whose media packets (after the
   codec and RTX guards) never arrive MAX_MISORDER or more positions late: the frames handed to
   the decoder, in the order they are handed over, occupy disjoint, strictly increasing
   intervals of unwrapped stream positions counted from the first media packet -- frames come
   out in stream order and no stream position is decoded twice. *)
Theorem decoder_frames_ordered c l s' outs p jl :
  V.run c V.init_video l = AV.Lib.RtpX.Ok (s', outs) ->
  flat_map (VP.jb_input c) l = p :: jl ->
  Forall JP.seq16 (p :: jl) -> JO.never_late V.VIDEO_CAPACITY 0 true (p :: jl) ->
  exists fs, JO.ordered_from (J.pseq p) 0 fs /\ decoder_frames outs = map J.fdata fs.
Proof.
  intros Hrun Hjl Hs Hnl.
  destruct (VP.video_run_factor c l s' outs Hrun) as (jouts & HR & Hal). rewrite Hjl in HR.
  exists (JO.released jouts). split.
  - exact (JO.jitter_ordered _ _ _ p jl _ _ VP.cap_ok_video Hs HR Hnl).
  - eapply aligned_frames; eauto.
Qed.
