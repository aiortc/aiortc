(* C13: automatically chosen ids of the two sides never collide.  _data_channel_id (0 at the
   DTLS server, 1 at the DTLS client) never changes, every automatically chosen id is picked by
   flush_loop starting from it in steps of 2, so it keeps the endpoint's parity: two endpoints
   of opposite parity can never choose the same id, whatever each has done so far. *)
From Coq Require Import ZArith List Bool.
From AV Require Import Lib.Bytes Gen.Utils Gen.SctpConst Model.Chan Proof.ChanP Proof.ChanBufP.
Import ListNotations.
Local Open Scope Z_scope.

Definition dc_kept (s : st) (_ : list event) (s' : st) : Prop := dc_id s' = dc_id s.

Lemma dc_trans s e1 s1 e2 s2 : dc_kept s e1 s1 -> dc_kept s1 e2 s2 -> dc_kept s (e1 ++ e2) s2.
Proof. unfold dc_kept. congruence. Qed.

Lemma dc_set_ready s h r : dc_id (fst (set_ready s h r)) = dc_id s.
Proof. now rewrite set_ready_fst. Qed.
Lemma dc_add_buffered s h n : dc_id (fst (add_buffered s h n)) = dc_id s.
Proof. reflexivity. Qed.

Lemma dc_chan_closed s i : dc_id (fst (chan_closed s i)) = dc_id s.
Proof. unfold chan_closed. destruct (tget (table s) i); [exact (dc_set_ready _ _ _)|reflexivity]. Qed.

Lemma dc_set_closed s : dc_id (fst (set_closed s)) = dc_id s.
Proof.
  unfold set_closed. rewrite (pair_eta (closed_streams _ _)), (pair_eta (close_queued _ _)). cbn [fst].
  exact (eq_trans (walk_close_queued dc_kept (fun _ => eq_refl) dc_trans (fun s0 h => dc_set_ready s0 h Closed) _ _)
                  (walk_closed_streams dc_kept (fun _ => eq_refl) dc_trans dc_chan_closed _ _)).
Qed.

Lemma dc_step s i : dc_id (fst (step s i)) = dc_id s.
Proof.
  apply (walk_step dc_kept (fun _ => True)).
  - reflexivity.
  - exact dc_trans.
  - intros s0 evs s' _ _ _ E _. exact E.
  - intros s0 h r _ _. apply dc_set_ready.
  - intros s0 h _ _. rewrite close_local_eq. destruct (ch_id _); [destruct (tget _ _)|]; [exact (dc_set_ready _ _ _)|reflexivity|exact (dc_set_ready _ _ _)].
  - exact dc_chan_closed.
  - intros s0 h pp data q' _. unfold flush_one, assign_id, send_one, add_buffered. now destruct (ch_id _), (pp =? WEBRTC_DCEP).
  - intros s0 neg id ordered maxrt maxlt label proto _. rewrite create_eq. cbv zeta.
    destruct (match id with Some i => _ | None => false end); [reflexivity|].
    destruct neg; [destruct (established s0)|]; [exact (dc_set_ready _ _ _)|reflexivity|reflexivity].
  - intros s0 h pp data _ _. unfold app_send. now destruct (negb _).
  - reflexivity.
  - intros s0 sidv c _ _ _ _. exact (dc_set_ready _ _ _).
  - exact dc_set_closed.
  - exact I.
Qed.

Lemma dc_run : forall is s, dc_id (fst (run s is)) = dc_id s.
Proof.
  induction is as [|i is IH]; intros s; [reflexivity|]. rewrite run_cons. cbn [fst]. now rewrite IH, dc_step.
Qed.

(* were x = y, a - b would be the difference of two even numbers *)
Lemma parity_apart a b x y : (a - b) mod 2 = 1 -> (x - a) mod 2 = 0 -> (y - b) mod 2 = 0 -> x <> y.
Proof.
  intros Hp Hx Hy <-. replace (a - b) with ((x - b) - (x - a)) in Hp by ring.
  rewrite Zminus_mod, Hx, Hy in Hp. discriminate Hp.
Qed.

(* the id flush_loop assigns to a channel that has none, in state s *)
Definition auto_pick (s : st) : Z := pick_id (S (length (table s))) (table s) (dc_id s).

Theorem two_sides_never_collide roleA roleB seqA seqB isA isB :
  (roleA - roleB) mod 2 = 1 ->
  let sA := fst (run (init roleA seqA) isA) in
  let sB := fst (run (init roleB seqB) isB) in
  auto_pick sA <> auto_pick sB /\
  (auto_pick sA - roleA) mod 2 = 0 /\ (auto_pick sB - roleB) mod 2 = 0.
Proof.
  intros Hp sA sB. unfold auto_pick.
  destruct (auto_id_fresh (table sA) (dc_id sA)) as (_ & PA & _).
  destruct (auto_id_fresh (table sB) (dc_id sB)) as (_ & PB & _).
  replace (dc_id sA) with roleA in * by (symmetry; apply dc_run).
  replace (dc_id sB) with roleB in * by (symmetry; apply dc_run).
  split; [exact (parity_apart _ _ _ _ Hp PA PB)|split; [exact PA|exact PB]].
Qed.
