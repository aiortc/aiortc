(* C13: a received DATA_CHANNEL_OPEN produces exactly one `datachannel` event for a new channel
   that carries the opener's id, label, protocol, ordering and reliability settings; a repeated
   OPEN on a stream that already has a channel is ignored. *)
From Coq Require Import ZArith List Bool Lia Arith.
From AV Require Import Lib.Bytes Lib.BytesP Gen.Utils Gen.SctpConst Model.Chan Proof.ChanDcepP Proof.ChanP Proof.ChanBufP.
Import ListNotations.
Local Open Scope Z_scope.

(* a channel without what flushing may change: its id (assigned when there was none) and bufferedAmount *)
Definition params (c : chan) : chan := with_buf (with_id c None) 0.
Definition is_dc (e : event) : bool := match e with EvDataChannel _ => true | _ => false end.

Definition kept (c c' : chan) : Prop :=
  params c' = params c /\ forall i, ch_id c = Some i -> ch_id c' = Some i.
Definition flushed (s : st) (evs : list event) (s' : st) : Prop :=
  (forall h, kept (getc s h) (getc s' h)) /\ filter is_dc evs = [] /\
  forall k v, tget (table s) k = Some v -> tget (table s') k = Some v.

Lemma params_eq c c' : params c' = params c ->
  ch_state c' = ch_state c /\ ch_neg c' = ch_neg c /\ ch_ordered c' = ch_ordered c /\ ch_maxrt c' = ch_maxrt c /\
  ch_maxlt c' = ch_maxlt c /\ ch_label c' = ch_label c /\ ch_proto c' = ch_proto c.
Proof. intros E. injection E. intros. repeat split; assumption. Qed.

Lemma kept_setc s h c : kept (getc s h) c -> forall x, kept (getc s x) (getc (setc s h c) x).
Proof.
  intros K x. rewrite getc_setc. destruct (Nat.eqb_spec h x) as [<-|]; [|now split]. destruct (Nat.ltb _ _); [exact K|now split].
Qed.

Lemma flushed_refl s : flushed s [] s.
Proof. split; [now split|auto]. Qed.

Lemma flushed_trans s e1 s1 e2 s2 : flushed s e1 s1 -> flushed s1 e2 s2 -> flushed s (e1 ++ e2) s2.
Proof.
  intros (K1 & F1 & T1) (K2 & F2 & T2). split; [|split; [now rewrite filter_app, F1, F2|auto]].
  intros h. destruct (K1 h) as [A1 C1], (K2 h) as [A2 C2]. split; [congruence|auto].
Qed.

Lemma flushed_flush_one s h pp data : flushed s (snd (flush_one s h pp data)) (fst (flush_one s h pp data)).
Proof.
  unfold flush_one. assert (A : flushed s [] (fst (assign_id s h))).
  { unfold assign_id. destruct (ch_id (getc s h)) eqn:Ei; [apply flushed_refl|]. cbn [fst]. split; [|split; [reflexivity|]].
    - refine (kept_setc (set_table s _) h _ _). split; [reflexivity|]. intros i Hi. change (ch_id (getc s h) = Some i) in Hi. congruence.
    - intros k v Hk. apply tget_tset_keeps; [apply pick_id_fresh|exact Hk]. }
  destruct (assign_id s h) as [s2 i]. apply (flushed_trans s [] s2); [exact A|]. unfold send_one, add_buffered.
  destruct (pp =? WEBRTC_DCEP); cbn [fst snd]; (split; [|split; [|auto]]).
  - now split.
  - reflexivity.
  - apply kept_setc. now split.
  - now destruct (_ && _).
Qed.

Lemma flush_frame s oracle : flushed s (snd (flush s oracle)) (fst (flush s oracle)).
Proof.
  apply (walk_flush flushed flushed_refl flushed_trans). intros s0 h pp data q' _.
  exact (flushed_trans s0 [] (set_queue s0 q') _ _ (flushed_refl s0) (flushed_flush_one _ h pp data)).
Qed.

Lemma repeated_open_ignored s sidv h data ok oracle : tget (table s) sidv = Some h ->
  hd 0 data = DATA_CHANNEL_OPEN -> 12 <= len data -> recv_dcep s sidv data ok oracle = (s, []).
Proof.
  intros Ht Hd Hl. unfold recv_dcep. destruct data as [|m data']; [now destruct Hl|]. cbn [hd] in Hd. subst m.
  apply Z.leb_le in Hl. now rewrite Z.eqb_refl, Hl, Ht.
Qed.

(* the pairs are taken apart by `let`, for the reason given at ChanP.recv_dcep_cases *)
Lemma recv_dcep_open s sidv data p oracle : tget (table s) sidv = None ->
  hd 0 data = DATA_CHANNEL_OPEN -> 12 <= len data -> dcep_parse_open data = Some p ->
  recv_dcep s sidv data true oracle =
  (let '(s4, e1) := accept_open s sidv (mkChan (Some sidv) Connecting 0 0 false (op_ordered p) (op_maxrt p) (op_maxlt p) (op_label p) (op_proto p)) in
   let '(s5, e2) := flush s4 oracle in (s5, e1 ++ e2 ++ [EvDataChannel (length (chans s))])).
Proof.
  intros Ht Hd Hl Hp. unfold recv_dcep, accept_open. destruct data as [|m data']; [now destruct Hl|]. cbn [hd] in Hd. subst m.
  apply Z.leb_le in Hl. rewrite Z.eqb_refl, Hl, Ht, Hp. cbn [andb negb add_chan fst]. cbv zeta.
  now destruct (set_ready _ (length (chans s)) Open).
Qed.

Lemma accepted_then_flushed s sidv c0 oracle : tget (table s) sidv = None ->
  ch_id c0 = Some sidv -> ch_state c0 = Connecting ->
  let h := length (chans s) in
  let '(s4, e1) := accept_open s sidv c0 in
  let '(s5, e2) := flush s4 oracle in
  filter is_dc (e1 ++ e2 ++ [EvDataChannel h]) = [EvDataChannel h] /\
  ch_id (getc s5 h) = Some sidv /\ params (getc s5 h) = params (with_state c0 Open) /\ tget (table s5) sidv = Some h.
Proof.
  intros Ht Hid Hst h.
  assert (E4 : getc (fst (accept_open s sidv c0)) h = with_state c0 Open).
  { rewrite (accept_open_eq _ _ _ Hid), set_ready_same; [now rewrite getc_new_chan, Nat.eqb_refl|].
    rewrite new_chan_length. lia. }
  assert (T4 : tget (table (fst (accept_open s sidv c0))) sidv = Some h).
  { rewrite (accept_open_eq _ _ _ Hid), set_ready_table. cbn [table new_chan set_queue set_table]. now rewrite Hid, tget_tset_fresh, Z.eqb_refl. }
  assert (F4 : filter is_dc (snd (accept_open s sidv c0)) = []).
  { unfold accept_open, set_ready. cbn [snd]. now destruct (rstate_eqb _ _). }
  destruct (accept_open s sidv c0) as [s4 e1]. cbn [fst snd] in E4, T4, F4.
  destruct (flush_frame s4 oracle) as (K & F & T). destruct (flush s4 oracle) as [s5 e2]. cbn [fst snd] in K, F, T.
  destruct (K h) as [Ks Kid]. rewrite E4 in Ks, Kid.
  split; [now rewrite !filter_app, F4, F|]. split; [now apply Kid|]. split; [exact Ks|now apply T].
Qed.

Theorem open_creates_one_channel s sidv c oracle : wf_chan c -> tget (table s) sidv = None ->
  let h := length (chans s) in
  let s' := fst (recv_dcep s sidv (dcep_open c) true oracle) in
  let evs := snd (recv_dcep s sidv (dcep_open c) true oracle) in
  filter is_dc evs = [EvDataChannel h] /\
  ch_id (getc s' h) = Some sidv /\ ch_state (getc s' h) = Open /\ ch_neg (getc s' h) = false /\
  ch_ordered (getc s' h) = ch_ordered c /\ ch_maxrt (getc s' h) = ch_maxrt c /\ ch_maxlt (getc s' h) = ch_maxlt c /\
  ch_label (getc s' h) = ch_label c /\ ch_proto (getc s' h) = ch_proto c /\
  tget (table s') sidv = Some h.
Proof.
  intros Wc Ht. destruct (dcep_open_roundtrip c Wc) as (Hhd & Hlen & Hparse).
  rewrite (recv_dcep_open s sidv _ _ oracle Ht Hhd Hlen Hparse). cbn [op_ordered op_maxrt op_maxlt op_label op_proto].
  set (c0 := mkChan (Some sidv) Connecting 0 0 false (ch_ordered c) (ch_maxrt c) (ch_maxlt c) (ch_label c) (ch_proto c)).
  pose proof (accepted_then_flushed s sidv c0 oracle Ht eq_refl eq_refl) as A. cbv zeta in A.
  destruct (accept_open s sidv c0) as [s4 e1]. destruct (flush s4 oracle) as [s5 e2]. cbn [fst snd].
  destruct A as (A1 & A2 & A3 & A4). apply params_eq in A3 as (P1 & P2 & P3 & P4 & P5 & P6 & P7).
  exact (conj A1 (conj A2 (conj P1 (conj P2 (conj P3 (conj P4 (conj P5 (conj P6 (conj P7 A4))))))))).
Qed.
