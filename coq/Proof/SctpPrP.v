(* C06: abandonment takes whole messages, abandoned chunks are never transmitted. *)
From Coq Require Import ZArith List Bool Lia.
From AV Require Import Lib.Bytes Gen.Utils Gen.SctpConst Model.SctpTx Proof.SctpTxP.
Import ListNotations.
Local Open Scope Z_scope.

Fixpoint abandoned_until (P : sc -> bool) (l : list sc) : Prop :=
  match l with
  | [] => True
  | c :: l' => c_abandoned c = true /\ (P c = true \/ abandoned_until P l')
  end.

Fixpoint has (P : sc -> bool) (l : list sc) : bool :=
  match l with [] => false | c :: l' => P c || has P l' end.

Lemma abandon_chunk_flags fl c sib :
  let c' := snd (abandon_chunk fl c sib) in
  c_abandoned c' = true /\ c_first c' = c_first c /\ c_last c' = c_last c /\ c_tsn c' = c_tsn c /\ c_retx c' = false.
Proof. unfold abandon_chunk. cbn. auto. Qed.

Lemma has_existsb P l : has P l = existsb P l.
Proof. induction l as [|c l IH]; cbn [has existsb]; [reflexivity|]. now rewrite IH. Qed.

Lemma mark_until_whole stop : (forall c, stop (abandon c) = stop c) -> forall l fl,
  abandoned_until stop (snd (mark_until stop fl l)) /\
  (existsb stop l = false -> Forall (fun c => c_abandoned c = true) (snd (mark_until stop fl l))).
Proof.
  intros Hstop. induction l as [|c l IH]; intros fl; cbn [mark_until existsb]; [split; [exact I|constructor]|].
  destruct (stop c) eqn:Es; cbn [snd abandoned_until orb]; rewrite ?Hstop, ?Es; [split; [auto|discriminate]|].
  specialize (IH (fst (abandon_chunk fl c true))). destruct (mark_until stop _ l) as [fl2 l2]. destruct IH as [I1 I2].
  cbn [snd abandoned_until]. split; [auto|]. intros E. constructor; [reflexivity|now apply I2].
Qed.

Lemma pull_unsent_whole : forall oq, Forall (fun c => c_abandoned c = true) (fst (pull_unsent oq)).
Proof.
  induction oq as [|c oq IH]; cbn [pull_unsent]; [constructor|].
  destruct (c_last c); [repeat constructor|]. destruct (pull_unsent oq) as [mv rest]. constructor; [reflexivity|exact IH].
Qed.

Lemma abandoned_until_all P l : Forall (fun c => c_abandoned c = true) l -> abandoned_until P l.
Proof. induction 1 as [|c l Hc Hl IH]; cbn [abandoned_until]; auto. Qed.

(* _maybe_abandon abandons the whole message of the current chunk: back to its first
   fragment, forward to its last fragment, including fragments not yet sent *)
Theorem maybe_abandon_whole_message fl pre cur post oq now :
  c_abandoned cur = false -> should_abandon cur now = true ->
  let '(ab, _, pre', cur', post', oq') := maybe_abandon fl pre cur post oq now in
  ab = true /\ c_abandoned cur' = true /\ c_retx cur' = false /\
  (c_first cur = false -> abandoned_until c_first pre') /\
  (c_last cur = false ->
     abandoned_until c_last post' /\
     (has c_last post = false -> Forall (fun c => c_abandoned c = true) post')).
Proof.
  intros Hab Hsh. rewrite maybe_abandon_eq, Hab, Hsh. cbn [negb orb]. unfold mark_side, pull_side.
  destruct (if c_first cur then _ else _) as [fl1 pre1] eqn:Eb.
  destruct (if c_last cur then _ else _) as [fl2 post2] eqn:Ef.
  destruct (if c_last cur || _ then _ else _) as [mv rest] eqn:Eu.
  split; [reflexivity|]. split; [reflexivity|]. split; [reflexivity|]. split; intros E; rewrite E in *.
  - destruct (mark_until_whole c_first (fun c => eq_refl) pre fl) as [H _]. now rewrite Eb in H.
  - destruct (mark_until_whole c_last (fun c => eq_refl) post fl1) as [H1 H2]. rewrite Ef in H1, H2. cbn [snd orb] in *.
    rewrite has_existsb. destruct (existsb c_last post).
    + injection Eu as <- <-. rewrite app_nil_r. split; [exact H1|discriminate].
    + pose proof (pull_unsent_whole oq) as U. rewrite Eu in U.
      assert (A : Forall (fun c => c_abandoned c = true) (post2 ++ mv)) by (apply Forall_app; auto).
      split; [now apply abandoned_until_all|auto].
Qed.

Definition sends_tsn (o : out) (t : Z) : Prop := match o with OData t' _ => t' = t | _ => False end.

Lemma retx_loop_sends : forall sq fl cw frt e t3r,
  let '(_, _, _, _, _, outs) := retx_loop sq fl cw frt e t3r in
  forall o, In o outs -> exists c, In c sq /\ sends_tsn o (c_tsn c) /\ c_retx c = true.
Proof.
  induction sq as [|c sq IH]; intros fl cw frt e t3r; cbn [retx_loop].
  - intros o [].
  - destruct (c_retx c) eqn:Er.
    + destruct (negb frt && (cw <=? fl)); [intros o []|].
      specialize (IH (fl + c_book c) cw false false (t3r || e)).
      destruct (retx_loop sq (fl + c_book c) cw false false (t3r || e)) as [[[[[a b] c0] d] f] outs].
      intros o [<-|Hin].
      * exists c. split; [now left|]. split; [reflexivity|exact Er].
      * destruct (IH o Hin) as (x & Hx & Hs & Hr). exists x. split; [now right|auto].
    + specialize (IH fl cw frt false t3r). destruct (retx_loop sq fl cw frt false t3r) as [[[[[a b] c0] d] f] outs].
      intros o Hin. destruct (IH o Hin) as (x & Hx & Hs & Hr). exists x. split; [now right|auto].
Qed.

Lemma new_loop_sends : forall oq fl cw,
  let '(_, _, _, outs) := new_loop oq fl cw in
  forall o, In o outs -> exists c, In c oq /\ sends_tsn o (c_tsn c).
Proof.
  induction oq as [|c oq IH]; intros fl cw; cbn [new_loop].
  - intros o [].
  - destruct (fl <? cw); [|intros o []].
    specialize (IH (fl + c_book c) cw). destruct (new_loop oq (fl + c_book c) cw) as [[[mv rest] fl2] outs].
    intros o [<-|Hin].
    + exists c. split; [now left|reflexivity].
    + destruct (IH o Hin) as (x & Hx & Hs). exists x. split; [now right|exact Hs].
Qed.

Lemma new_side_sends stop oq fl cw :
  let '(_, _, _, outs) := new_side stop oq fl cw in
  forall o, In o outs -> exists c, In c oq /\ sends_tsn o (c_tsn c).
Proof. unfold new_side. destruct stop; [intros o []|apply new_loop_sends]. Qed.

Theorem transmit_never_sends_abandoned s : inv s ->
  forall o t n, In o (snd (transmit s)) -> o = OData t n ->
  exists c, In c (sentq s ++ outq s) /\ c_tsn c = t /\ c_abandoned c = false.
Proof.
  intros Hinv o t n Hin ->. rewrite transmit_eq in Hin.
  pose proof (retx_loop_sends (sentq s) (flight s) (tx_cw s) (fr_transmit s) true false) as Hr.
  destruct (retx_loop (sentq s) (flight s) (tx_cw s) (fr_transmit s) true false) as [[[[[sq fl] frt] t3r] stop] outs1].
  pose proof (new_side_sends stop (outq s) fl (tx_cw s)) as Hn.
  destruct (new_side stop (outq s) fl (tx_cw s)) as [[[mv rest] fl2] outs2]. cbn [snd] in Hin.
  apply in_app_or in Hin as [H|H]; [unfold fwd_out in H; destruct (fwd_chunk s) as [[cum strs]|]; [destruct H as [H|[]]; discriminate|destruct H]|].
  apply in_app_or in H as [H|H].
  - destruct (Hr _ H) as (c & Hc & Hs & Hx). cbn in Hs. exists c. split; [apply in_or_app; now left|].
    split; [now symmetry|]. pose proof (i_rs s Hinv) as R. rewrite Forall_forall in R. now apply (R c Hc).
  - destruct (Hn _ H) as (c & Hc & Hs). cbn in Hs. exists c. split; [apply in_or_app; now right|].
    split; [now symmetry|]. pose proof (i_fo s Hinv) as F. rewrite Forall_forall in F. now destruct (F c Hc) as (_ & A & _).
Qed.
