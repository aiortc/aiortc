(* Whole descriptions: parse (str d) = norm d, str (norm d) = str d; and every description
   the parser returns satisfies wfp (invariants of the two loops). *)
From Coq Require Import ZArith List Bool Lia.
From AV Require Import Lib.Sx Model.Sdp Proof.SdpP1 Proof.SdpP2 Proof.SdpP3.
Import ListNotations.
Local Open Scope Z_scope.

Definition wfp (d : description) : Prop := Forall wfp_media (d_media d).

Definition norm_desc (lite : bool) (d : description) : description :=
  mkDesc (d_version d) (Some (match d_origin d with Some s => s | None => s_None end)) (d_name d) (d_time d)
         (d_host d) (d_group d) (d_msid_semantic d) (map (norm_media lite) (d_media d)).

Lemma grouplines_nom : forall s r, nom s = true ->
  grouplines (s ++ r) = (s ++ fst (grouplines r), snd (grouplines r)).
Proof.
  induction s as [|l s IH]; intros r H; cbn [app grouplines].
  - now destruct (grouplines r).
  - cbn [nom forallb] in H. apply andb_true_iff in H as [H1 H2]. apply negb_true_iff in H1.
    rewrite (IH r H2). cbn [fst snd]. rewrite H1. reflexivity.
Qed.

Definition flat (gs : list (line * list line)) : list line := flat_map (fun g => fst g :: snd g) gs.

Lemma grouplines_flat : forall gs,
  Forall (fun g => is_m (fst g) = true /\ nom (snd g) = true) gs -> grouplines (flat gs) = ([], gs).
Proof.
  induction gs as [|[h b] gs IH]; intros H; cbn [flat flat_map fst snd app]; [reflexivity|].
  inversion H as [|? ? [Hh Hb] Hgs]; subst. cbn [fst snd] in *.
  cbn [grouplines]. fold (flat gs). rewrite (grouplines_nom b (flat gs) Hb), (IH Hgs). cbn [fst snd].
  rewrite Hh, app_nil_r. reflexivity.
Qed.

Lemma absorb_render_medias : forall v o n t h g sem lite ms lm,
  Forall wfp_media ms -> concat_r (map render_media ms) = Ok lm ->
  exists gs, lm = flat gs /\
             Forall (fun g => is_m (fst g) = true /\ nom (snd g) = true) gs /\
             rmap (absorb_media (mkSess v o n t h g sem [] None lite None None None)) gs = Ok (map (norm_media lite) ms).
Proof.
  intros v o n t h g sem lite. induction ms as [|m ms IH]; intros lm Hw H.
  - injection H as <-. exists []. repeat split; constructor.
  - apply concat_r_cons_ok in H as (l1 & l2 & H1 & H2 & ->).
    inversion Hw as [|? ? Hm Hms]; subst.
    destruct (absorb_render_media v o n t h g sem lite m l1 Hm H1) as (body & -> & Hb & Ha).
    destruct (IH l2 Hms H2) as (gs & -> & Hgs & Hr2).
    exists ((Lm (m_kind m) (m_port m) (m_profile m) (m_fmt m), body) :: gs).
    split; [reflexivity|]. split; [constructor; [split; [reflexivity|exact Hb]|exact Hgs]|].
    cbn [rmap map]. now rewrite Ha, Hr2.
Qed.

Lemma render_session_nom : forall d ls, render_session d = Ok ls -> nom ls = true.
Proof.
  intros d ls H. unfold render_session in H.
  apply bind_ok in H as (lh & Eh & H). apply bind_ok in H as (lite & El & H). injection H as <-.
  rewrite (addr_lines_ok _ _ _ Eh). unfold nom. cbn [app forallb is_m negb andb].
  rewrite forallb_app, forallb_opt_line by reflexivity. cbn [app forallb is_m negb andb].
  now rewrite !forallb_app, forallb_flag, !forallb_map_all.
Qed.

(* the session loop over what follows v=, o= and s= *)
Lemma session_tail : forall v o n t0 t h (lite : bool) gs sem,
  rfold step_s (opt_line h Lc ++ [Lt t] ++ (if lite then [Lice_lite] else [])
                ++ map (group_line Lgroup) gs ++ map (group_line Lmsid_semantic) sem)
        (mkSess v o n t0 None [] [] [] None false None None None)
  = Ok (mkSess v o n t h gs sem [] None lite None None None).
Proof.
  intros.
  eapply rfold_seq; [apply (rfold_opt_line step_s Lc (fun h' _ => mkSess v o n t0 h' [] [] [] None false None None None)); reflexivity|].
  eapply rfold_seq; [reflexivity|].
  eapply rfold_seq; [apply (rfold_flag step_s Lice_lite (fun b _ => mkSess v o n t h [] [] [] None b None None None)); reflexivity|].
  eapply rfold_seq; [apply (rfold_map_append step_s _ (fun w _ => mkSess v o n t h w [] [] None lite None None None)); [intros a w []|]; reflexivity|].
  apply (rfold_map_append step_s _ (fun w _ => mkSess v o n t h gs w [] None lite None None None)); [intros a w []|]; reflexivity.
Qed.

Lemma absorb_render_session : forall d ls lite, render_session d = Ok ls -> any_lite (d_media d) = Ok lite ->
  rfold step_s ls sess0
  = Ok (mkSess (d_version d) (Some (match d_origin d with Some s => s | None => s_None end)) (d_name d) (d_time d)
               (d_host d) (d_group d) (d_msid_semantic d) [] None lite None None None).
Proof.
  intros d ls lite H Hl. unfold render_session in H.
  apply bind_ok in H as (lh & Eh & H). rewrite Hl in H. injection H as <-. rewrite (addr_lines_ok _ _ _ Eh).
  apply session_tail.
Qed.

(* parse (str d) = norm d *)
Lemma absorb_render : forall d ls lite,
  wfp d -> render d = Ok ls -> any_lite (d_media d) = Ok lite -> absorb ls = Ok (norm_desc lite d).
Proof.
  intros d ls lite Hw H Hl. unfold render in H.
  apply bind_ok in H as (l_s & Es & H). apply bind_ok in H as (lm & Em & H). injection H as <-.
  destruct (absorb_render_medias (d_version d) (Some (match d_origin d with Some s => s | None => s_None end)) (d_name d)
              (d_time d) (d_host d) (d_group d) (d_msid_semantic d) lite (d_media d) lm Hw Em) as (gs & -> & Hgs & Hr).
  unfold absorb. rewrite (grouplines_nom _ _ (render_session_nom d l_s Es)), (grouplines_flat gs Hgs).
  cbn [fst snd]. rewrite app_nil_r, (absorb_render_session d l_s lite Es Hl). cbn [bind].
  now rewrite Hr.
Qed.

(* ---- str (norm d) = str d ---- *)
Lemma flat_map_filter_ssrc : forall l, flat_map ssrc_lines (filter ssrc_nonempty l) = flat_map ssrc_lines l.
Proof.
  induction l as [|s l IH]; cbn [filter flat_map]; [reflexivity|].
  destruct (ssrc_nonempty s) eqn:E; cbn [flat_map]; [now rewrite IH|].
  rewrite IH. now destruct s as [id [c|] [m|] [ml|] [lb|]].
Qed.

Lemma fb_line_norm : forall pt f, fb_line pt (norm_fb f) = fb_line pt f.
Proof. intros pt [ty [[|c p]|]]; reflexivity. Qed.

Lemma codec_lines_full : forall kind c, wfp_codec kind c -> codec_lines (full kind c) = codec_lines c.
Proof.
  intros kind c ((x & Hm) & Hch & _). unfold codec_lines, full. cbn [k_mime k_clock k_channels k_pt k_fb k_params blank].
  destruct (name_of_some kind x) as (n & Hn). rewrite <- Hm in Hn.
  unfold default_name. rewrite Hn. rewrite Hm in Hn. rewrite (name_of_kind kind x n Hn).
  f_equal. f_equal; [|f_equal].
  - destruct (str_eqb kind s_audio) eqn:Ea.
    + destruct (k_channels c) as [[|[[|[]|]|[|[]|]|]|]|]; reflexivity.
    + now rewrite (Hch eq_refl).
  - rewrite map_map. apply map_ext. intros f. apply fb_line_norm.
  - destruct (params_empty (k_params c)) eqn:E; [reflexivity|]. now rewrite E.
Qed.

(* a value the printer skips when it is falsy: after one round it is `d`, which is falsy too *)
Lemma truthy_norm : forall (v d : option str) (mk : option str -> line), truthy d = false ->
  (if truthy (if truthy v then v else d) then [mk (if truthy v then v else d)] else [])
  = if truthy v then [mk v] else [].
Proof. intros v d mk Hd. destruct (truthy v) eqn:E; [now rewrite E | now rewrite Hd]. Qed.

Lemma render_media_norm : forall lite m, wfp_media m -> render_media (norm_media lite m) = render_media m.
Proof.
  intros lite m (_ & _ & _ & _ & Hcs & _).
  assert (Er : rtcp_lines (norm_media lite m) = rtcp_lines m).
  { unfold rtcp_lines, norm_media. cbn [m_rtcp_port m_rtcp_host]. now destruct (m_rtcp_port m). }
  assert (Ei : ice_lines (norm_media lite m) = ice_lines m).
  { unfold ice_lines, norm_media. cbn [m_ice]. now destruct (m_ice m). }
  unfold render_media. rewrite Er, Ei.
  cbn [norm_media m_kind m_port m_host m_profile m_direction m_msid m_rtcp_mux m_ssrc m_ssrc_group
       m_fmt m_codecs m_exts m_mid m_sctp_cap m_sctpmap m_sctp_port m_cands m_complete m_ice_options].
  rewrite map_map, (concat_r_ext (fun c => codec_lines (full (m_kind m) c)) codec_lines (m_codecs m)).
  - now rewrite flat_map_filter_ssrc, !truthy_norm.
  - intros c Hc. apply codec_lines_full. rewrite Forall_forall in Hcs. now apply Hcs.
Qed.

Lemma any_lite_norm : forall lite ms, any_lite ms = Ok lite -> any_lite (map (norm_media lite) ms) = Ok lite.
Proof.
  intros lite ms H. destruct ms as [|m ms]; [exact H|].
  cbn [map any_lite] in *. unfold norm_media at 1. cbn [m_ice].
  destruct (m_ice m) as [i|]; [|discriminate]. cbn [i_lite].
  destruct lite; [reflexivity|].
  destruct (i_lite i); [discriminate|]. clear m i.
  induction ms as [|m ms IH]; [reflexivity|]. cbn [map any_lite] in *. unfold norm_media at 1. cbn [m_ice].
  destruct (m_ice m) as [i|]; [|discriminate]. cbn [i_lite]. destruct (i_lite i); [discriminate|]. now apply IH.
Qed.

Lemma render_norm : forall d ls lite, wfp d -> render d = Ok ls -> any_lite (d_media d) = Ok lite ->
  render (norm_desc lite d) = Ok ls.
Proof.
  intros d ls lite Hw H Hl. rewrite <- H. unfold render, render_session, norm_desc.
  cbn [d_version d_origin d_name d_time d_host d_group d_msid_semantic d_media].
  rewrite (any_lite_norm lite _ Hl), Hl, map_map.
  rewrite (concat_r_ext (fun m => render_media (norm_media lite m)) render_media (d_media d)).
  - destruct (d_origin d); reflexivity.
  - intros m Hm. apply render_media_norm. unfold wfp in Hw. rewrite Forall_forall in Hw. now apply Hw.
Qed.

Lemma render_any_lite : forall d ls, render d = Ok ls -> exists lite, any_lite (d_media d) = Ok lite.
Proof.
  intros d ls H. unfold render, render_session in H.
  apply bind_ok in H as (l_s & Es & _). apply bind_ok in Es as (lh & _ & Es). apply bind_ok in Es as (lite & El & _).
  now exists lite.
Qed.

Lemma render_defined : forall d lite, any_lite (d_media d) = Ok lite -> opt_addr_ok (d_host d) = true ->
  (forall m, In m (d_media d) -> exists l, render_media m = Ok l) -> exists ls, render d = Ok ls.
Proof.
  intros d lite Hl Hh Hm. unfold render, render_session. rewrite (addr_lines_defined _ _ Hh), Hl. cbn [bind].
  destruct (concat_r_defined render_media (d_media d) Hm) as (lm & ->). cbn [bind]. eauto.
Qed.

(* ---- every description the parser returns satisfies wfp: invariants of the two loops ---- *)
Definition inv1 (kind : str) (fmt : list fmt_item) (t : mstate) : Prop :=
  m_kind (t_m t) = kind /\ m_fmt (t_m t) = fmt /\
  NoDup (map s_id (m_ssrc (t_m t))) /\ NoDup (map k_pt (m_codecs (t_m t))) /\
  Forall (wfp_codec kind) (m_codecs (t_m t)) /\ NoDup (map fst (m_sctpmap (t_m t))).

Lemma mem_z_false : forall x l, mem_z x l = false -> ~ In x l.
Proof.
  induction l as [|y l IH]; intros H; cbn [mem_z In] in *; [tauto|].
  apply orb_false_iff in H as [H1 H2]. apply Z.eqb_neq in H1. intros [E|E]; [congruence|now apply IH].
Qed.

Lemma ssrc_upd_nodup : forall l id a v, NoDup (map s_id l) -> NoDup (map s_id (ssrc_upd l id a v)).
Proof.
  intros l id a v H. rewrite ssrc_upd_ids. destruct (mem_z id (map s_id l)) eqn:E; [exact H|].
  apply NoDup_snoc; [exact H|]. now apply mem_z_false.
Qed.

(* a line that leaves kind, formats, sources, codecs and sctpmap alone gives a state whose invariant
   is the old one up to conversion *)
Lemma step1_inv : forall kind fmt t l t', inv1 kind fmt t -> step1 t l = Ok t' -> inv1 kind fmt t'.
Proof.
  intros kind fmt t l t' Hi H.
  destruct l; cbn [step1] in H; try (injection H as <-; exact Hi).
  - (* Lssrc_group *)
    destruct g; injection H as <-; exact Hi.
  - (* Lssrc *)
    injection H as <-. destruct Hi as (Hk & Hf & Hs & Hp & Hc & Hm). repeat split; try assumption.
    now apply ssrc_upd_nodup.
  - (* Lrtpmap *)
    apply bind_ok in H as (ch' & Ech & H).
    destruct (has_pt (m_codecs (t_m t)) pt) eqn:Ept; injection H as <-; [exact Hi|].
    destruct Hi as (Hk & Hf & Hs & Hp & Hc & Hm). repeat split; try assumption; cbn [upd_m set_codecs t_m m_codecs].
    + rewrite map_app. apply NoDup_snoc; [exact Hp|]. now apply has_pt_false.
    + apply Forall_app. split; [exact Hc|]. constructor; [|constructor].
      rewrite Hk in *. split; [cbn [k_mime]; eauto|]. split; [|constructor].
      intros Ea. rewrite Ea in Ech. now injection Ech as <-.
  - (* Lsctpmap *)
    injection H as <-. destruct Hi as (Hk & Hf & Hs & Hp & Hc & Hm). repeat split; try assumption.
    now apply (dset_nodup _ _ Z.eqb Z.eqb_eq).
  - (* Lcandidate *)
    apply bind_ok in H as (c & _ & H). injection H as <-. exact Hi.
  - (* Lsetup *)
    apply bind_ok in H as (c & _ & H). injection H as <-. exact Hi.
  - (* Lerr1 *)
    destruct e; discriminate.
Qed.

Definition inv2 (kind : str) (pts : list Z) (cs : list codec) : Prop :=
  map k_pt cs = pts /\ Forall (wfp_codec kind) cs.

Lemma set_params_inv : forall kind pt p cs pts cs', inv2 kind pts cs -> NoDup (map fst p) ->
  set_params cs pt p = Some cs' -> inv2 kind pts cs'.
Proof.
  intros kind pt p. induction cs as [|c cs IH]; intros pts cs' (<- & Hc) Hp H; cbn [set_params] in H; [discriminate|].
  inversion Hc as [|? ? Hc1 Hc2]; subst.
  destruct (Z.eqb (k_pt c) pt).
  - injection H as <-. split; [reflexivity|]. constructor; [|exact Hc2].
    destruct Hc1 as (H1 & H2 & _). now repeat split.
  - destruct (set_params cs pt p) as [r|]; [|discriminate]. injection H as <-.
    destruct (IH _ r (conj eq_refl Hc2) Hp eq_refl) as [E1 E2]. split; [cbn [map]; now rewrite E1|now constructor].
Qed.

Lemma add_fb_inv : forall kind t ty cs pts cs', inv2 kind pts cs -> rmap (add_fb t ty) cs = Ok cs' -> inv2 kind pts cs'.
Proof.
  intros kind t ty. induction cs as [|c cs IH]; intros pts cs' (<- & Hc) H; cbn [rmap] in H.
  - injection H as <-. now split.
  - inversion Hc as [|? ? Hc1 Hc2]; subst.
    apply bind_ok in H as (c' & Ec & H). apply bind_ok in H as (r & Er & H). injection H as <-.
    destruct (IH _ r (conj eq_refl Hc2) Er) as [E1 E2].
    assert (k_pt c' = k_pt c /\ wfp_codec kind c') as [Ep Ew].
    { unfold add_fb in Ec. destruct (fb_matches t (k_pt c)); [|injection Ec as <-; auto].
      destruct ty; [|discriminate]. injection Ec as <-. now split. }
    split; [cbn [map]; now rewrite Ep, E1|now constructor].
Qed.

Lemma step2_inv : forall kind pts cs l cs', inv2 kind pts cs -> step2 cs l = Ok cs' -> inv2 kind pts cs'.
Proof.
  intros kind pts cs l cs' Hi H.
  destruct l; cbn [step2] in H; try (injection H as <-; exact Hi).
  - (* Lrtcp_fb *)
    exact (add_fb_inv kind t ty cs pts cs' Hi H).
  - (* Lfmtp *)
    destruct (has_pt cs pt); [|discriminate]. destruct ps as [l|]; [|discriminate].
    destruct (set_params cs pt (params_from l)) as [r|] eqn:E; [|discriminate]. injection H as <-.
    apply (set_params_inv kind pt (params_from l) cs pts r Hi); [|exact E].
    unfold params_from. apply (fold_dset_keys_nodup _ _ str_eqb str_eqb_iff). constructor.
  - (* Lerr2 *)
    destruct e; discriminate.
Qed.

Lemma absorb_media_wfp : forall x g m, absorb_media x g = Ok m -> wfp_media m.
Proof.
  intros x [h body] m H. unfold absorb_media in H. cbn [fst snd] in H.
  destruct h; try discriminate; [|destruct e; discriminate].
  apply bind_ok in H as ([] & Echk & H). apply bind_ok in H as (t & E1 & H). apply bind_ok in H as (cs & E2 & H).
  injection H as <-.
  assert (I1 : inv1 kind fmt t).
  { apply (rfold_inv step1 (inv1 kind fmt)) with (3 := E1); [intros a y a'; apply step1_inv|].
    repeat split; constructor. }
  destruct I1 as (Hk & Hf & Hs & Hp & Hc & Hm).
  assert (I2 : inv2 kind (map k_pt (m_codecs (t_m t))) cs).
  { apply (rfold_inv step2 (inv2 kind (map k_pt (m_codecs (t_m t))))) with (3 := E2); [intros a y a'; apply step2_inv|].
    split; [reflexivity|exact Hc]. }
  destruct I2 as (Hp2 & Hc2).
  assert (Hfmt : fmt <> [] /\ (is_av kind = true -> fmt_all_int fmt = true /\ fmt_pts_ok fmt = true)).
  { destruct fmt as [|f fmt']; [discriminate|]. split; [discriminate|]. intros Hav. rewrite Hav in Echk.
    destruct (fmt_all_int (f :: fmt')); [|discriminate]. destruct (fmt_pts_ok (f :: fmt')); [auto|discriminate]. }
  unfold wfp_media. cbn [set_dtls_ice set_codecs m_fmt m_kind m_ssrc m_codecs m_sctpmap].
  rewrite Hk, Hf, Hp2. tauto.
Qed.

Lemma absorb_wfp : forall t d, absorb t = Ok d -> wfp d.
Proof.
  intros t d H. unfold absorb in H. destruct (grouplines t) as [s ms].
  apply bind_ok in H as (x & _ & H). apply bind_ok in H as (media & Em & H). injection H as <-.
  unfold wfp. cbn [d_media]. eapply rmap_forall; [|exact Em].
  intros g m Hm. eapply absorb_media_wfp. exact Hm.
Qed.
