(* Second loop of SessionDescription.parse on rendered codec lines, and the
   composition: parsing what MediaDescription.__str__ wrote. *)
From Coq Require Import ZArith List Bool Lia.
From AV Require Import Lib.Sx Model.Sdp Proof.SdpP1 Proof.SdpP2.
Import ListNotations.
Local Open Scope Z_scope.

(* lines the second loop looks at *)
Definition is_p2 (l : line) : bool :=
  match l with Lfmtp _ _ | Lrtcp_fb _ _ | Lerr2 _ => true | _ => false end.

Definition plain (l : line) : bool := negb (is_m l) && negb (is_p2 l).

Lemma step2_skip : forall l cs, is_p2 l = false -> step2 cs l = Ok cs.
Proof. intros l cs H. destruct l; try reflexivity; discriminate. Qed.

Lemma p2_skip : forall l cs, forallb plain l = true -> rfold step2 l cs = Ok cs.
Proof.
  intros l cs H. apply rfold_noop. apply Forall_forall. intros x Hx a.
  apply step2_skip. rewrite forallb_forall in H. specialize (H x Hx). unfold plain in H.
  apply andb_true_iff in H as [_ H]. now apply negb_true_iff in H.
Qed.

(* no line opens a section *)
Definition nom (l : list line) : bool := forallb (fun y => negb (is_m y)) l.

Lemma nom_app : forall a b, nom (a ++ b) = nom a && nom b.
Proof. intros. apply forallb_app. Qed.

Lemma plain_nom : forall l, forallb plain l = true -> nom l = true.
Proof.
  intros l H. unfold nom. rewrite forallb_forall in *. intros x Hx. specialize (H x Hx). unfold plain in H.
  now apply andb_true_iff in H as [H _].
Qed.

Lemma ssrc_lines_plain : forall l, forallb plain (flat_map ssrc_lines l) = true.
Proof.
  induction l as [|s l IH]; cbn [flat_map]; [reflexivity|]. rewrite forallb_app, IH. unfold ssrc_lines.
  now rewrite !forallb_app, !forallb_opt_line.
Qed.

Definition with_fb (c : codec) (fb : list feedback) : codec :=
  mkCodec (k_mime c) (k_clock c) (k_channels c) (k_pt c) fb (k_params c).
Definition with_params (c : codec) (p : params) : codec :=
  mkCodec (k_mime c) (k_clock c) (k_channels c) (k_pt c) (k_fb c) p.

Lemma add_fb_other : forall pt f l, ~ In pt (map k_pt l) -> rmap (add_fb (FbPt pt) (Some f)) l = Ok l.
Proof.
  intros pt f l H. apply rmap_id. intros c Hc. unfold add_fb, fb_matches.
  destruct (Z.eqb pt (k_pt c)) eqn:E; [|reflexivity].
  apply Z.eqb_eq in E. exfalso. apply H. subst. now apply in_map.
Qed.

Lemma add_fb_mid : forall pt c f done rest, k_pt c = pt ->
  ~ In pt (map k_pt done) -> ~ In pt (map k_pt rest) ->
  rmap (add_fb (FbPt pt) (Some f)) (done ++ c :: rest) = Ok (done ++ with_fb c (k_fb c ++ [f]) :: rest).
Proof.
  intros pt c f done rest <- H1 H2. rewrite rmap_app, add_fb_other by exact H1. cbn [bind rmap].
  unfold add_fb at 1. cbn [fb_matches]. rewrite Z.eqb_refl. cbn [bind].
  now rewrite add_fb_other by exact H2.
Qed.

Definition norm_fb (f : feedback) : feedback := (fst f, if truthy (snd f) then snd f else None).

Lemma p2_fbs : forall pt fbs c done rest, k_pt c = pt ->
  ~ In pt (map k_pt done) -> ~ In pt (map k_pt rest) ->
  rfold step2 (map (fb_line pt) fbs) (done ++ c :: rest)
  = Ok (done ++ with_fb c (k_fb c ++ map norm_fb fbs) :: rest).
Proof.
  intros pt. induction fbs as [|f fbs IH]; intros c done rest Hc H1 H2; cbn [map rfold].
  - rewrite app_nil_r. now destruct c.
  - unfold fb_line at 1. cbn [step2]. rewrite (add_fb_mid pt c _ done rest Hc H1 H2). cbn [bind].
    rewrite IH by assumption. cbn [with_fb k_fb]. now rewrite <- app_assoc.
Qed.

Lemma set_params_mid : forall pt c p done rest, k_pt c = pt -> ~ In pt (map k_pt done) ->
  set_params (done ++ c :: rest) pt p = Some (done ++ with_params c p :: rest).
Proof.
  intros pt c p done rest <-. induction done as [|d done IH]; intros H; cbn [app set_params].
  - now rewrite Z.eqb_refl.
  - cbn [map In] in H. destruct (Z.eqb (k_pt d) (k_pt c)) eqn:E.
    + apply Z.eqb_eq in E. exfalso. apply H. now left.
    + rewrite IH; [reflexivity|]. intro. apply H. now right.
Qed.

Definition full (kind : str) (c : codec) : codec :=
  let b := blank kind c in
  mkCodec (k_mime b) (k_clock b) (k_channels b) (k_pt b) (map norm_fb (k_fb c))
          (if params_empty (k_params c) then [] else k_params c).

Lemma params_from_nodup : forall p, NoDup (map fst p) -> params_from p = p.
Proof. intros p H. exact (fold_dset_nodup _ _ str_eqb str_eqb_iff p [] H). Qed.

(* the lines of one codec find its blank entry and complete it *)
Lemma p2_codec_one : forall kind c l done rest, codec_lines c = Ok l ->
  NoDup (map fst (k_params c)) ->
  ~ In (k_pt c) (map k_pt done) -> ~ In (k_pt c) (map k_pt rest) ->
  rfold step2 l (done ++ blank kind c :: rest) = Ok (done ++ full kind c :: rest).
Proof.
  intros kind c l done rest H Hnd H1 H2. unfold codec_lines in H.
  destruct (name_of (k_mime c)) as [n|] eqn:En; [|discriminate]. injection H as <-.
  cbn [rfold step2 bind]. apply rfold_seq with (done ++ with_fb (blank kind c) (map norm_fb (k_fb c)) :: rest).
  - now apply (p2_fbs (k_pt c) (k_fb c) (blank kind c)).
  - unfold full. destruct (params_empty (k_params c)); [reflexivity|].
    cbn [rfold step2]. rewrite has_pt_true by (rewrite map_app, in_app_iff; right; now left).
    unfold params_to. rewrite (params_from_nodup _ Hnd), (set_params_mid (k_pt c)) by (reflexivity || assumption).
    reflexivity.
Qed.

Lemma p2_codecs : forall kind cs l done, concat_r (map codec_lines cs) = Ok l ->
  NoDup (map k_pt done ++ map k_pt cs) ->
  Forall (fun c => NoDup (map fst (k_params c))) cs ->
  rfold step2 l (done ++ map (blank kind) cs) = Ok (done ++ map (full kind) cs).
Proof.
  intros kind. induction cs as [|c cs IH]; intros l done H Hnd Hp.
  - now injection H as <-.
  - apply concat_r_cons_ok in H as (l1 & l2 & H1 & H2 & ->).
    inversion Hp as [|? ? Hc Hcs]; subst. cbn [map] in *.
    rewrite rfold_app.
    rewrite (p2_codec_one kind c l1 done (map (blank kind) cs) H1 Hc).
    + cbn [bind].
      replace (done ++ full kind c :: map (blank kind) cs) with ((done ++ [full kind c]) ++ map (blank kind) cs)
        by now rewrite <- app_assoc.
      rewrite (IH l2 (done ++ [full kind c]) H2); [now rewrite <- app_assoc| |exact Hcs].
      rewrite map_app. cbn [map full blank k_pt]. now rewrite <- app_assoc.
    + apply NoDup_remove_2 in Hnd. intro. apply Hnd. rewrite in_app_iff. now left.
    + apply NoDup_remove_2 in Hnd. intro Hin. apply Hnd. rewrite in_app_iff. right.
      rewrite map_map in Hin. cbn [blank k_pt] in Hin. exact Hin.
Qed.

(* what every parsed description satisfies *)
Definition wfp_codec (kind : str) (c : codec) : Prop :=
  (exists x, k_mime c = kind ++ SLASH :: x) /\
  (str_eqb kind s_audio = false -> k_channels c = None) /\
  NoDup (map fst (k_params c)).

Definition wfp_media (m : media) : Prop :=
  m_fmt m <> [] /\
  (is_av (m_kind m) = true -> fmt_all_int (m_fmt m) = true /\ fmt_pts_ok (m_fmt m) = true) /\
  NoDup (map s_id (m_ssrc m)) /\
  NoDup (map k_pt (m_codecs m)) /\
  Forall (wfp_codec (m_kind m)) (m_codecs m) /\
  NoDup (map fst (m_sctpmap m)).

(* what one round of str() then parse() turns a media description into *)
Definition norm_media (lite : bool) (m : media) : media :=
  mkMedia (m_kind m) (m_port m) (m_host m) (m_profile m) (m_direction m)
          (if truthy (m_msid m) then m_msid m else None)
          (m_rtcp_port m) (match m_rtcp_port m with Some _ => m_rtcp_host m | None => None end) (m_rtcp_mux m)
          (filter ssrc_nonempty (m_ssrc m)) (m_ssrc_group m) (m_fmt m)
          (map (full (m_kind m)) (m_codecs m)) (m_exts m)
          (if truthy (m_mid m) then m_mid m else Some [])
          (m_sctp_cap m) (m_sctpmap m) (m_sctp_port m) (m_dtls m)
          (match m_ice m with Some i => Some (mkIce (i_ufrag i) (i_pwd i) lite) | None => None end)
          (m_cands m) (m_complete m) (m_ice_options m).

(* the lines of a media section: before, of, and after the codecs *)
Definition pre_lines (m : media) : list line :=
  opt_line (m_host m) Lc
  ++ opt_line (m_direction m) Ldir
  ++ map (fun e => Lextmap (fst e) (snd e)) (m_exts m)
  ++ (if truthy (m_mid m) then [Lmid (m_mid m)] else [])
  ++ (if truthy (m_msid m) then [Lmsid (m_msid m)] else [])
  ++ opt_line (m_rtcp_port m) (fun p => Lrtcp p (m_rtcp_host m))
  ++ (if m_rtcp_mux m then [Lrtcp_mux] else [])
  ++ map (fun g => Lssrc_group (Some g)) (m_ssrc_group m)
  ++ flat_map ssrc_lines (m_ssrc m).

Definition post_lines (m : media) (l_ice l_dtls : list line) : list line :=
  map (fun e => Lsctpmap (fst e) (snd e)) (m_sctpmap m)
  ++ opt_line (m_sctp_port m) Lsctp_port
  ++ opt_line (m_sctp_cap m) Lmax_msg
  ++ map (fun c => Lcandidate (cand_to_tokens c)) (m_cands m)
  ++ (if m_complete m then [Lend_of_candidates] else [])
  ++ l_ice
  ++ opt_line (m_ice_options m) (fun s => Lice_options (Some s))
  ++ l_dtls.

Lemma render_media_ok : forall m l, render_media m = Ok l ->
  exists l_codecs l_ice l_dtls,
    concat_r (map codec_lines (m_codecs m)) = Ok l_codecs /\ ice_lines m = Ok l_ice /\ dtls_lines m = Ok l_dtls /\
    l = Lm (m_kind m) (m_port m) (m_profile m) (m_fmt m) :: pre_lines m ++ l_codecs ++ post_lines m l_ice l_dtls.
Proof.
  intros m l H. unfold render_media in H.
  apply bind_ok in H as (l_host & E_host & H). apply bind_ok in H as (l_rtcp & E_rtcp & H).
  apply bind_ok in H as (l_codecs & E_codecs & H). apply bind_ok in H as (l_ice & E_ice & H).
  apply bind_ok in H as (l_dtls & E_dtls & H). injection H as <-.
  exists l_codecs, l_ice, l_dtls. repeat split; try assumption.
  rewrite (addr_lines_ok _ _ _ E_host), (rtcp_lines_ok _ _ E_rtcp). unfold pre_lines, post_lines.
  now rewrite <- !app_assoc.
Qed.

Lemma render_media_defined : forall m,
  opt_addr_ok (m_host m) = true -> opt_addr_ok (m_rtcp_host m) = true ->
  (forall c, In c (m_codecs m) -> exists l, codec_lines c = Ok l) ->
  is_some (m_ice m) = true ->
  match m_dtls m with Some (_, r) => role_known r | None => true end = true ->
  exists l, render_media m = Ok l.
Proof.
  intros m Hh Hr Hc Hi Hd. unfold render_media. rewrite (addr_lines_defined _ _ Hh).
  destruct (rtcp_lines_defined m Hr) as (l_rtcp & ->).
  destruct (concat_r_defined codec_lines (m_codecs m) Hc) as (l_codecs & ->).
  destruct (dtls_lines_defined m Hd) as (l_dtls & ->).
  unfold ice_lines. destruct (m_ice m); [|discriminate]. cbn [bind]. eauto.
Qed.

Lemma pre_plain : forall m, forallb plain (pre_lines m) = true.
Proof.
  intros m. unfold pre_lines.
  now rewrite !forallb_app, !forallb_opt_line, !forallb_map_all, !forallb_flag, ssrc_lines_plain.
Qed.

Lemma post_plain : forall m l_ice l_dtls, ice_lines m = Ok l_ice -> dtls_lines m = Ok l_dtls ->
  forallb plain (post_lines m l_ice l_dtls) = true.
Proof.
  intros m l_ice l_dtls Ei Ed. destruct (ice_lines_ok m l_ice Ei) as (i & _ & ->).
  assert (Hd : forallb plain l_dtls = true).
  { pose proof (dtls_lines_ok m l_dtls Ed) as Hd. destruct (m_dtls m) as [[fps role]|]; [|now subst].
    destruct Hd as (r & s & _ & _ & ->). now rewrite forallb_app, forallb_map_all. }
  unfold post_lines.
  now rewrite !forallb_app, !forallb_opt_line, !forallb_map_all, !forallb_flag, Hd.
Qed.

Lemma codec_lines_nom : forall cs l, concat_r (map codec_lines cs) = Ok l -> nom l = true.
Proof.
  unfold nom. induction cs as [|c cs IH]; intros l H.
  - now injection H as <-.
  - apply concat_r_cons_ok in H as (l1 & l2 & H1 & H2 & ->).
    rewrite forallb_app, (IH l2 H2).
    unfold codec_lines in H1. destruct (name_of (k_mime c)); [|discriminate]. injection H1 as <-. cbn [forallb is_m negb andb].
    rewrite forallb_app, forallb_map_all by reflexivity.
    now destruct (params_empty (k_params c)).
Qed.

(* the first loop over a rendered section, from the state an m= line starts with under a
   session that sets nothing: each group of lines fills in its own field *)
Lemma first_loop : forall m l_codecs i l_dtls,
  NoDup (map s_id (m_ssrc m)) -> NoDup (map k_pt (m_codecs m)) -> NoDup (map fst (m_sctpmap m)) ->
  concat_r (map codec_lines (m_codecs m)) = Ok l_codecs -> dtls_lines m = Ok l_dtls ->
  rfold step1
    (pre_lines m ++ l_codecs
     ++ post_lines m (opt_line (i_ufrag i) (fun s => Lice_ufrag (Some s)) ++ opt_line (i_pwd i) (fun s => Lice_pwd (Some s)))
                   l_dtls)
    (mkSt (media0 (m_kind m) (m_port m) (m_profile m) (m_fmt m) None) [] None None None)
  = Ok (mkSt (set_dtls_ice (set_codecs (norm_media false m) (map (blank (m_kind m)) (m_codecs m))) None None)
             (match m_dtls m with Some (fps, _) => fps | None => [] end)
             (match m_dtls m with Some (_, r) => r | None => None end)
             (i_ufrag i) (i_pwd i)).
Proof.
  intros m l_codecs i l_dtls Hss Hpt Hsm Ec Ed. unfold pre_lines, post_lines.
  (* one step per group: the fold lemma for its shape, with the field it writes; what the line does to
     the state holds by evaluation, and the field still has the value media0 gave it *)
  eapply rfold_seq.
  { eapply rfold_seq.
    { apply (rfold_opt_line step1 Lc (on_m set_host)); [reflexivity|]. eapply on_m_same; reflexivity. }
    eapply rfold_seq.
    { apply (rfold_opt_line step1 Ldir (on_m set_direction)); [reflexivity|]. eapply on_m_same; reflexivity. }
    eapply rfold_seq.
    { apply (rfold_map_append step1 _ (on_m set_exts)); [intros a w []; reflexivity|]. eapply on_m_same; reflexivity. }
    eapply rfold_seq.
    { apply (rfold_flag step1 _ (fun b => on_m set_mid (if b then m_mid m else Some []))); [reflexivity|].
      eapply on_m_same; reflexivity. }
    eapply rfold_seq.
    { apply (rfold_flag step1 _ (fun b => on_m set_msid (if b then m_msid m else None))); [reflexivity|].
      eapply on_m_same; reflexivity. }
    eapply rfold_seq.
    { apply (rfold_opt_line step1 _ (fun o => on_m (fun m' v => set_rtcp m' (fst v) (snd v))
                                                   (o, match o with Some _ => m_rtcp_host m | None => None end))).
      - (* unfolded first: step1 binds `t_m t` by a let, across which comparing the nested states is slow *)
        intros p. cbn [step1]. now destruct (m_rtcp_host m).
      - apply (on_m_same _ (fun m' => (m_rtcp_port m', m_rtcp_host m'))); reflexivity. }
    eapply rfold_seq.
    { apply (rfold_flag step1 _ (on_m set_mux)); [reflexivity|]. eapply on_m_same; reflexivity. }
    eapply rfold_seq.
    { apply (rfold_map_append step1 _ (on_m set_ssrc_group)); [reflexivity|]. eapply on_m_same; reflexivity. }
    apply p1_ssrc; [exact Hss|reflexivity]. }
  eapply rfold_seq; [apply (p1_codecs (m_codecs m) l_codecs (m_kind m) _ Ec Hpt); reflexivity|].
  eapply rfold_seq.
  { apply (rfold_map_fold step1 _ (on_m set_sctpmap) (fun d e => dset Z.eqb d (fst e) (snd e)) _ []); [reflexivity|].
    eapply on_m_same; reflexivity. }
  rewrite (fold_dset_nodup _ _ Z.eqb Z.eqb_eq _ [] Hsm). cbn [app].
  eapply rfold_seq.
  { apply (rfold_opt_line step1 _ (on_m set_sctp_port)); [reflexivity|]. eapply on_m_same; reflexivity. }
  eapply rfold_seq.
  { apply (rfold_opt_line step1 _ (on_m set_sctp_cap)); [reflexivity|]. eapply on_m_same; reflexivity. }
  eapply rfold_seq.
  { apply (rfold_map_append step1 _ (on_m set_cands)); [|eapply on_m_same; reflexivity].
    intros a w c. cbn [step1]. now rewrite cand_roundtrip. }
  eapply rfold_seq.
  { apply (rfold_flag step1 _ (on_m set_complete)); [reflexivity|]. eapply on_m_same; reflexivity. }
  eapply rfold_seq.
  { eapply rfold_seq.
    { apply (rfold_opt_line step1 _ st_ufrag); [reflexivity|]. apply (put_same _ t_ufrag); [now intros []|reflexivity]. }
    apply (rfold_opt_line step1 _ st_pwd); [reflexivity|]. apply (put_same _ t_pwd); [now intros []|reflexivity]. }
  eapply rfold_seq.
  { apply (rfold_opt_line step1 _ (on_m set_ice_options)); [reflexivity|]. eapply on_m_same; reflexivity. }
  rewrite (p1_dtls m l_dtls _ Ed) by reflexivity.
  now destruct (m_dtls m) as [[fps role]|].
Qed.

Lemma second_loop : forall m l_codecs l_ice l_dtls,
  NoDup (map k_pt (m_codecs m)) -> Forall (wfp_codec (m_kind m)) (m_codecs m) ->
  concat_r (map codec_lines (m_codecs m)) = Ok l_codecs -> ice_lines m = Ok l_ice -> dtls_lines m = Ok l_dtls ->
  rfold step2 (pre_lines m ++ l_codecs ++ post_lines m l_ice l_dtls) (map (blank (m_kind m)) (m_codecs m))
  = Ok (map (full (m_kind m)) (m_codecs m)).
Proof.
  intros m l_codecs l_ice l_dtls Hpt Hcs Ec Ei Ed.
  apply rfold_seq with (map (blank (m_kind m)) (m_codecs m)); [apply p2_skip, pre_plain|].
  apply rfold_seq with (map (full (m_kind m)) (m_codecs m)); [|now apply p2_skip, post_plain].
  apply (p2_codecs (m_kind m) (m_codecs m) l_codecs [] Ec Hpt).
  eapply Forall_impl; [|exact Hcs]. now intros c (_ & _ & Hc).
Qed.

(* parsing what MediaDescription.__str__ wrote, under a session that set neither credentials nor role *)
Lemma absorb_render_media : forall v o n t h g ms lite m l,
  wfp_media m -> render_media m = Ok l ->
  exists body,
    l = Lm (m_kind m) (m_port m) (m_profile m) (m_fmt m) :: body /\
    nom body = true /\
    absorb_media (mkSess v o n t h g ms [] None lite None None None)
                 (Lm (m_kind m) (m_port m) (m_profile m) (m_fmt m), body) = Ok (norm_media lite m).
Proof.
  intros v o n t h g ms lite m l (Hfmt & Hav & Hss & Hpt & Hcs & Hsm) H.
  destruct (render_media_ok m l H) as (l_codecs & l_ice & l_dtls & Ec & Ei & Ed & ->).
  eexists. split; [reflexivity|]. split.
  { now rewrite !nom_app, (plain_nom _ (pre_plain m)), (codec_lines_nom _ _ Ec), (plain_nom _ (post_plain m _ _ Ei Ed)). }
  unfold absorb_media. cbn [fst snd x_fps x_role x_options x_pwd x_ufrag x_lite].
  eapply bind_seq.
  { destruct (m_fmt m) eqn:Ef; [congruence|]. rewrite <- Ef in *.
    destruct (is_av (m_kind m)); [|reflexivity]. now destruct (Hav eq_refl) as [-> ->]. }
  pose proof (second_loop m l_codecs l_ice l_dtls Hpt Hcs Ec Ei Ed) as L2.
  destruct (ice_lines_ok m l_ice Ei) as (i & Ei' & ->).
  eapply bind_seq; [exact (first_loop m l_codecs i l_dtls Hss Hpt Hsm Ec Ed)|].
  eapply bind_seq; [exact L2|].
  unfold norm_media. rewrite Ei'.
  pose proof (dtls_lines_ok m l_dtls Ed) as Hd. destruct (m_dtls m) as [[fps role]|]; [|reflexivity].
  now destruct Hd as (r & s & -> & _).
Qed.
