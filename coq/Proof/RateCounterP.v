(* Proofs about Model/RateCounter.v (property C15): no call raises, whatever the
   clock does, and while the clock never goes back the ring of 1 ms buckets is
   an exact sliding window. *)
From Coq Require Import ZArith List Bool Lia.
From AV Require Import Lib.Sx Model.RateCounter.
Import ListNotations.
Local Open Scope Z_scope.

Definition sample := (Z * Z)%type.                     (* (arrival time, value) *)

Fixpoint cnt (P : Z -> bool) (l : list sample) : Z :=
  match l with
  | [] => 0
  | s :: l' => (if P (fst s) then 1 else 0) + cnt P l'
  end.

Fixpoint vsum (P : Z -> bool) (l : list sample) : Z :=
  match l with
  | [] => 0
  | s :: l' => (if P (fst s) then snd s else 0) + vsum P l'
  end.

(* time of the first sample (lists are newest first) *)
Fixpoint oldest (l : list sample) : option Z :=
  match l with
  | [] => None
  | s :: l' => match oldest l' with Some f => Some f | None => Some (fst s) end
  end.

(* what a bucket holds of the samples whose time satisfies P *)
Definition tally (P : Z -> bool) (smp : list sample) : bucket := (cnt P smp, vsum P smp).

Lemma tally_ext P Q l : (forall t v, In (t, v) l -> P t = Q t) -> tally P l = tally Q l.
Proof.
  unfold tally. induction l as [|[t v] l IH]; intros H; cbn [cnt vsum fst snd]; [reflexivity|].
  rewrite (H t v) by now left.
  injection (IH (fun t' v' Hin => H t' v' (or_intror Hin))) as -> ->. reflexivity.
Qed.

Lemma tally_none P l : (forall t v, In (t, v) l -> P t = false) -> tally P l = (0, 0).
Proof.
  unfold tally. induction l as [|[t v] l IH]; intros H; cbn [cnt vsum fst snd]; [reflexivity|].
  rewrite (H t v) by now left.
  injection (IH (fun t' v' Hin => H t' v' (or_intror Hin))) as -> ->. reflexivity.
Qed.

Lemma cnt_app P a b : cnt P (a ++ b) = cnt P a + cnt P b.
Proof. induction a as [|x a IH]; cbn [app cnt]; [lia|]. rewrite IH. lia. Qed.

Lemma vsum_app P a b : vsum P (a ++ b) = vsum P a + vsum P b.
Proof. induction a as [|x a IH]; cbn [app vsum]; [lia|]. rewrite IH. lia. Qed.

Lemma tally_app_none P a b : (forall t v, In (t, v) b -> P t = false) -> tally P (a ++ b) = tally P a.
Proof.
  intros H. pose proof (tally_none P b H) as Hb. unfold tally in *. injection Hb as Hc Hv.
  now rewrite cnt_app, vsum_app, Hc, Hv, !Z.add_0_r.
Qed.

Lemma tally_split om l :
  tally (Z.leb (om + 1)) l =
  (fst (tally (Z.leb om) l) - fst (tally (Z.eqb om) l), snd (tally (Z.leb om) l) - snd (tally (Z.eqb om) l)).
Proof.
  unfold tally. cbn [fst snd]. induction l as [|[t v] l IH]; cbn [cnt vsum fst snd]; [reflexivity|].
  injection IH as -> ->.
  destruct (Z.leb_spec (om + 1) t), (Z.leb_spec om t), (Z.eqb_spec om t); f_equal; lia.
Qed.

Lemma cnt_nonneg P l : 0 <= cnt P l.
Proof. induction l as [|s l IH]; cbn [cnt]; [lia|]. destruct (P (fst s)); lia. Qed.

Lemma cnt_zero_all P l : cnt P l = 0 -> forall t v, In (t, v) l -> P t = false.
Proof.
  induction l as [|[t0 v0] l IH]; cbn [cnt fst]; intros H t v Hin; [destruct Hin|].
  pose proof (cnt_nonneg P l). destruct (P t0) eqn:E; [lia|].
  destruct Hin as [Hin|Hin]; [injection Hin as <- <-; exact E|]. apply (IH ltac:(lia) t v Hin).
Qed.

Lemma vsum_bounds P l : (forall t v, In (t, v) l -> 0 <= v) -> 0 <= vsum P l <= vsum (fun _ => true) l.
Proof.
  induction l as [|[t v] l IH]; intros H; cbn [vsum fst snd]; [lia|].
  pose proof (H t v (or_introl eq_refl)). pose proof (IH (fun t' v' Hin => H t' v' (or_intror Hin))).
  destruct (P t); lia.
Qed.

Lemma oldest_cons t v smp :
  oldest ((t, v) :: smp) = match oldest smp with Some f => Some f | None => Some t end.
Proof. reflexivity. Qed.

Lemma oldest_none smp : oldest smp = None -> smp = [].
Proof. destruct smp as [|s smp]; [reflexivity|]. cbn [oldest]. destruct (oldest smp); discriminate. Qed.

Lemma upd_spec {A} (l : list A) n f :
  (n < length l)%nat ->
  exists l', upd l n f = Some l' /\ length l' = length l /\
             forall m, nth_error l' m = if Nat.eqb m n then option_map f (nth_error l n) else nth_error l m.
Proof.
  revert n. induction l as [|x l IH]; intros n Hn; cbn [length] in Hn; [lia|].
  destruct n as [|n]; cbn [upd].
  - exists (f x :: l). split; [reflexivity|]. split; [reflexivity|].
    intros [|m]; reflexivity.
  - destruct (IH n) as (l' & E & Hl & Hnth); [lia|]. rewrite E.
    exists (x :: l'). split; [reflexivity|]. split; [cbn [length]; lia|].
    intros [|m]; cbn [nth_error Nat.eqb]; [reflexivity|]. apply Hnth.
Qed.

Definition slot (w a i : Z) : nat := Z.to_nat ((a + i) mod w).

Lemma slot_lt w a i : 0 < w -> (slot w a i < Z.to_nat w)%nat.
Proof. intros Hw. unfold slot. pose proof (Z.mod_pos_bound (a + i) w Hw). lia. Qed.

Lemma slot_0 w a : 0 <= a < w -> slot w a 0 = Z.to_nat a.
Proof. intros Ha. unfold slot. rewrite Z.add_0_r, Z.mod_small by lia. reflexivity. Qed.

Lemma slot_wrap w a : 0 <= a < w -> slot w a w = Z.to_nat a.
Proof.
  intros Ha. unfold slot. rewrite <- (Z.mul_1_l w) at 1. rewrite Z.mod_add, Z.mod_small by lia. reflexivity.
Qed.

Lemma slot_next w a i : 0 < w -> slot w ((a + 1) mod w) i = slot w a (i + 1).
Proof. intros Hw. unfold slot. rewrite Zplus_mod_idemp_l. do 2 f_equal. lia. Qed.

Lemma slot_inj w a i j : 0 <= i < w -> 0 <= j < w -> slot w a i = slot w a j -> i = j.
Proof.
  unfold slot. intros Hi Hj E. apply Z2Nat.inj in E; [|apply Z.mod_pos_bound; lia..].
  assert (D : (i - j) mod w = 0).
  { replace (i - j) with ((a + i) - (a + j)) by lia.
    rewrite Zminus_mod, E, Z.sub_diag. apply Z.mod_0_l. lia. }
  apply Z.mod_divide in D; [|lia]. destruct D as [k Hk].
  assert (k = 0) by nia. lia.
Qed.

(* the shape of the ring: all a call needs in order not to raise, whatever the clock does *)
Definition Struct (w : Z) (s : rc) : Prop :=
  window_size s = w /\ 0 < w /\ length (buckets s) = Z.to_nat w /\ 0 <= origin_index s < w.

Lemma Struct_init w sc : 0 < w -> Struct w (init w sc).
Proof. intros Hw. unfold Struct. cbn. rewrite repeat_length. lia. Qed.

Lemma Struct_reset w s : Struct w s -> Struct w (reset s).
Proof. intros (<- & Hw & _). exact (Struct_init _ (scale s) Hw). Qed.

Lemma erase_step_eq w s om :
  Struct w s ->
  exists b bs,
    let s' := mkRc bs ((origin_index s + 1) mod w) (Some (om + 1))
                   (fst (total s) - fst b, snd (total s) - snd b) w (scale s) in
    erase_step s om = Ok s' /\ Struct w s' /\
    nth_error (buckets s) (Z.to_nat (origin_index s)) = Some b /\
    forall m, nth_error bs m = if Nat.eqb m (Z.to_nat (origin_index s)) then Some (0, 0)
                               else nth_error (buckets s) m.
Proof.
  intros (Ew & Hw & Hlen & Hoi). unfold erase_step. rewrite Ew.
  destruct (Z.ltb_spec (origin_index s) 0); [lia|].
  destruct (nth_error (buckets s) (Z.to_nat (origin_index s))) as [b|] eqn:En;
    [|apply nth_error_None in En; lia].
  destruct (upd_spec (buckets s) (Z.to_nat (origin_index s)) (fun _ => (0, 0))) as (bs & E & Hl & Hnth); [lia|].
  rewrite E. destruct (Z.eqb_spec w 0); [lia|].
  exists b, bs. split; [reflexivity|]. split; [|split; [reflexivity|]].
  - pose proof (Z.mod_pos_bound (origin_index s + 1) w Hw). unfold Struct. cbn. repeat split; lia.
  - intros m. rewrite Hnth, En. reflexivity.
Qed.

Lemma add_tail_eq w s om value now :
  Struct w s -> origin_ms s = Some om ->
  exists bs,
    let s' := mkRc bs (origin_index s) (Some om) (fst (total s) + 1, snd (total s) + value) w (scale s) in
    add_tail s value now = Ok s' /\ Struct w s' /\
    forall m, nth_error bs m =
              if Nat.eqb m (slot w (origin_index s) (now - om))
              then option_map (fun b => (fst b + 1, snd b + value))
                              (nth_error (buckets s) (slot w (origin_index s) (now - om)))
              else nth_error (buckets s) m.
Proof.
  intros (Ew & Hw & Hlen & Hoi) Hom. unfold add_tail. rewrite Hom, Ew.
  destruct (Z.eqb_spec w 0); [lia|].
  replace (origin_index s + now - om) with (origin_index s + (now - om)) by lia.
  pose proof (Z.mod_pos_bound (origin_index s + (now - om)) w Hw).
  destruct (Z.ltb_spec ((origin_index s + (now - om)) mod w) 0); [lia|].
  fold (slot w (origin_index s) (now - om)).
  destruct (upd_spec (buckets s) (slot w (origin_index s) (now - om)) (fun b => (fst b + 1, snd b + value)))
    as (bs & E & Hl & Hnth); [rewrite Hlen; apply slot_lt; exact Hw|].
  rewrite E. exists bs. split; [reflexivity|]. split; [|exact Hnth].
  unfold Struct. cbn. repeat split; lia.
Qed.

Lemma erase_loop_inv (P : rc -> Z -> Prop) :
  (forall s om, P s om -> origin_ms s = Some om /\ exists s', erase_step s om = Ok s' /\ P s' (om + 1)) ->
  forall fuel s om no, P s om -> (Z.to_nat (no - om) <= fuel)%nat ->
  exists s', erase_loop fuel s no = Ok s' /\ P s' (Z.max om no).
Proof.
  intros Hstep. induction fuel as [|fuel IH]; intros s om no HP Hf;
    destruct (Hstep s om HP) as (Hom & s1 & E1 & P1); cbn [erase_loop]; rewrite Hom;
    (destruct (Z.ltb_spec om no); [|exists s; rewrite Z.max_l by lia; auto]).
  - lia.
  - rewrite E1. replace (Z.max om no) with (Z.max (om + 1) no) by lia. apply IH; [exact P1|lia].
Qed.

Lemma erase_old_inv (P : rc -> Z -> Prop) :
  (forall s om, P s om -> origin_ms s = Some om /\ exists s', erase_step s om = Ok s' /\ P s' (om + 1)) ->
  forall w s om now, window_size s = w -> P s om ->
  exists s', erase_old s now = Ok s' /\ P s' (Z.max om (now - w + 1)).
Proof.
  intros Hstep w s om now <- HP. unfold erase_old, erase_fuel. rewrite (proj1 (Hstep s om HP)).
  apply (erase_loop_inv P Hstep); [exact HP|lia].
Qed.

Lemma erase_old_struct w s om now :
  Struct w s -> origin_ms s = Some om ->
  exists s', erase_old s now = Ok s' /\ Struct w s' /\ origin_ms s' = Some (Z.max om (now - w + 1)).
Proof.
  intros HS Hom. apply (erase_old_inv (fun s om => Struct w s /\ origin_ms s = Some om)); [|apply HS|auto].
  clear. intros s om [HS Hom]. split; [exact Hom|].
  destruct (erase_step_eq w s om HS) as (b & bs & E & HS' & _). eauto.
Qed.

Lemma add_struct w s value now : Struct w s -> exists s', add s value now = Ok s' /\ Struct w s'.
Proof.
  intros HS. unfold add. destruct (origin_ms s) as [om|] eqn:Hom.
  - destruct (erase_old_struct w s om now HS Hom) as (s1 & E1 & S1 & O1). rewrite E1.
    destruct (add_tail_eq w s1 _ value now S1 O1) as (bs & E & HS' & _). eauto.
  - destruct (add_tail_eq w (mkRc (buckets s) (origin_index s) (Some now) (total s) (window_size s) (scale s))
                now value now HS eq_refl) as (bs & E & HS' & _). eauto.
Qed.

Lemma rate_struct w s now : Struct w s -> exists s' r, rate s now = Ok (s', r) /\ Struct w s'.
Proof.
  intros HS. unfold rate. destruct (origin_ms s) as [om|] eqn:Hom; [|eauto].
  destruct (erase_old_struct w s om now HS Hom) as (s1 & E1 & S1 & O1). rewrite E1, O1.
  destruct (_ && _); eauto.
Qed.

(* RateCounter: no call history raises, whatever the clock does *)
Theorem counter_never_raises : forall w sc ops,
  0 < w -> exists s outs, run (init w sc) ops = (s, outs, 0).
Proof.
  intros w sc ops Hw. generalize (init w sc), (Struct_init w sc Hw).
  induction ops as [|o ops IH]; intros s HS; cbn [run]; [eauto|].
  assert (H1 : exists s1 x, step s o = Ok (s1, x) /\ Struct w s1).
  { destruct o as [v t|t|]; cbn [step].
    - destruct (add_struct w s v t HS) as (s1 & -> & S1). eauto.
    - destruct (rate_struct w s t HS) as (s1 & r & -> & S1). eauto.
    - eauto using Struct_reset. }
  destruct H1 as (s1 & x & -> & S1). destruct (IH s1 S1) as (s2 & outs & ->). eauto.
Qed.

(* origin_ms = Some om; the bucket i places after origin_index holds exactly the
   samples of millisecond om + i; the total is exactly the samples from om on *)
Definition R (w sc : Z) (s : rc) (smp : list sample) (om : Z) : Prop :=
  Struct w s /\ scale s = sc /\ origin_ms s = Some om /\
  (forall i, 0 <= i < w ->
     nth_error (buckets s) (slot w (origin_index s) i) = Some (tally (Z.eqb (om + i)) smp)) /\
  total s = tally (Z.leb om) smp /\
  (forall t v, In (t, v) smp -> t <= om + w - 1).

Lemma erase_step_ok w sc s smp om :
  R w sc s smp om -> exists s', erase_step s om = Ok s' /\ R w sc s' smp (om + 1).
Proof.
  intros (HS & Hsc & Hom & Hb & Htot & Hs).
  destruct (erase_step_eq w s om HS) as (b & bs & E & HS' & H0 & Hnth).
  destruct HS as (_ & Hw & _ & Hoi).
  rewrite <- (slot_0 w) in H0 by exact Hoi. rewrite (Hb 0), Z.add_0_r in H0 by lia. injection H0 as <-.
  eexists. split; [exact E|]. split; [exact HS'|]. cbn [scale origin_ms buckets origin_index total].
  split; [exact Hsc|]. split; [reflexivity|]. split; [|split].
  - intros i Hi. rewrite slot_next, Hnth by exact Hw.
    destruct (Z.eq_dec (i + 1) w) as [e|ne].
    + (* the bucket just cleared: no sample is as new as om + w *)
      rewrite e, slot_wrap, Nat.eqb_refl by exact Hoi. symmetry. f_equal. apply tally_none.
      intros t v Hin. apply Hs in Hin. apply Z.eqb_neq. lia.
    + destruct (Nat.eqb_spec (slot w (origin_index s) (i + 1)) (Z.to_nat (origin_index s))) as [En|_].
      * rewrite <- (slot_0 w) in En by exact Hoi. apply slot_inj in En; lia.
      * rewrite (Hb (i + 1)) by lia. do 3 f_equal. lia.
  - rewrite Htot. symmetry. apply tally_split.
  - intros t v Hin. apply Hs in Hin. lia.
Qed.

Lemma erase_old_ok w sc s smp om now :
  R w sc s smp om -> exists s', erase_old s now = Ok s' /\ R w sc s' smp (Z.max om (now - w + 1)).
Proof.
  intros HR. apply (erase_old_inv (fun s om => R w sc s smp om)); [|apply HR|exact HR].
  clear. intros s om HR. split; [apply HR|]. apply erase_step_ok. exact HR.
Qed.

Lemma add_tail_ok w sc s smp om value now :
  R w sc s smp om -> om <= now <= om + w - 1 ->
  exists s', add_tail s value now = Ok s' /\ R w sc s' ((now, value) :: smp) om.
Proof.
  intros (HS & Hsc & Hom & Hb & Htot & Hs) Hnow.
  destruct (add_tail_eq w s om value now HS Hom) as (bs & E & HS' & Hnth).
  eexists. split; [exact E|]. split; [exact HS'|]. cbn [scale origin_ms buckets origin_index total].
  split; [exact Hsc|]. split; [reflexivity|]. split; [|split].
  - intros j Hj. rewrite Hnth, !Hb by lia. unfold tally. cbn [option_map cnt vsum fst snd].
    destruct (Nat.eqb_spec (slot w (origin_index s) j) (slot w (origin_index s) (now - om))) as [En|Nn].
    + apply slot_inj in En; [subst j|lia..].
      destruct (Z.eqb_spec (om + (now - om)) now); [|lia]. do 2 f_equal; lia.
    + destruct (Z.eqb_spec (om + j) now) as [e|_]; [|reflexivity].
      exfalso. apply Nn. f_equal. lia.
  - rewrite Htot. unfold tally. cbn [cnt vsum fst snd]. destruct (Z.leb_spec om now); [|lia]. f_equal; lia.
  - intros t v [Hin|Hin]; [injection Hin as <- <-; lia|]. now apply Hs in Hin.
Qed.

(* smp: the samples since the last reset, first sample at f; last: the time l of
   the latest add/rate call.  The origin is f until the window has moved past it. *)
Definition Inv (w sc : Z) (s : rc) (smp : list sample) (last : option Z) : Prop :=
  match oldest smp with
  | None => s = init w sc /\ 0 < w
  | Some f => exists l, last = Some l /\ R w sc s smp (Z.max f (l - w + 1)) /\
                        f <= l /\ forall t v, In (t, v) smp -> f <= t <= l
  end.

Definition le_opt (last : option Z) (t : Z) : Prop :=
  match last with Some l => l <= t | None => True end.

Lemma Inv_init w sc last : 0 < w -> Inv w sc (init w sc) [] last.
Proof. intros Hw. split; [reflexivity|exact Hw]. Qed.

Lemma Inv_reset w sc s smp last : Inv w sc s smp last -> Inv w sc (reset s) [] last.
Proof.
  unfold Inv at 1. destruct (oldest smp).
  - intros (l & _ & ((<- & Hw & _) & <- & _) & _). now apply Inv_init.
  - intros (-> & Hw). now apply Inv_init.
Qed.

Definition in_window (w now t : Z) : bool := (now - w <? t) && (t <=? now).

(* rate(now) as a function of the history: the samples of (now - W, now] over
   the active part of the window *)
Definition rate_spec (w sc : Z) (smp : list sample) (now : Z) : option Z :=
  match oldest smp with
  | None => None
  | Some f =>
      let active := now - Z.max f (now - w + 1) + 1 in
      if (0 <? cnt (in_window w now) smp) && (1 <? active)
      then Some (round_div (sc * vsum (in_window w now) smp) active)
      else None
  end.

Lemma Inv_samples_le w sc s smp l : Inv w sc s smp (Some l) -> forall t v, In (t, v) smp -> t <= l.
Proof.
  unfold Inv. destruct (oldest smp) eqn:Hf.
  - intros (l' & [= <-] & _ & _ & Hsm) t v Hin. apply (Hsm t v Hin).
  - apply oldest_none in Hf as ->. intros _ t v [].
Qed.

Lemma Inv_total w sc s smp l : Inv w sc s smp (Some l) -> total s = tally (in_window w l) smp.
Proof.
  unfold Inv. destruct (oldest smp) as [f|] eqn:Hf.
  - intros (l' & [= <-] & (_ & _ & _ & _ & -> & _) & _ & Hsm). apply tally_ext.
    intros t v Hin. apply Hsm in Hin. unfold in_window.
    destruct (Z.leb_spec (Z.max f (l - w + 1)) t), (Z.ltb_spec (l - w) t), (Z.leb_spec t l); cbn [andb]; lia.
  - apply oldest_none in Hf as ->. intros (-> & _). reflexivity.
Qed.

(* what erase_old at time now >= last establishes *)
Lemma Inv_advance w sc s smp f last now :
  oldest smp = Some f -> Inv w sc s smp last -> le_opt last now ->
  origin_ms s <> None /\
  exists s', erase_old s now = Ok s' /\ R w sc s' smp (Z.max f (now - w + 1)) /\
             f <= now /\ forall t v, In (t, v) smp -> f <= t <= now.
Proof.
  unfold Inv. intros ->. intros (l & -> & HR & Hfl & Hsm) Hle. cbn [le_opt] in Hle.
  split; [destruct HR as (_ & _ & -> & _); discriminate|].
  destruct (erase_old_ok w sc s smp _ now HR) as (s' & E & HR').
  replace (Z.max (Z.max f (l - w + 1)) (now - w + 1)) with (Z.max f (now - w + 1)) in HR' by lia.
  exists s'. split; [exact E|]. split; [exact HR'|]. split; [lia|].
  intros t v Hin. apply Hsm in Hin. lia.
Qed.

Lemma R_fresh w sc now :
  0 < w -> R w sc (mkRc (repeat (0, 0) (Z.to_nat w)) 0 (Some now) (0, 0) w sc) [] now.
Proof.
  intros Hw. split; [|split; [reflexivity|split; [reflexivity|split; [|split; [reflexivity|intros t v []]]]]].
  - unfold Struct. cbn. rewrite repeat_length. lia.
  - intros i Hi. apply nth_error_repeat, slot_lt. exact Hw.
Qed.

Lemma add_ok w sc s smp last value now :
  Inv w sc s smp last -> le_opt last now ->
  exists s', add s value now = Ok s' /\ Inv w sc s' ((now, value) :: smp) (Some now).
Proof.
  intros HI Hle. unfold add, Inv. rewrite oldest_cons. destruct (oldest smp) as [f|] eqn:Hf.
  - destruct (Inv_advance w sc s smp f last now Hf HI Hle) as (Hom & s1 & E1 & R1 & Hfl & Hsm).
    destruct (origin_ms s); [|contradiction]. rewrite E1.
    assert (Hw : 0 < w) by apply R1.
    destruct (add_tail_ok w sc s1 smp _ value now R1) as (s2 & E2 & R2); [lia|].
    exists s2. split; [exact E2|]. exists now. split; [reflexivity|]. split; [exact R2|]. split; [exact Hfl|].
    intros t v [[= <- <-]|Hin]; [lia|exact (Hsm t v Hin)].
  - apply oldest_none in Hf as Hnil. subst smp. destruct HI as (-> & Hw). cbn [init reset origin_ms].
    destruct (add_tail_ok w sc _ [] now value now (R_fresh w sc now Hw)) as (s2 & E2 & R2); [lia|].
    exists s2. split; [exact E2|]. exists now. split; [reflexivity|].
    replace (Z.max now (now - w + 1)) with now by lia. split; [exact R2|]. split; [lia|].
    intros t v [[= <- <-]|[]]. lia.
Qed.

Lemma rate_ok w sc s smp last now :
  Inv w sc s smp last -> le_opt last now ->
  exists s', rate s now = Ok (s', rate_spec w sc smp now) /\ Inv w sc s' smp (Some now).
Proof.
  intros HI Hle. unfold rate, rate_spec. destruct (oldest smp) as [f|] eqn:Hf.
  - destruct (Inv_advance w sc s smp f last now Hf HI Hle) as (Hom & s1 & E1 & R1 & H1).
    destruct (origin_ms s); [|contradiction]. rewrite E1.
    assert (I1 : Inv w sc s1 smp (Some now)) by (unfold Inv; rewrite Hf; eauto).
    rewrite (Inv_total w sc s1 smp now I1). destruct R1 as (_ & -> & -> & _).
    unfold tally. cbn [fst snd]. exists s1. split; [|exact I1]. destruct (_ && _); reflexivity.
  - unfold Inv in *. rewrite Hf in *. destruct HI as (-> & Hw). exists (init w sc). auto.
Qed.

Definition op_time (o : op) : option Z :=
  match o with Add _ t => Some t | Rate t => Some t | Reset => None end.

Fixpoint times (ops : list op) : list Z :=
  match ops with
  | [] => []
  | o :: r => match op_time o with Some t => t :: times r | None => times r end
  end.

Fixpoint nondecreasing (l : list Z) : Prop :=
  match l with
  | a :: r => match r with b :: _ => a <= b | [] => True end /\ nondecreasing r
  | [] => True
  end.

(* samples since the last reset, newest first *)
Fixpoint samples_after (acc : list sample) (ops : list op) : list sample :=
  match ops with
  | [] => acc
  | Add v t :: r => samples_after ((t, v) :: acc) r
  | Rate _ :: r => samples_after acc r
  | Reset :: r => samples_after [] r
  end.

Definition ocons (last : option Z) (l : list Z) : list Z :=
  match last with Some x => x :: l | None => l end.

Lemma nondecreasing_ocons last t l :
  nondecreasing (ocons last (t :: l)) -> le_opt last t /\ nondecreasing (ocons (Some t) l).
Proof. destruct last; cbn [ocons le_opt nondecreasing]; tauto. Qed.

Lemma run_inv w sc ops : forall s smp last now,
  Inv w sc s smp last -> nondecreasing (ocons last (times ops ++ [now])) ->
  exists s' outs last',
    run s ops = (s', outs, 0) /\ Inv w sc s' (samples_after smp ops) last' /\ le_opt last' now.
Proof.
  induction ops as [|o ops IH]; intros s smp last now HI Hm.
  - exists s, [], last. split; [reflexivity|]. split; [exact HI|]. exact (proj1 (nondecreasing_ocons _ _ _ Hm)).
  - assert (H1 : exists s1 x smp1 last1,
               step s o = Ok (s1, x) /\ Inv w sc s1 smp1 last1 /\
               samples_after smp (o :: ops) = samples_after smp1 ops /\
               nondecreasing (ocons last1 (times ops ++ [now]))).
    { destruct o as [v t|t|]; cbn [step samples_after times op_time app] in *.
      - destruct (nondecreasing_ocons _ _ _ Hm) as [Hlt Hm'].
        destruct (add_ok w sc s smp last v t HI Hlt) as (s1 & -> & I1). eauto 10.
      - destruct (nondecreasing_ocons _ _ _ Hm) as [Hlt Hm'].
        destruct (rate_ok w sc s smp last t HI Hlt) as (s1 & -> & I1). eauto 10.
      - eauto 10 using Inv_reset. }
    destruct H1 as (s1 & x & smp1 & last1 & E1 & I1 & -> & Hm1). cbn [run]. rewrite E1.
    destruct (IH s1 smp1 last1 now I1 Hm1) as (s2 & outs & last2 & -> & H2). eauto 6.
Qed.

(* The sliding window is exact: after ANY history of add / rate / reset calls
   with a non-decreasing clock nothing raises, and a rate(now) call leaves in
   _total exactly (count, sum) of the samples of the last W ms since the last
   reset, and returns rate_spec. *)
Theorem window_exact : forall w sc ops now,
  0 < w -> nondecreasing (times ops ++ [now]) ->
  exists s outs s',
    run (init w sc) ops = (s, outs, 0) /\
    rate s now = Ok (s', rate_spec w sc (samples_after [] ops) now) /\
    (samples_after [] ops <> [] ->
     total s' = (cnt (in_window w now) (samples_after [] ops), vsum (in_window w now) (samples_after [] ops))).
Proof.
  intros w sc ops now Hw Hm.
  destruct (run_inv w sc ops (init w sc) [] None now (Inv_init w sc None Hw) Hm) as (s & outs & last & E & HI & Hl).
  destruct (rate_ok w sc s _ last now HI Hl) as (s' & Er & HI').
  exists s, outs, s'. split; [exact E|]. split; [exact Er|]. intros _. exact (Inv_total w sc s' _ now HI').
Qed.
