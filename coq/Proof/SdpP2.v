(* The lines MediaDescription.__str__ writes for one attribute each, and the first loop of
   SessionDescription.parse on them. *)
From Coq Require Import ZArith List Bool Lia.
From AV Require Import Lib.Sx Model.Sdp Proof.SdpP1.
Import ListNotations.
Local Open Scope Z_scope.

(* The loop state with one field replaced.  A group of lines takes a state `t` to such a replacement on
   `t`, so a whole section gives a nest of them on the initial state. *)
Definition on_m {V} (set : media -> V -> media) (v : V) (t : mstate) : mstate := upd_m t (set (t_m t) v).
Definition st_fps (v : list fingerprint) (t : mstate) : mstate := mkSt (t_m t) v (t_role t) (t_ufrag t) (t_pwd t).
Definition st_role (v : option str) (t : mstate) : mstate := mkSt (t_m t) (t_fps t) v (t_ufrag t) (t_pwd t).
Definition st_ufrag (v : option str) (t : mstate) : mstate := mkSt (t_m t) (t_fps t) (t_role t) v (t_pwd t).
Definition st_pwd (v : option str) (t : mstate) : mstate := mkSt (t_m t) (t_fps t) (t_role t) (t_ufrag t) v.

(* Writing the value a field has changes nothing.  The premise on `set` and `get` holds by evaluation
   for every field: `reread m` is what `set m (get m)` unfolds to. *)
Definition reread (m : media) : media :=
  mkMedia (m_kind m) (m_port m) (m_host m) (m_profile m) (m_direction m) (m_msid m) (m_rtcp_port m) (m_rtcp_host m)
          (m_rtcp_mux m) (m_ssrc m) (m_ssrc_group m) (m_fmt m) (m_codecs m) (m_exts m) (m_mid m) (m_sctp_cap m)
          (m_sctpmap m) (m_sctp_port m) (m_dtls m) (m_ice m) (m_cands m) (m_complete m) (m_ice_options m).

Lemma on_m_same : forall {V} (set : media -> V -> media) (get : media -> V) v t,
  (forall m, set m (get m) = reread m) -> get (t_m t) = v -> on_m set v t = t.
Proof. intros V set get v [[] f r u p] Hs <-. unfold on_m, upd_m. now rewrite Hs. Qed.

(* c=, a=rtcp, ice and dtls lines: what the printer wrote when it did not raise, and when it
   does not raise *)
Lemma addr_lines_ok : forall o mk l, addr_lines o mk = Ok l -> l = opt_line o mk.
Proof. intros [a|] mk l H; cbn [addr_lines] in H; [destruct (addr_ok a)|]; now inversion H. Qed.

Lemma addr_lines_defined : forall o mk, opt_addr_ok o = true -> addr_lines o mk = Ok (opt_line o mk).
Proof. intros [a|] mk H; cbn [addr_lines opt_addr_ok] in *; [now rewrite H|reflexivity]. Qed.

Lemma rtcp_lines_ok : forall m l, rtcp_lines m = Ok l ->
  l = opt_line (m_rtcp_port m) (fun p => Lrtcp p (m_rtcp_host m)).
Proof.
  intros m l H. unfold rtcp_lines in H. destruct (m_rtcp_port m) as [p|]; [|now inversion H].
  destruct (m_rtcp_host m) as [a|]; [destruct (addr_ok a)|]; now inversion H.
Qed.

Lemma rtcp_lines_defined : forall m, opt_addr_ok (m_rtcp_host m) = true -> exists l, rtcp_lines m = Ok l.
Proof.
  intros m H. unfold rtcp_lines. destruct (m_rtcp_port m) as [p|]; [|eauto].
  destruct (m_rtcp_host m) as [a|]; [|eauto]. cbn [opt_addr_ok] in H. rewrite H. eauto.
Qed.

Lemma ice_lines_ok : forall m l, ice_lines m = Ok l -> exists i, m_ice m = Some i /\
  l = opt_line (i_ufrag i) (fun s => Lice_ufrag (Some s)) ++ opt_line (i_pwd i) (fun s => Lice_pwd (Some s)).
Proof. intros m l H. unfold ice_lines in H. destruct (m_ice m) as [i|]; inversion H. now exists i. Qed.

Lemma role_setup_inv : forall r s, role_setup r = Ok s -> exists x, r = Some x /\ setup_role (Some s) = Ok x.
Proof.
  intros [x|] s H; cbn [role_setup] in *; [|discriminate].
  destruct (str_eqb x s_auto) eqn:E1; [apply str_eqb_eq in E1; inversion H; subst; eauto|].
  destruct (str_eqb x s_client) eqn:E2; [apply str_eqb_eq in E2; inversion H; subst; eauto|].
  destruct (str_eqb x s_server) eqn:E3; [apply str_eqb_eq in E3; inversion H; subst; eauto|].
  discriminate.
Qed.

Lemma role_setup_defined : forall r, role_known r = true -> exists s, role_setup r = Ok s.
Proof.
  intros [x|] H; cbn [role_setup role_known] in *; [|discriminate].
  destruct (str_eqb x s_auto); [eauto|]. destruct (str_eqb x s_client); [eauto|].
  destruct (str_eqb x s_server); [eauto|discriminate].
Qed.

Lemma dtls_lines_ok : forall m l, dtls_lines m = Ok l ->
  match m_dtls m with
  | None => l = []
  | Some (fps, role) =>
      exists r s, role = Some r /\ setup_role (Some s) = Ok r /\
                  l = map (fun f => Lfingerprint (fst f) (snd f)) fps ++ [Lsetup (Some s)]
  end.
Proof.
  intros m l H. unfold dtls_lines in H. destruct (m_dtls m) as [[fps role]|]; [|now inversion H].
  apply bind_ok in H as (s & Hs & H). injection H as <-.
  destruct (role_setup_inv role s Hs) as (r & -> & Hr). eauto.
Qed.

Lemma dtls_lines_defined : forall m, match m_dtls m with Some (_, r) => role_known r | None => true end = true ->
  exists l, dtls_lines m = Ok l.
Proof.
  intros m H. unfold dtls_lines. destruct (m_dtls m) as [[fps r]|]; [|eauto].
  destruct (role_setup_defined r H) as (s & ->). cbn [bind]. eauto.
Qed.

Lemma ssrc_upd_app : forall l r id a v, ~ In id (map s_id l) ->
  ssrc_upd (l ++ r) id a v = l ++ ssrc_upd r id a v.
Proof.
  induction l as [|s l IH]; intros r id a v H; cbn [app ssrc_upd]; [reflexivity|].
  cbn [map In] in H. destruct (Z.eqb (s_id s) id) eqn:E.
  - apply Z.eqb_eq in E. exfalso. apply H. now left.
  - f_equal. apply IH. intro. apply H. now right.
Qed.

Lemma ssrc_upd_ids : forall l id a v,
  map s_id (ssrc_upd l id a v) = if mem_z id (map s_id l) then map s_id l else map s_id l ++ [id].
Proof.
  assert (Hs : forall s a v, s_id (ssrc_setattr s a v) = s_id s).
  { intros s a v. unfold ssrc_setattr.
    destruct (str_eqb a s_cname); [reflexivity|]. destruct (str_eqb a s_msid); [reflexivity|].
    destruct (str_eqb a s_mslabel); [reflexivity|]. destruct (str_eqb a s_label); reflexivity. }
  induction l as [|s l IH]; intros id a v; cbn [ssrc_upd map mem_z app].
  - now rewrite Hs.
  - rewrite (Z.eqb_sym id). destruct (Z.eqb (s_id s) id) eqn:E; cbn [orb map].
    + now rewrite Hs.
    + rewrite IH. destruct (mem_z id (map s_id l)); reflexivity.
Qed.

(* the lines of one source, whose id is not among those seen: the entry is created by the first
   attribute present and completed by the others *)
Lemma p1_ssrc_one : forall s pre t, ~ In (s_id s) (map s_id pre) ->
  rfold step1 (ssrc_lines s) (on_m set_ssrc pre t)
  = Ok (on_m set_ssrc (pre ++ (if ssrc_nonempty s then [s] else [])) t).
Proof.
  intros [id cn ms msl lb] pre t Hnot. unfold ssrc_lines, ssrc_nonempty. cbn [s_id s_cn s_ms s_msl s_lb] in *.
  assert (S0 : forall a v, step1 (on_m set_ssrc (pre ++ []) t) (Lssrc id a v)
                           = Ok (on_m set_ssrc (pre ++ [ssrc_setattr (mkSsrc id None None None None) a v]) t)).
  { intros a v. cbn [step1 on_m upd_m t_m set_ssrc m_ssrc]. now rewrite ssrc_upd_app. }
  assert (S1 : forall e a v, s_id e = id -> step1 (on_m set_ssrc (pre ++ [e]) t) (Lssrc id a v)
                                            = Ok (on_m set_ssrc (pre ++ [ssrc_setattr e a v]) t)).
  { intros e a v He. cbn [step1 on_m upd_m t_m set_ssrc m_ssrc]. rewrite ssrc_upd_app by exact Hnot.
    cbn [ssrc_upd]. now rewrite He, Z.eqb_refl. }
  rewrite <- (app_nil_r pre) at 1.
  destruct cn, ms, msl, lb; cbn [opt_line app rfold is_some orb];
    repeat (first [rewrite S0 | rewrite S1 by reflexivity]; cbn [bind]);
    reflexivity.
Qed.

Lemma p1_ssrc_from : forall l pre t, NoDup (map s_id pre ++ map s_id l) ->
  rfold step1 (flat_map ssrc_lines l) (on_m set_ssrc pre t)
  = Ok (on_m set_ssrc (pre ++ filter ssrc_nonempty l) t).
Proof.
  induction l as [|s l IH]; intros pre t Hnd; cbn [flat_map filter rfold map] in *.
  - now rewrite app_nil_r.
  - apply rfold_seq with (on_m set_ssrc (pre ++ (if ssrc_nonempty s then [s] else [])) t).
    + apply p1_ssrc_one. intro Hin. apply NoDup_remove_2 in Hnd. apply Hnd. rewrite in_app_iff. now left.
    + destruct (ssrc_nonempty s).
      * rewrite IH; rewrite ?map_app, <- app_assoc; [reflexivity|exact Hnd].
      * rewrite app_nil_r. apply IH. now apply NoDup_remove_1 in Hnd.
Qed.

Lemma p1_ssrc : forall l t, NoDup (map s_id l) -> m_ssrc (t_m t) = [] ->
  rfold step1 (flat_map ssrc_lines l) t = Ok (on_m set_ssrc (filter ssrc_nonempty l) t).
Proof.
  intros l t Hnd Ht. rewrite <- (on_m_same set_ssrc m_ssrc [] t (fun _ => eq_refl) Ht) at 1.
  exact (p1_ssrc_from l [] t Hnd).
Qed.

(* a=rtpmap (first loop): one blank codec per payload type *)
Definition default_name (mime : str) : str := match name_of mime with Some n => n | None => [] end.

Definition blank (kind : str) (c : codec) : codec :=
  mkCodec (kind ++ SLASH :: default_name (k_mime c)) (k_clock c)
          (if str_eqb kind s_audio
           then Some (match k_channels c with Some 2 => 2 | _ => 1 end)
           else None)
          (k_pt c) [] [].

Lemma has_pt_false : forall cs pt, has_pt cs pt = false <-> ~ In pt (map k_pt cs).
Proof.
  intros cs pt. unfold has_pt. rewrite <- not_true_iff_false, existsb_exists, in_map_iff.
  split; intros H (c & H1 & H2); apply H; exists c.
  - split; [exact H2|now apply Z.eqb_eq].
  - split; [now apply Z.eqb_eq|exact H1].
Qed.

Lemma has_pt_true : forall cs pt, In pt (map k_pt cs) -> has_pt cs pt = true.
Proof. intros cs pt H. destruct (has_pt cs pt) eqn:E; [reflexivity|]. now apply has_pt_false in E. Qed.

(* the lines of one codec whose payload type is new: a=rtpmap appends the blank codec, the first
   loop passes over a=rtcp-fb and a=fmtp *)
Lemma p1_codec_one : forall c l kind pre t, codec_lines c = Ok l -> ~ In (k_pt c) (map k_pt pre) ->
  m_kind (t_m t) = kind ->
  rfold step1 l (on_m set_codecs pre t) = Ok (on_m set_codecs (pre ++ [blank kind c]) t).
Proof.
  intros c l kind pre t H Hnot <-. unfold codec_lines in H.
  destruct (name_of (k_mime c)) as [n|] eqn:En; [|discriminate]. injection H as <-.
  cbn [rfold step1 on_m upd_m t_m set_codecs m_kind m_codecs].
  assert (Hch : (if str_eqb (m_kind (t_m t)) s_audio
                 then match (match k_channels c with Some 2 => Some (Some 2) | _ => None end) with
                      | Some (Some z) => Ok (Some z) | Some None => ValueErr | None => Ok (Some 1) end
                 else Ok None)
                = Ok (k_channels (blank (m_kind (t_m t)) c))).
  { cbn [blank k_channels]. destruct (str_eqb (m_kind (t_m t)) s_audio); [|reflexivity].
    destruct (k_channels c) as [[|[[|[]|]|[|[]|]|]|]|]; reflexivity. }
  rewrite Hch, (proj2 (has_pt_false pre _) Hnot). cbn [bind].
  rewrite rfold_noop.
  - unfold blank, default_name. now rewrite En.
  - apply Forall_app. split.
    + apply Forall_forall. intros x Hx. apply in_map_iff in Hx as (f & <- & _). reflexivity.
    + destruct (params_empty (k_params c)); repeat constructor.
Qed.

Lemma p1_codecs_from : forall cs l kind pre t, concat_r (map codec_lines cs) = Ok l ->
  NoDup (map k_pt pre ++ map k_pt cs) -> m_kind (t_m t) = kind ->
  rfold step1 l (on_m set_codecs pre t) = Ok (on_m set_codecs (pre ++ map (blank kind) cs) t).
Proof.
  induction cs as [|c cs IH]; intros l kind pre t H Hnd Hk.
  - injection H as <-. now rewrite app_nil_r.
  - apply concat_r_cons_ok in H as (l1 & l2 & H1 & H2 & ->). cbn [map] in *.
    apply rfold_seq with (on_m set_codecs (pre ++ [blank kind c]) t).
    + apply (p1_codec_one c l1 kind pre t H1); [|exact Hk]. intro Hin. apply NoDup_remove_2 in Hnd. apply Hnd. rewrite in_app_iff. now left.
    + rewrite (IH l2 kind _ t H2).
      * now rewrite <- app_assoc.
      * rewrite map_app, <- app_assoc. exact Hnd.
      * exact Hk.
Qed.

Lemma p1_codecs : forall cs l kind t, concat_r (map codec_lines cs) = Ok l -> NoDup (map k_pt cs) ->
  m_kind (t_m t) = kind -> m_codecs (t_m t) = [] ->
  rfold step1 l t = Ok (on_m set_codecs (map (blank kind) cs) t).
Proof.
  intros cs l kind t H Hnd Hk Ht. rewrite <- (on_m_same set_codecs m_codecs [] t (fun _ => eq_refl) Ht) at 1.
  exact (p1_codecs_from cs l kind [] t H Hnd Hk).
Qed.

Lemma p1_dtls : forall m l t, dtls_lines m = Ok l -> t_fps t = [] ->
  rfold step1 l t = Ok (match m_dtls m with Some (fps, role) => st_role role (st_fps fps t) | None => t end).
Proof.
  intros m l t H Ht. pose proof (dtls_lines_ok m l H) as Hd. destruct (m_dtls m) as [[fps role]|]; [|now subst l].
  destruct Hd as (r & s & -> & Hr & ->).
  apply rfold_seq with (st_fps fps t).
  - apply (rfold_map_append step1 _ st_fps); [intros a w []; reflexivity|]. apply (put_same _ t_fps); [now intros []|exact Ht].
  - cbn [rfold step1]. now rewrite Hr.
Qed.
