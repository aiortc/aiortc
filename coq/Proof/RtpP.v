(* Proofs about Model/Rtp.v, part 1: RFC 5285 elements (pack/unpack_header_extensions)
   and HeaderExtensionsMap.get / set. *)
From Coq Require Import ZArith List Bool Lia.
From AV Require Import Lib.Bytes Lib.BytesP Lib.RtpX Gen.RtpConst Model.Rtp Proof.RtpBitsP.
Import ListNotations.
Local Open Scope Z_scope.

Ltac Zify.zify_post_hook ::= Z.to_euclidean_division_equations.

(* ================================================================ elements *)
Definition wf_ext (e : ext) : Prop :=
  1 <= fst e <= 255 /\ (length (snd e) <= 255)%nat /\ bytes_ok (snd e).

(* the form chosen by pack_header_extensions *)
Definition one_ok (e : ext) : bool :=
  (fst e <=? 14) && (1 <=? len (snd e)) && (len (snd e) <=? 16).

Lemma pack_scan_spec xs : forall acc,
  Forall wf_ext xs -> pack_scan xs acc = Ok (acc && forallb one_ok xs).
Proof.
  induction xs as [|[i v] xs IH]; intros acc H; cbn [pack_scan forallb].
  - now rewrite andb_true_r.
  - inversion H as [|? ? (Hi & Hl & _) H']; subst. cbn [fst snd] in *.
    assert (Hlen := len_nonneg v).
    rewrite !(proj2 (andb_true_iff _ _)) by (unfold len; lia). cbn [negb].
    rewrite IH by assumption. f_equal. unfold one_ok. cbn [fst snd].
    (* the model's three rejections are the negations of one_ok's three tests *)
    rewrite !Z.ltb_antisym.
    replace (len v =? 0) with (negb (1 <=? len v))
      by (destruct (Z.eqb_spec (len v) 0), (Z.leb_spec 1 (len v)); first [reflexivity|lia]).
    destruct (i <=? 14), (1 <=? len v), (len v <=? 16), acc; reflexivity.
Qed.

Lemma unpack_one_zeros z : forall fuel, (z < fuel)%nat -> unpack_one fuel (zeros z) = Ok [].
Proof.
  induction z as [|z IH]; intros [|f] Hf; try lia; [reflexivity|].
  cbn [zeros repeat unpack_one Z.eqb]. apply IH. lia.
Qed.
Lemma unpack_two_zeros z : forall fuel, (z < fuel)%nat -> unpack_two fuel (zeros z) = Ok [].
Proof.
  induction z as [|z IH]; intros [|f] Hf; try lia; [reflexivity|].
  cbn [zeros repeat unpack_two Z.eqb]. apply IH. lia.
Qed.

(* either form: the elements serialise, and come back whatever zero padding follows *)
Lemma pack_one_roundtrip xs :
  Forall wf_ext xs -> forallb one_ok xs = true ->
  exists b, pack_one xs = Ok b /\ bytes_ok b /\ (length b <= 17 * length xs)%nat /\ (xs <> [] -> b <> []) /\
    forall fuel z, (length b + z < fuel)%nat -> unpack_one fuel (b ++ zeros z) = Ok xs.
Proof.
  induction 1 as [|[i v] xs (Hi & Hl & Hv) _ IH]; intros Hone; cbn [pack_one].
  - exists []. split; [reflexivity|]. split; [apply bytes_ok_nil|]. split; [cbn; lia|]. split; [congruence|].
    intros fuel z Hf. apply unpack_one_zeros. cbn [length] in Hf. lia.
  - cbn [fst snd forallb] in *. apply andb_true_iff in Hone as [H1 Hone'].
    destruct (IH Hone') as (r & Hr & IHok & IHlen & _ & IHp).
    unfold one_ok in H1. cbn [fst snd] in H1. rewrite !andb_true_iff, !Z.leb_le in H1.
    rewrite (lor_shiftl i _ 4), u8ok_intro, Hr by lia. cbn [bind].
    eexists. split; [reflexivity|]. unfold be8. rewrite Z.mod_small by lia.
    split; [|split; [|split]].
    + apply bytes_ok_cons. split; [unfold byte_ok; lia|]. apply bytes_ok_app. auto.
    + cbn [app length]. rewrite app_length. unfold len in H1. lia.
    + discriminate.
    + intros [|f] z Hf; [lia|]. cbn [app unpack_one].
      rewrite (proj2 (Z.eqb_neq _ _)), shiftr_land_240, land_15 by lia.
      replace ((i * 2 ^ 4 + (len v - 1)) / 16) with i by lia.
      replace ((i * 2 ^ 4 + (len v - 1)) mod 16 + 1) with (len v) by lia.
      assert (H0 := len_nonneg (r ++ zeros z)).
      rewrite <- app_assoc, len_app, (proj2 (Z.ltb_ge _ _)) by lia.
      unfold len. rewrite Nat2Z.id, firstn_app_exact, skipn_app_exact.
      rewrite IHp; [reflexivity|]. cbn [app length] in Hf. rewrite app_length in Hf. lia.
Qed.

Lemma pack_two_roundtrip xs :
  Forall wf_ext xs ->
  exists b, pack_two xs = Ok b /\ bytes_ok b /\ (length b <= 257 * length xs)%nat /\ (xs <> [] -> b <> []) /\
    forall fuel z, (length b + z < fuel)%nat -> unpack_two fuel (b ++ zeros z) = Ok xs.
Proof.
  induction 1 as [|[i v] xs (Hi & Hl & Hv) _ (r & Hr & IHok & IHlen & _ & IHp)]; cbn [pack_two].
  - exists []. split; [reflexivity|]. split; [apply bytes_ok_nil|]. split; [cbn; lia|]. split; [congruence|].
    intros fuel z Hf. apply unpack_two_zeros. cbn [length] in Hf. lia.
  - cbn [fst snd] in *. rewrite !u8ok_intro, Hr by (unfold len; lia). cbn [andb bind].
    eexists. split; [reflexivity|]. unfold be8. rewrite !Z.mod_small by (unfold len; lia).
    split; [|split; [|split]].
    + apply bytes_ok_cons. split; [unfold byte_ok; lia|].
      apply bytes_ok_cons. split; [unfold byte_ok, len; lia|]. apply bytes_ok_app. auto.
    + cbn [app length]. rewrite app_length. lia.
    + discriminate.
    + intros [|f] z Hf; [lia|]. cbn [app unpack_two].
      assert (H0 := len_nonneg (r ++ zeros z)).
      rewrite (proj2 (Z.eqb_neq _ _)), <- app_assoc, len_app, (proj2 (Z.ltb_ge _ _)) by lia.
      unfold len. rewrite Nat2Z.id, firstn_app_exact, skipn_app_exact.
      rewrite IHp; [reflexivity|]. cbn [app length] in Hf. rewrite app_length in Hf. lia.
Qed.

Lemma padl_spec n : 0 <= n -> 0 <= rtp_padl n <= 3 /\ (n + rtp_padl n) mod 4 = 0.
Proof. intros H. unfold rtp_padl. lia. Qed.

(* the form pack_header_extensions chooses, with its profile *)
Lemma pack_form_roundtrip xs :
  Forall wf_ext xs ->
  exists b, (if forallb one_ok xs then pack_one xs else pack_two xs) = Ok b /\ bytes_ok b /\
    (length b <= 257 * length xs)%nat /\ (xs <> [] -> b <> []) /\
    forall z, unpack_header_extensions (if forallb one_ok xs then 48862 else 4096) (b ++ zeros z) = Ok xs.
Proof.
  intros Hwf. destruct (forallb one_ok xs) eqn:Hone;
    [destruct (pack_one_roundtrip xs Hwf Hone) as (b & Hb & Hok & Hlen & Hnn & Hp)
    |destruct (pack_two_roundtrip xs Hwf) as (b & Hb & Hok & Hlen & Hnn & Hp)].
  all: exists b; repeat split; auto; try lia.
  all: intros z; unfold unpack_header_extensions; cbn [Z.eqb Pos.eqb].
  all: apply Hp; rewrite app_length, length_zeros; lia.
Qed.

(* unpack (pack xs) = xs; profile 0xBEDE iff every id <= 14 and every length in 1..16;
   the value is 4-byte aligned and nonempty iff xs is *)
Theorem hdrext_pack_unpack xs :
  Forall wf_ext xs ->
  exists profile value,
    pack_header_extensions xs = Ok (profile, value) /\
    unpack_header_extensions profile value = Ok xs /\
    bytes_ok value /\ len value mod 4 = 0 /\ (length value <= 257 * length xs + 3)%nat /\
    (xs = [] -> value = []) /\ (xs <> [] -> value <> []) /\
    (xs <> [] -> profile = if forallb one_ok xs then 48862 else 4096) /\ 0 <= profile < 65536.
Proof.
  intros Hwf. destruct xs as [|x xs'].
  - exists 0, []. cbn. repeat split; try congruence; try lia. apply bytes_ok_nil.
  - assert (Hne : x :: xs' <> []) by discriminate.
    change (pack_header_extensions (x :: xs')) with
      (do one_byte <- pack_scan (x :: xs') true;
       do v <- (if one_byte then pack_one (x :: xs') else pack_two (x :: xs'));
       Ok (if one_byte then 48862 else 4096, v ++ zeros (Z.to_nat (rtp_padl (len v))))).
    remember (x :: xs') as xs eqn:Exs. clear Exs x xs'.
    rewrite pack_scan_spec by assumption. cbn [bind andb].
    destruct (pack_form_roundtrip xs Hwf) as (b & Hb & Hok & Hlen & Hnn & Hp). rewrite Hb. cbn [bind].
    destruct (padl_spec (len b) (len_nonneg b)) as [Hpr Hpm].
    eexists _, _. split; [reflexivity|]. split; [apply Hp|].
    split; [|split; [|split; [|split; [|split; [|split]]]]].
    + apply bytes_ok_app. split; [exact Hok|apply bytes_ok_zeros].
    + rewrite len_app. unfold len at 2. rewrite length_zeros, Z2Nat.id by lia. exact Hpm.
    + rewrite app_length, length_zeros. lia.
    + congruence.
    + intros _ E. apply app_eq_nil in E as [E _]. now apply Hnn.
    + reflexivity.
    + destruct (forallb one_ok xs); lia.
Qed.
