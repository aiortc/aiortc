(* Basic lemmas for Model/Sdp.v: string equality, the error monad, folds and tests over the
   groups of lines the printers write, dictionaries, candidates, codec names. *)
From Coq Require Import ZArith List Bool Lia.
From AV Require Import Lib.Sx Model.Sdp.
Import ListNotations.
Local Open Scope Z_scope.

Lemma str_eqb_refl : forall s, str_eqb s s = true.
Proof. induction s as [|c s IH]; cbn [str_eqb]; [reflexivity|]. now rewrite Z.eqb_refl, IH. Qed.

Lemma str_eqb_eq : forall a b, str_eqb a b = true -> a = b.
Proof.
  induction a as [|x a IH]; intros [|y b] H; cbn [str_eqb] in H; try discriminate; [reflexivity|].
  apply andb_true_iff in H as [H1 H2]. apply Z.eqb_eq in H1. subst y. f_equal. now apply IH.
Qed.

Lemma str_eqb_neq : forall a b, str_eqb a b = false -> a <> b.
Proof. intros a b H E. subst b. now rewrite str_eqb_refl in H. Qed.

Lemma str_eqb_iff : forall a b, str_eqb a b = true <-> a = b.
Proof. intros a b. split; [apply str_eqb_eq|intros ->; apply str_eqb_refl]. Qed.

Lemma rfold_app : forall {A B} (f : A -> B -> result A) l1 l2 a,
  rfold f (l1 ++ l2) a = bind (rfold f l1 a) (rfold f l2).
Proof.
  intros A B f l1. induction l1 as [|x l1 IH]; intros l2 a; cbn [rfold app bind]; [reflexivity|].
  destruct (f a x) as [a'| |]; cbn [bind]; [apply IH|reflexivity|reflexivity].
Qed.

Lemma rfold_inv : forall {A B} (f : A -> B -> result A) (P : A -> Prop),
  (forall a x a', P a -> f a x = Ok a' -> P a') ->
  forall l a a', P a -> rfold f l a = Ok a' -> P a'.
Proof.
  intros A B f P Hstep l. induction l as [|x l IH]; intros a a' Pa H; cbn [rfold] in H.
  - now inversion H; subst.
  - destruct (f a x) as [a1| |] eqn:E; cbn [bind] in H; try discriminate.
    eapply IH; [|exact H]. eapply Hstep; eauto.
Qed.

Lemma rfold_noop : forall {A B} (f : A -> B -> result A) l a,
  Forall (fun x => forall a, f a x = Ok a) l -> rfold f l a = Ok a.
Proof.
  intros A B f l a H. induction H as [|x l Hx _ IH]; cbn [rfold]; [reflexivity|].
  rewrite Hx. cbn [bind]. exact IH.
Qed.

Lemma bind_ok : forall {A B} (r : result A) (f : A -> result B) b,
  bind r f = Ok b -> exists a, r = Ok a /\ f a = Ok b.
Proof. intros A B [a| |] f b H; cbn [bind] in H; try discriminate. now exists a. Qed.

Lemma bind_seq : forall {A B} (r : result A) (f : A -> result B) a b, r = Ok a -> f a = b -> bind r f = b.
Proof. intros A B r f a b -> H. exact H. Qed.

Lemma rfold_seq : forall {A B} (f : A -> B -> result A) l1 l2 a a' r,
  rfold f l1 a = Ok a' -> rfold f l2 a' = r -> rfold f (l1 ++ l2) a = r.
Proof. intros A B f l1 l2 a a' r H1 H2. rewrite rfold_app. exact (bind_seq _ _ a' r H1 H2). Qed.

Lemma rmap_app : forall {A B} (f : A -> result B) a b,
  rmap f (a ++ b) = bind (rmap f a) (fun a' => bind (rmap f b) (fun b' => Ok (a' ++ b'))).
Proof.
  intros A B f a b. induction a as [|x a IH]; cbn [app rmap bind].
  - destruct (rmap f b); reflexivity.
  - destruct (f x); cbn [bind]; try reflexivity. rewrite IH.
    destruct (rmap f a); cbn [bind]; try reflexivity. destruct (rmap f b); reflexivity.
Qed.

Lemma rmap_id : forall {A} (f : A -> result A) l, (forall x, In x l -> f x = Ok x) -> rmap f l = Ok l.
Proof.
  intros A f l H. induction l as [|x l IH]; cbn [rmap]; [reflexivity|].
  rewrite H by now left. cbn [bind]. rewrite IH; [reflexivity|]. intros y Hy. apply H. now right.
Qed.

Lemma rmap_forall : forall {A B} (f : A -> result B) (P : B -> Prop) l l',
  (forall a b, f a = Ok b -> P b) -> rmap f l = Ok l' -> Forall P l'.
Proof.
  intros A B f P l. induction l as [|a l IH]; intros l' Hf H; cbn [rmap] in H.
  - injection H as <-. constructor.
  - apply bind_ok in H as (b & Eb & H). apply bind_ok in H as (r & Er & H). injection H as <-.
    constructor; [eapply Hf; eassumption|]. now apply IH.
Qed.

(* the lines of several parts, each of which may raise *)
Lemma concat_r_cons_ok : forall {T} (f : T -> result (list line)) x l r,
  concat_r (map f (x :: l)) = Ok r ->
  exists r1 r2, f x = Ok r1 /\ concat_r (map f l) = Ok r2 /\ r = r1 ++ r2.
Proof.
  intros T f x l r H. cbn [map concat_r fold_right] in H.
  apply bind_ok in H as (r1 & H1 & H). apply bind_ok in H as (r2 & H2 & H). injection H as <-. eauto.
Qed.

Lemma concat_r_ext : forall {T} (f g : T -> result (list line)) l,
  (forall x, In x l -> f x = g x) -> concat_r (map f l) = concat_r (map g l).
Proof.
  intros T f g l H. induction l as [|x l IH]; cbn [map concat_r fold_right]; [reflexivity|].
  rewrite (H x) by now left. unfold concat_r in IH. rewrite IH; [reflexivity|]. intros y Hy. apply H. now right.
Qed.

Lemma concat_r_defined : forall {T} (f : T -> result (list line)) l,
  (forall x, In x l -> exists r, f x = Ok r) -> exists r, concat_r (map f l) = Ok r.
Proof.
  intros T f l H. induction l as [|x l IH]; cbn [map concat_r fold_right]; [eauto|].
  destruct (H x) as (r1 & E1); [now left|]. destruct IH as (r2 & E2); [intros y Hy; apply H; now right|].
  unfold concat_r in E2. rewrite E1, E2. cbn [bind]. eauto.
Qed.

(* Folds over the groups of lines the printers write: `put v a` is the loop state `a` with one
   field replaced by `v`, and `get` reads that field. *)
Lemma put_same : forall {A V} (put : V -> A -> A) (get : A -> V) v a,
  (forall a, put (get a) a = a) -> get a = v -> put v a = a.
Proof. intros A V put get v a H <-. apply H. Qed.

Lemma rfold_opt_line : forall {A T} (f : A -> line -> result A) (mk : T -> line) (put : option T -> A -> A) o a,
  (forall x, f a (mk x) = Ok (put (Some x) a)) -> put None a = a ->
  rfold f (opt_line o mk) a = Ok (put o a).
Proof.
  intros A T f mk put [x|] a Hs Hn; cbn [opt_line rfold].
  - now rewrite Hs.
  - now rewrite Hn.
Qed.

Lemma rfold_flag : forall {A} (f : A -> line -> result A) l (put : bool -> A -> A) (b : bool) a,
  f a l = Ok (put true a) -> put false a = a ->
  rfold f (if b then [l] else []) a = Ok (put b a).
Proof.
  intros A f l put [|] a Hs Hn; cbn [rfold].
  - now rewrite Hs.
  - now rewrite Hn.
Qed.

Lemma rfold_map_fold : forall {A T V} (f : A -> line -> result A) (mk : T -> line) (put : V -> A -> A)
    (g : V -> T -> V) l v a,
  (forall a w x, f (put w a) (mk x) = Ok (put (g w x) a)) -> put v a = a ->
  rfold f (map mk l) a = Ok (put (fold_left g l v) a).
Proof.
  intros A T V f mk put g l v a Hs Hv. rewrite <- Hv at 1. clear Hv. revert v.
  induction l as [|x l IH]; intros v; cbn [map rfold fold_left]; [reflexivity|].
  rewrite Hs. apply IH.
Qed.

Lemma fold_left_snoc : forall {T} (l v : list T), fold_left (fun w x => w ++ [x]) l v = v ++ l.
Proof.
  induction l as [|x l IH]; intros v; cbn [fold_left]; [now rewrite app_nil_r|].
  now rewrite IH, <- app_assoc.
Qed.

Lemma rfold_map_append : forall {A T} (f : A -> line -> result A) (mk : T -> line) (put : list T -> A -> A) l a,
  (forall a w x, f (put w a) (mk x) = Ok (put (w ++ [x]) a)) -> put [] a = a ->
  rfold f (map mk l) a = Ok (put l a).
Proof.
  intros A T f mk put l a Hs Hv. rewrite (rfold_map_fold f mk put (fun w x => w ++ [x]) l [] a Hs Hv).
  now rewrite fold_left_snoc.
Qed.

Lemma forallb_opt_line : forall {T} (P : line -> bool) (o : option T) mk,
  (forall x, P (mk x) = true) -> forallb P (opt_line o mk) = true.
Proof. intros T P [x|] mk H; cbn [opt_line forallb]; [now rewrite H|reflexivity]. Qed.

Lemma forallb_map_all : forall {T} (P : line -> bool) (f : T -> line) l,
  (forall x, P (f x) = true) -> forallb P (map f l) = true.
Proof. intros T P f l H. induction l; cbn [map forallb]; [reflexivity|]. now rewrite H, IHl. Qed.

Lemma forallb_flag : forall (P : line -> bool) (b : bool) l, P l = true -> forallb P (if b then [l] else []) = true.
Proof. intros P [|] l H; cbn [forallb]; [now rewrite H|reflexivity]. Qed.

Lemma NoDup_snoc : forall (T : Type) (l : list T) x, NoDup l -> ~ In x l -> NoDup (l ++ [x]).
Proof.
  intros T l x H. induction H as [|y l Hy Hl IH]; intros Hx; cbn [app].
  - constructor; [intros []|constructor].
  - constructor.
    + rewrite in_app_iff. intros [H1|[H1|[]]]; [now apply Hy|]. subst. apply Hx. now left.
    + apply IH. intro. apply Hx. now right.
Qed.

Section Dict.
  Variables (K V : Type) (eqb : K -> K -> bool).
  Hypothesis eqb_iff : forall a b, eqb a b = true <-> a = b.

  Lemma dset_fresh : forall (d : list (K * V)) k v, ~ In k (map fst d) -> dset eqb d k v = d ++ [(k, v)].
  Proof.
    induction d as [|[k' v'] d IH]; intros k v H; cbn [dset app]; [reflexivity|].
    cbn [map fst In] in H.
    destruct (eqb k k') eqn:E.
    - apply eqb_iff in E. subst. exfalso. apply H. now left.
    - f_equal. apply IH. intro. apply H. now right.
  Qed.

  Lemma dset_keys : forall (d : list (K * V)) k v,
    map fst (dset eqb d k v) = if existsb (eqb k) (map fst d) then map fst d else map fst d ++ [k].
  Proof.
    induction d as [|[k' v'] d IH]; intros k v; cbn [dset map fst existsb app]; [reflexivity|].
    destruct (eqb k k') eqn:E; cbn [orb map fst]; [reflexivity|].
    rewrite IH. destruct (existsb (eqb k) (map fst d)); reflexivity.
  Qed.

  Lemma existsb_eqb_false : forall k l, existsb (eqb k) l = false -> ~ In k l.
  Proof.
    intros k l H Hin. assert (existsb (eqb k) l = true); [|congruence].
    apply existsb_exists. exists k. split; [exact Hin|]. now apply eqb_iff.
  Qed.

  Lemma dset_nodup : forall (d : list (K * V)) k v, NoDup (map fst d) -> NoDup (map fst (dset eqb d k v)).
  Proof.
    intros d k v H. rewrite dset_keys. destruct (existsb (eqb k) (map fst d)) eqn:E; [exact H|].
    apply NoDup_snoc; [exact H|]. now apply existsb_eqb_false.
  Qed.

  Lemma fold_dset_nodup : forall (l d0 : list (K * V)),
    NoDup (map fst (d0 ++ l)) ->
    fold_left (fun d kv => dset eqb d (fst kv) (snd kv)) l d0 = d0 ++ l.
  Proof.
    induction l as [|[k v] l IH]; intros d0 H; cbn [fold_left fst snd].
    - now rewrite app_nil_r.
    - rewrite dset_fresh.
      + rewrite IH; rewrite <- app_assoc; [reflexivity|exact H].
      + rewrite map_app in H. cbn [map fst] in H. apply NoDup_remove_2 in H.
        intro Hin. apply H. rewrite in_app_iff. now left.
  Qed.

  Lemma fold_dset_keys_nodup : forall (l d0 : list (K * V)),
    NoDup (map fst d0) -> NoDup (map fst (fold_left (fun d kv => dset eqb d (fst kv) (snd kv)) l d0)).
  Proof.
    induction l as [|[k v] l IH]; intros d0 H; cbn [fold_left]; [exact H|].
    apply IH. now apply dset_nodup.
  Qed.
End Dict.

Lemma cand_roundtrip : forall c, cand_of_tokens (cand_to_tokens c) = Ok c.
Proof.
  intros [f comp proto prio ip port ty ra rp tt].
  destruct ra as [a|], rp as [p|], tt as [t|]; reflexivity.
Qed.

(* token lists in the order candidate_to_sdp writes them *)
Definition canonical_tokens (ts : list ctok) : Prop :=
  exists (f : str) (comp : Z) (proto : str) (prio : Z) (ip : str) (port : Z) (ty : str)
         (ra : option str) (rp : option Z) (tt : option str),
    ts = [TS f; TI comp; TS proto; TI prio; TS ip; TI port; TS s_typ; TS ty]
         ++ match ra with Some a => [TS s_raddr; TS a] | None => [] end
         ++ match rp with Some p => [TS s_rport; TI p] | None => [] end
         ++ match tt with Some t => [TS s_tcptype; TS t] | None => [] end.

Lemma cand_roundtrip_tokens : forall ts, canonical_tokens ts ->
  exists c, cand_of_tokens ts = Ok c /\ cand_to_tokens c = ts.
Proof.
  intros ts (f & comp & proto & prio & ip & port & ty & ra & rp & tt & ->).
  exists (mkCand f comp proto prio ip port ty ra rp tt).
  split; [|reflexivity].
  exact (cand_roundtrip (mkCand f comp proto prio ip port ty ra rp tt)).
Qed.

(* whatever the extension tokens, a second trip is stable *)
Lemma cand_idempotent : forall ts c, cand_of_tokens ts = Ok c ->
  cand_of_tokens (cand_to_tokens c) = Ok c.
Proof. intros. apply cand_roundtrip. Qed.

Lemma seg1_app : forall b y, seg1 (b ++ SLASH :: y) = seg1 b.
Proof.
  induction b as [|c b IH]; intros y; cbn [seg1 app].
  - now rewrite Z.eqb_refl.
  - destruct (Z.eqb c SLASH); [reflexivity|]. now rewrite IH.
Qed.

Lemma seg1_idem : forall x, seg1 (seg1 x) = seg1 x.
Proof.
  induction x as [|c x IH]; cbn [seg1]; [reflexivity|].
  destruct (Z.eqb c SLASH) eqn:E; cbn [seg1]; [reflexivity|]. now rewrite E, IH.
Qed.

Lemma name_of_kind : forall k x n,
  name_of (k ++ SLASH :: x) = Some n -> name_of (k ++ SLASH :: n) = Some n.
Proof.
  unfold name_of. induction k as [|c k IH]; intros x n H; cbn [app after_slash] in *.
  - rewrite Z.eqb_refl in *. inversion H; subst. now rewrite seg1_idem.
  - destruct (Z.eqb c SLASH) eqn:E.
    + inversion H; subst. now rewrite !seg1_app.
    + now apply IH with x.
Qed.

Lemma name_of_some : forall k x, exists n, name_of (k ++ SLASH :: x) = Some n.
Proof.
  unfold name_of. induction k as [|c k IH]; intros x; cbn [app after_slash].
  - rewrite Z.eqb_refl. eauto.
  - destruct (Z.eqb c SLASH); eauto.
Qed.
