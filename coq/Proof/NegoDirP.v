(* What an exchange between well-formed connections leaves (C03): an answer whose sections are negotiated against
   the offer's, and complementary current directions. *)
From Coq Require Import ZArith List Bool Lia.
From AV Require Import Model.Nego Proof.NegoP Proof.NegoExP Proof.NegoWfP.
Import ListNotations.
Local Open Scope Z_scope.

(* every audio/video section was answered from the transceiver that setRemoteDescription(offer) negotiated it on:
   the mid is on one transceiver of the answerer only *)
Lemma exchange_media : forall fixed T a b x, exchange fixed T a b = Ok x -> wf T a -> wf T b -> S a = S b ->
  Forall2 (section_ok T) (d_media (x_offer x)) (d_media (x_answer x)).
Proof.
  intros fixed T a b x H Wa Wb Hsync.
  destruct (exchange_wf _ _ _ _ _ H Wa Wb Hsync) as [_ [_ [_ Wb1]]].
  destruct (exchange_shape _ _ _ _ _ H) as [_ [_ [[O1 _] _]]].
  destruct (exchange_steps _ _ _ _ _ H) as [a1 [offer [a2 [b1 [answer [b2 [a3 [H1 [H2 [H3 [H4 [H5 [H6 ->]]]]]]]]]]]]].
  cbn [x_a x_b x_offer x_answer] in *. specialize (Wb1 b1 H3).
  destruct (set_remote_description_spec _ _ _ _ _ H3) as [_ [R3 [_ R8]]]. rewrite O1 in R8.
  assert (Hnd : NoDup (map m_mid (d_media offer))) by (rewrite <- secs_of_mids; apply (ws_nodup _ _ _ Wb1)).
  destruct (create_answer_spec _ _ H4) as [_ [_ [_ [o [A4 A5]]]]]. rewrite R3 in A4. injection A4 as <-.
  eapply Forall2_impl; [|exact A5].
  intros mo ma Hin Hrel Hav. destruct Hrel as [[_ [t [dd [tr [F1 [F2 [F3 ->]]]]]]]|[Hav' _]]; [|congruence].
  destruct (R8 Hnd mo Hin Hav) as [t' [G1 G2]].
  rewrite (find_mid_unique _ _ _ _ (ws_al _ _ _ Wb1) G1 (proj1 (proj2 G2))) in F1. injection F1 as ->.
  destruct G2 as [_ [_ [c0 [md [N1 [N2 [N3 [N4 [N5 N6]]]]]]]]]. cbn [Z.eqb] in N6.
  exists c0, (t_preferred t), md, dd, (t_direction t).
  cbn [media_for_transceiver m_codecs m_exts m_dir]. rewrite N6 in F2. repeat split; auto.
Qed.

Theorem exchange_mirrors : forall fixed T a b x, exchange fixed T a b = Ok x -> wf T a -> wf T b -> S a = S b -> mirrors T x.
Proof.
  intros fixed T a b x H Wa Wb Hsync. destruct (exchange_shape _ _ _ _ _ H) as [M1 [M2 [M3 [M4 [M5 M6]]]]].
  constructor; auto. exact (exchange_media _ _ _ _ _ H Wa Wb Hsync).
Qed.

Definition dir_rel (t t' : transceiver) : Prop :=
  tinfo t' = tinfo t /\
  (forall o d, t_offerDirection t = Some o -> and_direction (Some (t_direction t)) (Some o) = Ok d ->
               t_currentDirection t' = Some d).

Lemma local_directions_rel : forall trs trs', local_directions true trs = Ok trs' -> Forall2 dir_rel trs trs'.
Proof.
  induction trs as [|t ts IH]; intros trs' H; cbn [local_directions] in H.
  - injection H as <-. constructor.
  - bind_inv H t' Ht'. bind_inv H ts' Hts'. injection H as <-. constructor; [|apply IH; exact Hts'].
    destruct (t_offerDirection t) as [o|] eqn:Eo.
    + bind_inv Ht' d Hd. injection Ht' as <-. split; [reflexivity|].
      intros o' d' E1 E2. cbn. congruence.
    + injection Ht' as <-. split; [reflexivity|]. intros o d E. congruence.
Qed.

(* for every audio/video section of the answer: the two transceivers carrying that mid (one per side, unique)
   have the answered direction on the answerer and its reverse on the offerer *)
Definition section_directions (x : exchanged) (ma : media) : Prop :=
  is_av (m_kind ma) = true ->
  exists ta tb da,
    m_dir ma = Some da /\
    In ta (p_trs (x_a x)) /\ t_mid ta = Some (m_mid ma) /\ t_kind ta = m_kind ma /\
    In tb (p_trs (x_b x)) /\ t_mid tb = Some (m_mid ma) /\ t_kind tb = m_kind ma /\
    t_currentDirection tb = Some da /\ t_currentDirection ta = Some (reverse_direction da) /\
    (forall t, In t (p_trs (x_a x)) -> t_mid t = Some (m_mid ma) -> t = ta) /\
    (forall t, In t (p_trs (x_b x)) -> t_mid t = Some (m_mid ma) -> t = tb).

Lemma exchange_directions : forall T a b x, exchange true T a b = Ok x -> wf T a -> wf T b -> S a = S b ->
  Forall (section_directions x) (d_media (x_answer x)).
Proof.
  intros T a b x H Wa Wb Hsync.
  destruct (exchange_wf _ _ _ _ _ H Wa Wb Hsync) as [Wa3 [Wb2 [_ Wb1]]].
  destruct (exchange_shape _ _ _ _ _ H) as [_ [_ [_ [Msec _]]]].
  destruct (exchange_steps _ _ _ _ _ H) as [a1 [offer [a2 [b1 [answer [b2 [a3 [H1 [H2 [H3 [H4 [H5 [H6 ->]]]]]]]]]]]]].
  cbn [x_a x_b x_offer x_answer] in *. specialize (Wb1 b1 H3).
  assert (Eans : secs_of (d_media answer) = secs_of (d_media offer)) by exact Msec.
  destruct (create_answer_spec _ _ H4) as [_ [At [_ [o [Ho Hrel]]]]].
  destruct (set_remote_description_spec _ _ _ _ _ H3) as [_ [R3 _]]. rewrite R3 in Ho. injection Ho as <-.
  rewrite <- Eans in Wb1. destruct (set_local_answer_wfs _ true b1 answer b2 H5 At Wb1) as [_ Hld].
  pose proof (local_directions_rel _ _ Hld) as Hdr.
  destruct (set_remote_description_spec _ _ _ _ _ H6) as [_ [_ [_ Q8]]]. rewrite At in Q8.
  assert (Hnda : NoDup (map m_mid (d_media answer))) by (rewrite <- secs_of_mids; apply (ws_nodup _ _ _ Wb1)).
  apply Forall_forall. intros ma Hma Hav.
  (* the offerer's transceiver of the section: setRemoteDescription(answer) stored the reverse of the answered direction *)
  destruct (Q8 Hnda ma Hma Hav) as [ta [Hina Hna]].
  destruct Hna as [Hka [Hma' [c0 [da [_ [_ [_ [_ [Hda Hcur]]]]]]]]]. cbn [Z.eqb] in Hcur.
  (* the answerer's: createAnswer took the direction from the transceiver that setLocalDescription(answer) then updates *)
  destruct (Forall2_In_l _ _ _ _ _ _ Hrel Hma) as [mo [Hmo Hr]].
  destruct Hr as [[Havo [tb [dd [tr [F1 [F2 [F3 E]]]]]]]|[Havo [s [mid [tr [_ [_ [_ E]]]]]]]]; [|rewrite E in Hav; cbn in Hav; discriminate].
  assert (Edd : da = dd) by (rewrite E in Hda; cbn in Hda; congruence).
  assert (Emid : m_mid ma = m_mid mo) by (rewrite E; reflexivity).
  assert (Ekind : m_kind ma = t_kind tb) by (rewrite E; reflexivity).
  apply find_some in F1. destruct F1 as [Hinb Hmidb]. apply mid_is_true in Hmidb.
  destruct (t_offerDirection tb) as [ob|] eqn:Eob; [|rewrite and_direction_none in F2; discriminate].
  destruct (Forall2_In_r _ _ _ _ _ _ Hdr Hinb) as [tb' [Hinb' [Hti Hcb]]].
  apply tinfo_fields in Hti. destruct Hti as [Hak _]. apply akey_fields in Hak. destruct Hak as [Hkb [Hmb _]].
  exists ta, tb', da. split; [exact Hda|]. split; [exact Hina|]. split; [exact Hma'|]. split; [exact Hka|].
  split; [exact Hinb'|]. split; [rewrite Hmb, Emid; exact Hmidb|]. split; [rewrite Hkb; symmetry; exact Ekind|].
  split; [rewrite Edd; apply (Hcb ob dd Eob F2)|]. split; [exact Hcur|]. split.
  - intros t Hin Hm. apply (aligned_same_mid _ _ _ _ _ (wf_al _ _ Wa3) Hin Hina Hm Hma').
  - intros t Hin Hm. apply (aligned_same_mid _ _ _ _ _ (wf_al _ _ Wb2) Hin Hinb' Hm). rewrite Hmb, Emid. exact Hmidb.
Qed.
