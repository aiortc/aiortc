(* Proofs about Model/Rtp.v, part 4 (for property C05): unpack_header_extensions,
   HeaderExtensionsMap.get and RtpPacket.parse return a value or ValueError on EVERY
   byte string -- never another exception, never out of fuel. *)
From Coq Require Import ZArith List Bool Lia.
From AV Require Import Lib.Bytes Lib.BytesP Lib.RtpX Gen.RtpConst Model.Rtp Proof.RtpBitsP.
Import ListNotations.
Local Open Scope Z_scope.

Ltac Zify.zify_post_hook ::= Z.to_euclidean_division_equations.

Lemma unpack_one_total fuel : forall rest, (length rest < fuel)%nat -> benign (unpack_one fuel rest).
Proof.
  induction fuel as [|f IH]; intros rest Hf; [lia|].
  cbn [unpack_one]. destruct rest as [|b rest']; [exact I|]. cbn [length] in Hf.
  destruct (b =? 0); [apply IH; lia|].
  destruct (Z.ltb_spec (len rest') (Z.land b 15 + 1)); [exact I|].
  apply bind_benign; [apply IH; rewrite skipn_length; lia|intros; exact I].
Qed.

Lemma unpack_two_total fuel : forall rest, (length rest < fuel)%nat -> benign (unpack_two fuel rest).
Proof.
  induction fuel as [|f IH]; intros rest Hf; [lia|].
  cbn [unpack_two]. destruct rest as [|b rest']; [exact I|]. cbn [length] in Hf.
  destruct (b =? 0); [apply IH; lia|].
  destruct rest' as [|l rest'']; [exact I|]. cbn [length] in Hf.
  destruct (Z.ltb_spec (len rest'') l); [exact I|].
  apply bind_benign; [apply IH; rewrite skipn_length; lia|intros; exact I].
Qed.

Theorem unpack_header_extensions_total profile b :
  bytes_ok b -> benign (unpack_header_extensions profile b).
Proof.
  intros _. unfold unpack_header_extensions.
  destruct (profile =? 48862); [apply unpack_one_total; lia|].
  destruct (profile =? 4096); [apply unpack_two_total; lia|exact I].
Qed.

Lemma get_step_total m acc x : benign (get_step m acc x).
Proof.
  destruct x as [x_id x_value]. unfold get_step.
  destruct (ideq (id_mid m) x_id); [destruct (utf8_valid x_value); exact I|].
  destruct (ideq (id_rrid m) x_id); [destruct (ascii_valid x_value); exact I|].
  destruct (ideq (id_rid m) x_id); [destruct (ascii_valid x_value); exact I|].
  destruct (ideq (id_abs m) x_id && Nat.eqb (length x_value) 3) eqn:E1.
  { apply andb_true_iff in E1 as [_ E]. apply Nat.eqb_eq in E.
    destruct (u24_some x_value 0) as [v ->]; [lia|exact I]. }
  destruct (ideq (id_toffset m) x_id && Nat.eqb (length x_value) 3) eqn:E2.
  { apply andb_true_iff in E2 as [_ E]. apply Nat.eqb_eq in E.
    destruct (u24_some x_value 0) as [v ->]; [lia|exact I]. }
  destruct (ideq (id_audio m) x_id && Nat.eqb (length x_value) 1) eqn:E3.
  { apply andb_true_iff in E3 as [_ E]. apply Nat.eqb_eq in E.
    destruct (u8_some x_value 0) as [v ->]; [lia|exact I]. }
  destruct (ideq (id_tsn m) x_id && Nat.eqb (length x_value) 2) eqn:E4.
  { apply andb_true_iff in E4 as [_ E]. apply Nat.eqb_eq in E.
    destruct (u16_some x_value 0) as [v ->]; [lia|exact I]. }
  exact I.
Qed.

Lemma get_fold_total m xs : forall acc, benign (get_fold m acc xs).
Proof.
  induction xs as [|x xs IH]; intros acc; cbn [get_fold]; [exact I|].
  apply bind_benign; [apply get_step_total|intros acc' _; apply IH].
Qed.

Theorem hdrext_get_total m profile b : bytes_ok b -> benign (hext_get m profile b).
Proof.
  intros H. unfold hext_get. apply bind_benign; [now apply unpack_header_extensions_total|].
  intros xs _. apply get_fold_total.
Qed.

Lemma last_byte_some l : l <> [] -> exists v, last_byte l = Some v.
Proof.
  intros H. unfold last_byte. destruct l as [|a l']; [congruence|].
  destruct (nth_error (a :: l') (length (a :: l') - 1)) eqn:E; [eauto|].
  apply nth_error_None in E. cbn [length] in E. lia.
Qed.

Theorem rtp_parse_total m b : bytes_ok b -> benign (rtp_parse m b).
Proof.
  intros Hok. unfold rtp_parse.
  destruct (Nat.ltb (length b) 12) eqn:Hl; [exact I|]. apply Nat.ltb_ge in Hl.
  destruct (u8_some b 0) as [v Hv]; [lia|]. destruct (u8_some b 1) as [mpt Hm]; [lia|].
  destruct (u16_some b 2) as [seq Hs]; [lia|]. destruct (u32_some b 4) as [ts Ht]; [lia|].
  destruct (u32_some b 8) as [ss Hss]; [lia|]. rewrite Hv, Hm, Hs, Ht, Hss.
  apply u8_range in Hv; [|exact Hok].
  destruct (negb (Z.shiftr v 6 =? 2)); [exact I|].
  rewrite land_15.
  destruct (Z.ltb_spec (len b) (12 + v mod 16 * 4)) as [|Hcc]; [exact I|].
  destruct (u32s_some b 12 (Z.to_nat (v mod 16))) as [cs ->]; [unfold len in Hcc; lia|].
  apply bind_benign.
  - destruct (Z.land (Z.shiftr v 4) 1 =? 0); [exact I|].
    destruct (Nat.ltb (length b) (12 + 4 * Z.to_nat (v mod 16) + 4)) eqn:H4; [exact I|].
    apply Nat.ltb_ge in H4.
    destruct (u16_some b (12 + 4 * Z.to_nat (v mod 16))) as [pr ->]; [lia|].
    destruct (u16_some b (12 + 4 * Z.to_nat (v mod 16) + 2)) as [w ->]; [lia|].
    cbv zeta.
    destruct (Nat.ltb (length b) _); [exact I|].
    apply bind_benign; [apply hdrext_get_total; now apply bytes_ok_slice|intros; exact I].
  - intros [exts pos1] _. apply bind_benign; [|intros [pl ps] _; exact I].
    destruct (Z.land (Z.shiftr v 5) 1 =? 0); [exact I|].
    destruct (last_byte_some b) as [pl ->]; [destruct b; [cbn in Hl; lia|discriminate]|].
    destruct ((pl =? 0) || (len b - Z.of_nat pos1 <? pl)); exact I.
Qed.
