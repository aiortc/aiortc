(* NackGenerator (Model/RtpRecv.v): the missing set is exactly the skipped-and-not-arrived
   numbers of the RTP_HISTORY_SIZE window behind max_seq; the while loop ends. *)
From Coq Require Import ZArith List Bool Lia ZifyBool.
From AV Require Import Lib.Bytes Gen.Utils Gen.RtpConst Model.RtpRecv Proof.SerialP.
Import ListNotations.
Local Open Scope Z_scope.
Ltac Zify.zify_post_hook ::= Z.to_euclidean_division_equations.

Definition behind (m x : Z) : Z := (m - x) mod 65536.

Definition in_window (m x : Z) : Prop := 1 <= behind m x <= rtp_RTP_HISTORY_SIZE.

Definition skipped (m s x : Z) : Prop := 0 < behind x m < behind s m.

Definition NInv (g : nackgen) : Prop :=
  match max_seq g with
  | None => missing g = []
  | Some m => in16 m /\ forall x, In x (missing g) -> in16 x /\ in_window m x
  end.

Lemma NInv_init : NInv nack_init.
Proof. reflexivity. Qed.

(* `behind` stays folded in the proofs below: these equations turn every step into linear
   arithmetic over distances, each reduced modulo 2^16 at most once. *)
Lemma behind_range m x : 0 <= behind m x < 65536.
Proof. apply Z.mod_pos_bound. reflexivity. Qed.

Lemma behind_self a : behind a a = 0.
Proof. unfold behind. rewrite Z.sub_diag. reflexivity. Qed.

Lemma behind_sum a b c : behind a b + behind b c < 65536 -> behind a c = behind a b + behind b c.
Proof. unfold behind. lia. Qed.

Lemma behind_diff a x c : behind x c <= behind a c -> behind a x = behind a c - behind x c.
Proof. unfold behind. lia. Qed.

Lemma behind_add_l a k x : behind (uint16_add a k) x = (behind a x + k) mod 65536.
Proof.
  unfold behind. rewrite uint16_add_mod, Zminus_mod_idemp_l, Zplus_mod_idemp_l. f_equal. ring.
Qed.

Lemma behind_succ x a : behind x (uint16_add a 1) = (behind x a - 1) mod 65536.
Proof.
  unfold behind. rewrite uint16_add_mod, Zminus_mod_idemp_r, Zminus_mod_idemp_l. f_equal. ring.
Qed.

Lemma behind_succ_pos x a : 0 < behind x a -> behind x (uint16_add a 1) = behind x a - 1.
Proof. intros H. rewrite behind_succ. apply Z.mod_small. pose proof (behind_range x a). lia. Qed.

Lemma behind_0 a b : in16 a -> in16 b -> (behind a b = 0 <-> a = b).
Proof.
  intros Ha Hb. split; [unfold behind, in16 in *; lia|]. intros ->. apply behind_self.
Qed.

Lemma gt_behind a b : in16 a -> in16 b -> (uint16_gt a b = true <-> 0 < behind a b < 32768).
Proof. exact (uint16_gt_spec a b). Qed.

Lemma in_window_neq m x : in_window m x -> x <> m.
Proof. intros H ->. unfold in_window in H. rewrite behind_self in H. lia. Qed.

Lemma skipped_succ m s x : 0 < behind s m ->
  (behind x (uint16_add m 1) < behind s (uint16_add m 1) <-> skipped m s x).
Proof.
  intros H. rewrite !behind_succ. unfold skipped. pose proof (behind_range x m). pose proof (behind_range s m). lia.
Qed.

Lemma mark_loop_spec fuel : forall target start miss missed,
  in16 target -> in16 start -> behind target start < 32768 -> behind target start < Z.of_nat fuel ->
  exists miss',
    mark_loop fuel target start miss missed = Some (miss', missed || (0 <? behind target start)) /\
    forall x, In x miss' <-> In x miss \/ in16 x /\ behind x start < behind target start.
Proof.
  induction fuel as [|f IH]; intros target start miss missed Ht Hs Hd Hf; pose proof (behind_range target start) as Hr.
  - lia.
  - cbn [mark_loop]. destruct (uint16_gt target start) eqn:E.
    + apply (gt_behind _ _ Ht Hs) in E.
      pose proof (behind_succ_pos target start (proj1 E)) as E1.
      destruct (IH target (uint16_add start 1) (start :: miss) true Ht (uint16_add_range _ _)) as [miss' [EL EI]];
        [lia|lia|].
      exists miss'. split.
      * rewrite EL, (proj2 (Z.ltb_lt 0 (behind target start))) by lia. rewrite orb_true_r. reflexivity.
      * intros x. rewrite EI, (skipped_succ start target x (proj1 E)). cbn [In]. unfold skipped.
        pose proof (behind_range x start) as Hx. split.
        -- intros [[<-|H]|[Hx16 H]]; [right; rewrite behind_self; split; [exact Hs|lia]|left; exact H|].
           right. split; [exact Hx16|lia].
        -- intros [H|[Hx16 H]]; [left; right; exact H|].
           destruct (Z.eq_dec (behind x start) 0) as [Hz|Hz]; [left; left; symmetry; exact (proj1 (behind_0 x start Hx16 Hs) Hz)|].
           right. split; [exact Hx16|lia].
    + apply not_true_iff_false in E. rewrite (gt_behind _ _ Ht Hs) in E.
      exists miss. split; [rewrite (proj2 (Z.ltb_ge 0 (behind target start))) by lia; rewrite orb_false_r; reflexivity|].
      intros x. pose proof (behind_range x start). split; [auto|]. intros [Hin|[_ Hlt]]; [exact Hin|lia].
Qed.

Lemma in_discard x y l : In x (discard y l) <-> In x l /\ x <> y.
Proof.
  unfold discard. rewrite filter_In. rewrite negb_true_iff, Z.eqb_neq. reflexivity.
Qed.

Lemma MARK_FUEL_val : MARK_FUEL = Z.to_nat 65537.
Proof. reflexivity. Qed.

(* truncate() keeps what is at most RTP_HISTORY_SIZE behind the maximum (or far ahead of it) *)
Lemma kept_behind m x : in16 m -> in16 x ->
  (negb (uint16_gt (uint16_add m (- rtp_RTP_HISTORY_SIZE)) x) = true <-> ~ 128 < behind m x < 32896).
Proof.
  intros Hm Hx. rewrite negb_true_iff, <- not_true_iff_false, (gt_behind _ _ (uint16_add_range _ _) Hx), behind_add_l.
  pose proof (behind_range m x). unfold rtp_RTP_HISTORY_SIZE. lia.
Qed.

Lemma in_truncate m l x : in16 m -> (forall y, In y l -> in16 y) ->
  (In x (missing (truncate (mkNack (Some m) l))) <-> In x l /\ ~ 128 < behind m x < 32896).
Proof.
  intros Hm Hl. cbn [truncate max_seq missing]. rewrite filter_In.
  split; intros [Hin H]; (split; [exact Hin|]); apply (kept_behind m x Hm (Hl x Hin)); exact H.
Qed.

(* For EVERY state satisfying the invariant and EVERY 16-bit sequence number: the loop ends,
   the invariant is kept, max_seq is the serial maximum, and the new missing set is exactly:
   in the window behind the new maximum, not the arriving number, and either missing before
   or skipped by this arrival.  `missed` is returned iff some number was skipped. *)
Theorem nack_add_spec g s :
  NInv g -> in16 s ->
  exists g' missed,
    nack_add g s = Some (g', missed) /\ NInv g' /\
    match max_seq g with
    | None => max_seq g' = Some s /\ missing g' = [] /\ missed = false
    | Some m =>
        let m' := if uint16_gt s m then s else m in
        max_seq g' = Some m' /\
        (forall x, In x (missing g') <->
                   in_window m' x /\ x <> s /\ in16 x /\
                   (In x (missing g) \/ (uint16_gt s m = true /\ skipped m s x))) /\
        (missed = true <-> uint16_gt s m = true /\ 2 <= behind s m)
    end.
Proof.
  intros HI Hs. unfold nack_add. unfold NInv in HI. destruct (max_seq g) as [m|] eqn:Em.
  - destruct HI as [Hm HI].
    assert (HI16 : forall y, In y (missing g) -> in16 y) by (intros y Hy; exact (proj1 (HI y Hy))).
    destruct (uint16_gt s m) eqn:Egt.
    + (* newer: mark the skipped numbers, then truncate behind s *)
      apply (gt_behind _ _ Hs Hm) in Egt. pose proof (behind_succ_pos s m (proj1 Egt)) as Es.
      destruct (mark_loop_spec MARK_FUEL s (uint16_add m 1) (missing g) false Hs (uint16_add_range _ _))
        as [miss' [EL EI]]; [lia|rewrite MARK_FUEL_val; lia|].
      rewrite EL. eexists; eexists. split; [reflexivity|].
      assert (H16 : forall y, In y miss' -> in16 y).
      { intros y Hy. apply EI in Hy. destruct Hy as [Hy|[Hy _]]; [exact (HI16 y Hy)|exact Hy]. }
      assert (Hchar : forall x, In x (missing (truncate (mkNack (Some s) miss'))) <->
                in_window s x /\ x <> s /\ in16 x /\ (In x (missing g) \/ true = true /\ skipped m s x)).
      { intros x. rewrite (in_truncate s miss' x Hs H16), EI, (skipped_succ m s x (proj1 Egt)). split.
        - (* an old or skipped number is less than 2^15 + RTP_HISTORY_SIZE behind s *)
          intros [Hsrc Hk]. assert (Hw : in_window s x /\ in16 x).
          { unfold in_window, rtp_RTP_HISTORY_SIZE. destruct Hsrc as [Hin|[Hx Hsk]].
            - destruct (HI x Hin) as [Hx Hw]. unfold in_window, rtp_RTP_HISTORY_SIZE in Hw.
              pose proof (behind_sum s m x) as E. split; [lia|exact Hx].
            - unfold skipped in Hsk. pose proof (behind_diff s x m) as E. split; [lia|exact Hx]. }
          split; [exact (proj1 Hw)|]. split; [exact (in_window_neq s x (proj1 Hw))|]. split; [exact (proj2 Hw)|].
          destruct Hsrc as [Hin|[_ Hsk]]; auto.
        - intros (Hw & _ & Hx & Hsrc). unfold in_window, rtp_RTP_HISTORY_SIZE in Hw. split; [|lia].
          destruct Hsrc as [Hin|[_ Hsk]]; auto. }
      split; [|split; [reflexivity|split; [exact Hchar|]]].
      * unfold NInv. cbn [truncate max_seq]. split; [exact Hs|]. intros x Hx. apply Hchar in Hx. tauto.
      * cbn [orb]. rewrite Z.ltb_lt. split; [intros H; split; [reflexivity|lia]|lia].
    + (* not newer: discard, then truncate behind m, which removes nothing *)
      eexists; eexists. split; [reflexivity|].
      assert (H16 : forall y, In y (discard s (missing g)) -> in16 y).
      { intros y Hy. apply in_discard in Hy. exact (HI16 y (proj1 Hy)). }
      assert (Hchar : forall x, In x (missing (truncate (mkNack (Some m) (discard s (missing g))))) <->
                in_window m x /\ x <> s /\ in16 x /\ (In x (missing g) \/ false = true /\ skipped m s x)).
      { intros x. rewrite (in_truncate m _ x Hm H16), in_discard. split.
        - intros [[Hin Hne] _]. destruct (HI x Hin) as [Hx Hw]. auto.
        - intros (Hw & Hne & Hx & [Hin|[Hf _]]); [|discriminate]. split; [auto|].
          unfold in_window, rtp_RTP_HISTORY_SIZE in Hw. lia. }
      split; [|split; [reflexivity|split; [exact Hchar|]]].
      * unfold NInv. cbn [truncate max_seq]. split; [exact Hm|]. intros x Hx. apply Hchar in Hx. tauto.
      * split; [discriminate|]. intros [H _]. discriminate.
  - eexists; eexists. split; [reflexivity|]. unfold NInv. cbn [max_seq missing]. rewrite HI.
    split; [|auto]. split; [exact Hs|]. intros x [].
Qed.

Fixpoint nack_run (g : nackgen) (l : list Z) : option nackgen :=
  match l with
  | [] => Some g
  | x :: l' => match nack_add g x with Some (g', _) => nack_run g' l' | None => None end
  end.

Lemma nack_run_inv l : forall g, NInv g -> Forall in16 l -> exists g', nack_run g l = Some g' /\ NInv g'.
Proof.
  induction l as [|x l IH]; intros g HI HF; [exists g; auto|].
  inversion HF as [|? ? Hx HF']; subst. cbn [nack_run].
  destruct (nack_add_spec g x HI Hx) as (g1 & ms & E & HI1 & _). rewrite E. apply IH; assumption.
Qed.

Lemma In_ins x y l : In x (ins y l) <-> y = x \/ In x l.
Proof.
  induction l as [|z t IH]; cbn [ins]; [reflexivity|].
  destruct (Z.ltb_spec y z); [reflexivity|].
  destruct (Z.eqb_spec y z) as [->|Hne]; [split; [auto|intros [<-|Hin]; [left; reflexivity|exact Hin]]|].
  cbn [In]. rewrite IH, <- !or_assoc, (or_comm (z = x)). reflexivity.
Qed.

Lemma In_sorted_set x l : In x (sorted_set l) <-> In x l.
Proof.
  induction l as [|y t IH]; cbn [sorted_set fold_right In]; [tauto|].
  fold (sorted_set t). rewrite In_ins, IH. reflexivity.
Qed.

Definition lt_all (x : Z) (l : list Z) : Prop := Forall (fun y => x < y) l.

Fixpoint increasing (l : list Z) : Prop :=
  match l with
  | [] => True
  | x :: t => lt_all x t /\ increasing t
  end.

Lemma increasing_ins y l : increasing l -> increasing (ins y l).
Proof.
  induction l as [|z t IH]; intros H; cbn [ins]; [cbn; split; [constructor|exact I]|].
  destruct H as [Hz Ht].
  destruct (Z.ltb_spec y z) as [Hlt|Hge].
  - cbn [increasing]. split; [|split; assumption].
    constructor; [exact Hlt|]. unfold lt_all in *. rewrite Forall_forall in *. intros w Hw. specialize (Hz w Hw). lia.
  - destruct (Z.eqb_spec y z) as [->|Hne]; [cbn [increasing]; split; assumption|].
    cbn [increasing]. split; [|apply IH; exact Ht].
    unfold lt_all in *. rewrite Forall_forall in *. intros w Hw. apply In_ins in Hw.
    destruct Hw as [<-|Hw]; [lia|apply Hz; exact Hw].
Qed.

Lemma increasing_sorted_set l : increasing (sorted_set l).
Proof.
  induction l as [|y t IH]; [exact I|]. cbn [sorted_set fold_right]. fold (sorted_set t).
  apply increasing_ins. exact IH.
Qed.

Lemma increasing_NoDup l : increasing l -> NoDup l.
Proof.
  induction l as [|x t IH]; intros H; [constructor|]. destruct H as [Hx Ht].
  constructor; [|apply IH; exact Ht]. intros Hin. unfold lt_all in Hx. rewrite Forall_forall in Hx.
  specialize (Hx x Hin). lia.
Qed.

Definition window_list (m : Z) : list Z :=
  map (fun k => uint16_add m (- Z.of_nat k)) (seq 1 (Z.to_nat rtp_RTP_HISTORY_SIZE)).

Lemma window_list_length m : length (window_list m) = Z.to_nat rtp_RTP_HISTORY_SIZE.
Proof. unfold window_list. rewrite map_length, seq_length. reflexivity. Qed.

Lemma in_window_list m x : in16 x -> in_window m x -> In x (window_list m).
Proof.
  intros Hx Hw. unfold window_list. apply in_map_iff. exists (Z.to_nat (behind m x)).
  unfold in_window, behind, rtp_RTP_HISTORY_SIZE in *. split.
  - rewrite Z2Nat.id by lia. rewrite uint16_add_mod. unfold in16 in Hx. lia.
  - apply in_seq. lia.
Qed.

Lemma nack_list_bounded g : NInv g ->
  (length (sorted_set (missing g)) <= Z.to_nat rtp_RTP_HISTORY_SIZE)%nat.
Proof.
  intros HI. unfold NInv in HI. destruct (max_seq g) as [m|].
  - destruct HI as [_ HI]. rewrite <- (window_list_length m). apply NoDup_incl_length.
    + apply increasing_NoDup, increasing_sorted_set.
    + intros x Hx. apply (proj1 (In_sorted_set _ _)) in Hx. destruct (HI x Hx). apply in_window_list; assumption.
  - rewrite HI. cbn. lia.
Qed.

Theorem nack_bounded l : Forall in16 l ->
  exists g, nack_run nack_init l = Some g /\
    match max_seq g with
    | Some m => in16 m /\ forall x, In x (missing g) -> in16 x /\ in_window m x
    | None => missing g = []
    end /\
    (length (sorted_set (missing g)) <= 128)%nat /\
    increasing (sorted_set (missing g)) /\
    (forall x, In x (sorted_set (missing g)) <-> In x (missing g)).
Proof.
  intros HF. destruct (nack_run_inv l nack_init NInv_init HF) as (g & E & HI).
  exists g. split; [exact E|]. split; [exact HI|]. split; [exact (nack_list_bounded g HI)|].
  split; [apply increasing_sorted_set|]. intros x. apply In_sorted_set.
Qed.
