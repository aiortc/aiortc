(* Proofs about Model/Rtcp.v, part 3: a generic NACK denotes the same set of 16-bit
   sequence numbers before and after __bytes__ / parse, for EVERY list of 16-bit numbers
   (any order, duplicates, across the 65535 -> 0 wrap). *)
From Coq Require Import ZArith List Bool Lia.
From AV Require Import Lib.Bytes Lib.BytesP Lib.RtpX Gen.RtpConst Model.Rtcp
  Proof.RtpBitsP Proof.RtcpP Proof.RtcpPktP.
Import ListNotations.
Local Open Scope Z_scope.

Ltac Zify.zify_post_hook ::= Z.to_euclidean_division_equations.

Definition is_seq16 (x : Z) : Prop := 0 <= x < 65536.

Lemma nack_entry_parse pid blp :
  0 <= pid < 65536 -> 0 <= blp < 65536 ->
  nack_parse (be16 pid ++ be16 blp) = Ok (nack_expand pid blp).
Proof.
  intros Hp Hb. unfold be16. cbn [app nack_parse bind]. rewrite app_nil_r. do 2 f_equal; lia.
Qed.

Theorem nack_set_roundtrip fmt ssrc media lost :
  0 <= fmt <= 31 -> is_u32 ssrc -> is_u32 media -> Forall is_seq16 lost -> zlen lost <= 65532 ->
  exists b lost',
    rtcp_bytes (Rtpfb fmt ssrc media lost) = Ok b /\
    rtcp_parse b = Ok [Rtpfb fmt ssrc media lost'] /\
    Forall is_seq16 lost' /\ (forall x, In x lost' <-> In x lost).
Proof.
  intros Hf Hs Hm Hl Hn.
  destruct (rtpfb_roundtrip fmt ssrc media lost Hf Hs Hm Hl Hn) as (b & Hb & _ & Hlen & Hstep).
  assert (Hmem := fun x => nack_parsed_members lost x Hl).
  exists b, (nack_parsed lost). split; [exact Hb|]. split; [|split; [|exact Hmem]].
  - unfold rtcp_parse. rewrite <- (app_nil_r b) at 2. rewrite Hstep.
    destruct (length b) as [|n]; [lia|reflexivity].
  - rewrite Forall_forall in *. intros x Hx. now apply Hl, Hmem.
Qed.
