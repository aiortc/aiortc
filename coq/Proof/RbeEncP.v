(* Proofs about Model/Rbe.v (property C15): every estimate reported along a run
   is small enough for REMB, and its SSRC list fits the one-byte count. *)
From Coq Require Import ZArith List Bool Lia.
From AV Require Import Lib.Sx Lib.Bytes Model.RateCounter Model.Aimd Model.Rbe
  Proof.RateCounterP Proof.AimdP Proof.RbeP Proof.RbeRembP.
Import ListNotations.
Local Open Scope Z_scope.

Definition ssrc_ok (x : Z) : Prop := 0 <= x < 4294967296.

Lemma lastn_length {A} n (l : list A) : (length (lastn n l) <= n)%nat.
Proof. unfold lastn. rewrite skipn_length. lia. Qed.

Lemma Forall_lastn {A} (P : A -> Prop) n l : Forall P l -> Forall P (lastn n l).
Proof.
  intros H. unfold lastn. rewrite <- (firstn_skipn (length l - n) l) in H.
  apply Forall_app in H. apply H.
Qed.

Lemma Forall_note (P : Z -> Prop) seen k : Forall P seen -> P k -> Forall P (note seen k).
Proof.
  intros Hs Hk. unfold note. destruct (existsb (Z.eqb k) seen); [exact Hs|].
  apply Forall_app. split; [exact Hs|]. constructor; [exact Hk|constructor].
Qed.

Definition sum_sizes (l : list arrival) : Z := fold_right (fun a acc => a_size a + acc) 0 l.

Definition good_out {B} (M : Z) (o : option (Z * list Z) * B) : Prop :=
  match fst o with
  | None => True
  | Some (e, ss) => 0 <= e <= M /\ (length ss <= 255)%nat /\ Forall ssrc_ok ss
  end.

Lemma sum_sizes_nonneg l : Forall (fun a => 0 <= a_size a) l -> 0 <= sum_sizes l.
Proof.
  induction l as [|a l IH]; intros H; cbn [sum_sizes fold_right]; [lia|].
  apply Forall_cons_iff in H. destruct H as [H1 H2]. specialize (IH H2). unfold sum_sizes in IH. lia.
Qed.

(* M bounds the estimates, C the payload bytes of the whole history *)
Lemma enc_run M C l : forall s v,
  30000000 <= M -> C * 24000 + 20002 <= M * 2 ->
  views s v -> VInv v -> BInv v -> nondecreasing (ocons (v_last v) (map a_time l)) ->
  Forall (fun a => 0 <= a_size a) l -> fl_admissible s l ->
  Forall ssrc_ok (keys (v_ssrcs v)) -> Forall (fun a => ssrc_ok (a_ssrc a)) l ->
  vsum_all (v_smp v) + sum_sizes l <= C -> latest (v_control v) <= C * 8000 -> cb (v_control v) <= M ->
  exists s' outs, run s l = (s', outs, 0) /\ Forall (good_out M) outs.
Proof.
  induction l as [|a l IH]; intros s v HM HC Hs HV HB Hm Hsz Hfl Hseen Hss Hsum Hlat Hprev; cbn [run]; [eauto|].
  destruct (nondecreasing_ocons _ _ _ Hm) as [Hle Hm'].
  apply Forall_cons_iff in Hsz. destruct Hsz as [Hs0 Hsz'].
  apply Forall_cons_iff in Hss. destruct Hss as [Hss0 Hss'].
  pose proof (sum_sizes_nonneg l Hsz') as Hsn.
  cbn [sum_sizes fold_right] in Hsum. fold (sum_sizes l) in Hsum.
  destruct (rbe_add_ok s v a Hs HV Hle) as (s' & v' & o & E & Ev & Hs' & HV' & Hl').
  cbn [fl_admissible] in Hfl. rewrite E in *. destruct Hfl as [Hfl1 Hfl].
  rewrite (views_control _ _ Hs') in Hfl1.
  destruct (view_add_bounds v a v' o HV HB Hs0 Ev Hfl1) as (HB' & Hvs & HT & Ho).
  assert (Hseen' : Forall ssrc_ok (keys (v_ssrcs v'))).
  { destruct (view_add_inv v a v' o (proj1 HV) Ev) as (_ & _ & -> & _). apply Forall_note; assumption. }
  (* a rising estimate is below 1.5 T + 10000 and T <= 8000 C; otherwise it is below the previous one *)
  assert (Hg : cb (v_control v') <= M /\ good_out M (o, observe s' (a_time a))).
  { destruct o as [[e ss]|]; [|split; [lia|exact I]].
    destruct Ho as (<- & -> & He0 & Hrise & _). destruct (Hfl1 ltac:(discriminate)) as (Fc & _).
    assert (HeM : cb (v_control v') <= M).
    { destruct (Z.lt_ge_cases (cb (v_control v)) (cb (v_control v'))) as [Hlt|Hge]; [specialize (Hrise Hlt)|]; lia. }
    split; [exact HeM|]. split; [lia|]. split; [apply lastn_length|]. apply Forall_lastn. exact Hseen'. }
  rewrite <- Hl' in Hm'.
  destruct (IH s' v' HM HC Hs' HV' HB' Hm' Hsz' Hfl Hseen' Hss') as (s2 & outs & -> & G2); try lia.
  eexists; eexists; split; [reflexivity|]. constructor; [apply Hg|exact G2].
Qed.

(* with less than 2^60 payload bytes in the whole history every estimate is below 2^80 *)
Theorem rbe_estimates_small : forall l,
  nondecreasing (map a_time l) -> Forall (fun a => 0 <= a_size a) l -> fl_admissible rbe_init l ->
  Forall (fun a => ssrc_ok (a_ssrc a)) l -> sum_sizes l <= 2 ^ 60 ->
  exists s outs, run rbe_init l = (s, outs, 0) /\ Forall (good_out (2 ^ 80)) outs.
Proof.
  intros l Hm Hs Hf Hu Hsum.
  refine (enc_run (2 ^ 80) (2 ^ 60) l rbe_init view_init _ _ views_init VInv_init BInv_init Hm Hs Hf
                  (Forall_nil _) Hu Hsum _ _);
    change (2 ^ 80) with 1208925819614629174706176; change (2 ^ 60) with 1152921504606846976; cbn; lia.
Qed.

(* ... and therefore pack_remb_fci succeeds on every estimate the run returns,
   and the packet decodes to the same SSRC list and a value v <= estimate *)
Definition encodable_out {B} (o : option (Z * list Z) * B) : Prop :=
  match fst o with
  | None => True
  | Some (e, ss) =>
      0 <= e < 2 ^ 81 /\ (length ss <= 255)%nat /\
      exists bs v, pack_remb_fci e ss = Ok bs /\ unpack_remb_fci bs = Ok (v, ss) /\ v <= e
  end.

Theorem rbe_estimates_encodable : forall l,
  nondecreasing (map a_time l) -> Forall (fun a => 0 <= a_size a) l -> fl_admissible rbe_init l ->
  Forall (fun a => 0 <= a_ssrc a < 4294967296) l -> sum_sizes l <= 2 ^ 60 ->
  exists s outs, run rbe_init l = (s, outs, 0) /\ Forall encodable_out outs.
Proof.
  intros l Hm Hs Hf Hu Hsum.
  destruct (rbe_estimates_small l Hm Hs Hf Hu Hsum) as (s & outs & E & G).
  exists s, outs. split; [exact E|]. eapply Forall_impl; [|exact G].
  intros [[[e ss]|] lat]; unfold good_out, encodable_out; cbn [fst]; [|auto].
  intros (He & Hl & Hss).
  assert (He81 : 0 <= e < 2 ^ 81).
  { change (2 ^ 80) with 1208925819614629174706176 in He.
    change (2 ^ 81) with 2417851639229258349412352. lia. }
  destruct (remb_roundtrip e ss He81 Hl Hss) as (bs & m & k & Ep & _ & _ & Eu & _ & _ & Hle & _).
  split; [exact He81|]. split; [exact Hl|]. exists bs, (m * 2 ^ k). split; [exact Ep|]. split; [exact Eu|lia].
Qed.
