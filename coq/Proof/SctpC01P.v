(* C01 / C06 safety: whatever the receiver delivers is an exact copy of a message
   the sender fragmented, for every arrival list over the sent chunks. *)
From Coq Require Import ZArith List Bool Lia.
From AV Require Import Lib.Bytes Lib.BytesP Gen.Utils Gen.SctpConst Model.SctpRecv Model.SctpSend Proof.SctpRecvP.
From AV Require Import Proof.SctpPopP.
Import ListNotations.
Local Open Scope Z_scope.

(* a TSN-consecutive list whose only E fragment is the final chunk *)
Inductive runf : Z -> list chunk -> Prop :=
| runf_last c : last c = true -> runf (tsn c) [c]
| runf_cons c f : last c = false -> runf (tsn_plus_one (tsn c)) f -> runf (tsn c) (c :: f).

(* what _send produces: additionally only the head carries B, and stream / ppid are uniform *)
Inductive frags (st sq pp : Z) (un : bool) : Z -> bool -> list chunk -> Prop :=
| frags_last c : last c = true -> sid c = st -> sseq c = sq -> ppid c = pp -> unordered c = un ->
    frags st sq pp un (tsn c) (first c) [c]
| frags_cons c f : last c = false -> sid c = st -> sseq c = sq -> ppid c = pp -> unordered c = un ->
    frags st sq pp un (tsn_plus_one (tsn c)) false f ->
    frags st sq pp un (tsn c) (first c) (c :: f).

Lemma runf_hd t f : runf t f -> exists c f', f = c :: f' /\ tsn c = t.
Proof. intros H. destruct H; eauto. Qed.

Lemma frags_hd st sq pp un t b f : frags st sq pp un t b f -> exists c f', f = c :: f' /\ tsn c = t /\ first c = b.
Proof. intros H. destruct H; eauto. Qed.

(* a run with the E flag on its newest fragment *)
Lemma chain_runf h f p : chain h f p -> exists f0, f = f0 ++ [p] /\ forall g, runf (tsn p) g -> runf (tsn h) (f0 ++ g).
Proof.
  induction 1 as [|f p c _ (f0 & -> & IH) Hl Et]; [now exists []|].
  exists (f0 ++ [p]). split; [reflexivity|]. intros g Hg. rewrite <- app_assoc. apply IH.
  apply runf_cons; [exact Hl|]. now rewrite <- Et.
Qed.

Lemma complete_runf f : complete f -> exists h f', f = h :: f' /\ first h = true /\ runf (tsn h) f.
Proof.
  intros (h & p & Hc & Hl). destruct (chain_hd _ _ _ Hc) as (f' & E). exists h, f'. split; [exact E|].
  split; [exact (chain_first_flag _ _ _ Hc)|].
  destruct (chain_runf _ _ _ Hc) as (f0 & -> & H). apply H. now apply runf_last.
Qed.

Definition tsn_inj (S : list chunk) : Prop :=
  forall a b, In a S -> In b S -> tsn a = tsn b -> a = b.

Lemma frags_runf_match S st sq pp un : forall f t b, frags st sq pp un t b f ->
  forall g, runf t g -> tsn_inj S -> incl f S -> incl g S -> f = g.
Proof.
  intros f t b Hf. induction Hf as [c Hl|c f Hl Hs Hq Hp Hu Hf IH]; intros g Hg Hinj HfS HgS.
  - inversion Hg as [c' Hl' Ht|c' g' Hl' Hg' Ht]; subst.
    + f_equal. apply Hinj; auto; [apply HfS; now left|apply HgS; now left].
    + assert (c = c') by (apply Hinj; auto; [apply HfS; now left|apply HgS; now left]). subst. congruence.
  - inversion Hg as [c' Hl' Ht|c' g' Hl' Hg' Ht]; subst.
    + assert (c = c') by (apply Hinj; auto; [apply HfS; now left|apply HgS; now left]). subst. congruence.
    + assert (c = c') by (apply Hinj; auto; [apply HfS; now left|apply HgS; now left]). subst c'.
      f_equal. apply IH; auto.
      * intros x Hx. apply HfS. now right.
      * intros x Hx. apply HgS. now right.
Qed.

Lemma frags_only_head_first st sq pp un t b f : frags st sq pp un t b f ->
  forall x, In x (tl f) -> first x = false.
Proof.
  intros H. induction H as [c|c f Hl Hs Hq Hp Hu Hf IH]; cbn [tl]; [intros x []|].
  intros x Hx. destruct (frags_hd _ _ _ _ _ _ _ Hf) as (c' & f' & -> & _ & Hc').
  destruct Hx as [<-|Hx]; [exact Hc'|]. now apply IH.
Qed.

Lemma frags_uniform st sq pp un t b f : frags st sq pp un t b f ->
  Forall (fun c => sid c = st /\ ppid c = pp) f.
Proof. intros H. induction H; constructor; auto. Qed.

Lemma frags_last_elem st sq pp un t b f d : frags st sq pp un t b f ->
  sid (List.last f d) = st /\ ppid (List.last f d) = pp /\ last (List.last f d) = true.
Proof.
  intros H. induction H as [c|c f Hl Hs Hq Hp Hu Hf IH]; [cbn; auto|].
  destruct (frags_hd _ _ _ _ _ _ _ Hf) as (c' & f' & -> & _). exact IH.
Qed.

(* a sent message: its fragment list and what the application handed over *)
Record sentmsg := mkSent { sm_sid : Z; sm_ppid : Z; sm_data : bytes; sm_frags : list chunk }.

Definition sent_ok (m : sentmsg) : Prop :=
  exists sq un t, frags (sm_sid m) sq (sm_ppid m) un t true (sm_frags m) /\ join_data (sm_frags m) = sm_data m.

Definition all_chunks (ms : list sentmsg) : list chunk := concat (map sm_frags ms).

Lemma in_all_chunks ms c : In c (all_chunks ms) <-> exists m, In m ms /\ In c (sm_frags m).
Proof.
  unfold all_chunks. rewrite in_concat. split.
  - intros (f & Hf & Hc). apply in_map_iff in Hf as (m & <- & Hm). eauto.
  - intros (m & Hm & Hc). exists (sm_frags m). split; [now apply in_map|exact Hc].
Qed.

Lemma sent_msg m : sent_ok m -> run_msg (sm_frags m) = (sm_sid m, sm_ppid m, sm_data m).
Proof.
  intros (sq & un & t & Hfr & Hdata). unfold run_msg. rewrite Hdata.
  destruct (frags_last_elem _ _ _ _ _ _ _ no_chunk Hfr) as (-> & -> & _). reflexivity.
Qed.

Theorem complete_is_sent ms f :
  Forall sent_ok ms -> tsn_inj (all_chunks ms) -> complete f -> incl f (all_chunks ms) ->
  exists m, In m ms /\ f = sm_frags m.
Proof.
  intros Hok Hinj Hcr Hincl. destruct (complete_runf f Hcr) as (h & f' & E & Hfirst & Hrun).
  assert (Hh : In h (all_chunks ms)) by (apply Hincl; rewrite E; now left).
  apply in_all_chunks in Hh as (m & Hm & Hc0).
  rewrite Forall_forall in Hok. destruct (Hok m Hm) as (sq & un & t & Hfr & Hdata).
  (* h has B, so it is the head of m's fragments *)
  destruct (frags_hd _ _ _ _ _ _ _ Hfr) as (h' & g' & Hf & Hth & Hfh).
  assert (Hhead : h = h').
  { rewrite Hf in Hc0. destruct Hc0 as [E0|Hin]; [now symmetry|].
    exfalso. pose proof (frags_only_head_first _ _ _ _ _ _ _ Hfr h) as Hx.
    rewrite Hf in Hx. cbn [tl] in Hx. rewrite (Hx Hin) in Hfirst. discriminate. }
  exists m. split; [exact Hm|]. symmetry.
  apply (frags_runf_match (all_chunks ms) _ _ _ _ _ _ _ Hfr); [now rewrite <- Hth, <- Hhead|exact Hinj| |exact Hincl].
  intros x Hx. apply in_all_chunks. eauto.
Qed.

Definition chunks_in (S : list chunk) (s : rstate) : Prop := incl (allr (streams s)) S.

Definition msgs_sent (ms : list sentmsg) (out : list message) : Prop :=
  Forall (fun o => exists m, In m ms /\ o = (sm_sid m, sm_ppid m, sm_data m)) out.

Definition ev_ok (S : list chunk) (e : revent) : Prop :=
  match e with EvData c => In c S | EvFwd _ _ => True end.

Definition out_msgs (o : rout) : list message :=
  match o with OutOk d _ => d | OutAssert => [] end.

(* one event: what is queued afterwards and what is delivered was queued before, or is the chunk that
   the event brought and the receiver admitted *)
Lemma rstep_releases s e :
  exists D, releases (admitted s e ++ allr (streams s)) (allr (streams (fst (rstep s e)))) (out_msgs (snd (rstep s e))) D.
Proof.
  destruct e as [c|cum strs]; cbn [rstep].
  - destruct (receive_data s c) as [s1 ms|] eqn:E.
    + destruct (receive_data_releases _ _ _ _ E) as (D & H). exists D. exact H.
    + exists []. apply (releases_le _ _ _ _ _ (releases_nil _)). intros x. rewrite count_occ_app. cbn [fst]. lia.
  - destruct (receive_forward_tsn_releases s cum strs) as (D & H).
    destruct (receive_forward_tsn s cum strs) as [s1 ms]. exists D. exact H.
Qed.

Lemma rstep_ok ms s e :
  Forall sent_ok ms -> tsn_inj (all_chunks ms) -> chunks_in (all_chunks ms) s -> ev_ok (all_chunks ms) e ->
  chunks_in (all_chunks ms) (fst (rstep s e)) /\ msgs_sent ms (out_msgs (snd (rstep s e))).
Proof.
  intros Hok Hinj Hinv He. destruct (rstep_releases s e) as (D & R).
  assert (Hin : incl (allr (streams (fst (rstep s e))) ++ concat D) (all_chunks ms)).
  { apply (incl_tran (releases_incl _ _ _ _ R)). apply incl_app; [|exact Hinv].
    destruct e as [c|]; cbn [admitted ev_ok] in *; [|intros x []]. destruct (admits s c); [intros x [<-|[]]; exact He|intros x []]. }
  split; [exact (incl_tran (incl_appl _ (incl_refl _)) Hin)|].
  destruct R as (-> & Hc & _). apply Forall_map, Forall_forall. intros f Hf. rewrite Forall_forall in Hc, Hok.
  destruct (complete_is_sent ms f) as (m & Hm & ->); [now apply Forall_forall|exact Hinj|exact (Hc f Hf)| |].
  - intros x Hx. apply Hin, in_or_app. right. apply in_concat. now exists f.
  - exists m. split; [exact Hm|exact (sent_msg m (Hok m Hm))].
Qed.

Lemma rrun_cons s e es :
  rrun s (e :: es) = (fst (rrun (fst (rstep s e)) es), snd (rstep s e) :: snd (rrun (fst (rstep s e)) es)).
Proof.
  cbn [rrun]. destruct (rstep s e) as [s1 o]. cbn [fst snd]. destruct (rrun s1 es) as [s2 os]. reflexivity.
Qed.

(* Every message handed to the application, after ANY list of DATA arrivals drawn
   from the sent chunks (loss, duplication, reordering in any combination) and any
   FORWARD-TSN chunks, is an exact copy of a sent message with its stream and ppid. *)
Theorem delivered_is_sent ms : forall es s,
  Forall sent_ok ms -> tsn_inj (all_chunks ms) -> chunks_in (all_chunks ms) s ->
  Forall (ev_ok (all_chunks ms)) es ->
  Forall (fun o => msgs_sent ms (out_msgs o)) (snd (rrun s es)).
Proof.
  induction es as [|e es IH]; intros s Hok Hinj Hinv Hes; [constructor|].
  rewrite rrun_cons. cbn [snd]. inversion Hes as [|? ? He Hrest]; subst.
  destruct (rstep_ok ms s e Hok Hinj Hinv He) as [H1 H2].
  constructor; [exact H2|]. now apply IH.
Qed.

Lemma chunks_in_rinit S base : chunks_in S (rinit base).
Proof. intros x []. Qed.
