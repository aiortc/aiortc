(* Proofs about Model/Router.v (property C12). *)
From Coq Require Import ZArith List Bool Lia.
From AV Require Import Lib.Sx Lib.Bytes Lib.BytesP Gen.RtpConst Model.Router.
Import ListNotations.
Local Open Scope Z_scope.

Lemma lookup_In d k v : lookup d k = Some v -> In (k, v) d.
Proof.
  induction d as [|[k' v'] d IH]; cbn [lookup]; [discriminate|].
  destruct (Z.eqb_spec k k') as [->|Hne]; intros H.
  - injection H as ->. now left.
  - right. now apply IH.
Qed.

Lemma lookup_dremove_same d k : lookup (dremove d k) k = None.
Proof.
  induction d as [|[k' v'] d IH]; cbn [dremove lookup]; [reflexivity|].
  destruct (Z.eqb_spec k k') as [->|Hne]; [exact IH|].
  cbn [lookup]. destruct (Z.eqb_spec k k'); [contradiction|exact IH].
Qed.

Lemma lookup_dremove_other d k k' : k <> k' -> lookup (dremove d k) k' = lookup d k'.
Proof.
  intros Hne. induction d as [|[k2 v2] d IH]; cbn [dremove lookup]; [reflexivity|].
  destruct (Z.eqb_spec k k2) as [->|H2].
  - destruct (Z.eqb_spec k' k2) as [->|H3]; [contradiction|exact IH].
  - cbn [lookup]. destruct (Z.eqb_spec k' k2); [reflexivity|exact IH].
Qed.

Lemma lookup_dset_same d k v : lookup (dset d k v) k = Some v.
Proof. unfold dset; cbn [lookup]. now rewrite Z.eqb_refl. Qed.

Lemma lookup_dset_other d k v k' : k <> k' -> lookup (dset d k v) k' = lookup d k'.
Proof.
  intros Hne. unfold dset; cbn [lookup].
  destruct (Z.eqb_spec k' k) as [->|_]; [contradiction|].
  now apply lookup_dremove_other.
Qed.

Definition noval (d : dict) (r : Z) : Prop := Forall (fun kv => snd kv <> r) d.

Lemma noval_lookup d r k : noval d r -> lookup d k <> Some r.
Proof.
  intros H E. apply lookup_In in E. unfold noval in H. rewrite Forall_forall in H.
  apply H in E. now apply E.
Qed.

Lemma noval_dremove d r k : noval d r -> noval (dremove d k) r.
Proof.
  unfold noval. induction d as [|[k' v'] d IH]; cbn [dremove]; intros H; [constructor|].
  inversion H as [|? ? H1 H2]; subst. destruct (Z.eqb k k'); [now apply IH|].
  constructor; [exact H1|now apply IH].
Qed.

Lemma noval_dset d r k v : noval d r -> v <> r -> noval (dset d k v) r.
Proof. intros H Hv. unfold dset. constructor; [exact Hv|now apply noval_dremove]. Qed.

Lemma noval_discard_same d r : noval (discard d r) r.
Proof.
  unfold noval, discard. rewrite Forall_forall. intros [k v] Hin.
  apply filter_In in Hin as [_ Hf]. cbn [snd] in *.
  destruct (Z.eqb_spec v r); [discriminate|assumption].
Qed.

Lemma noval_discard d r r' : noval d r -> noval (discard d r') r.
Proof.
  unfold noval, discard. rewrite !Forall_forall. intros H x Hin.
  apply filter_In in Hin as [Hin _]. now apply H.
Qed.

Lemma lookup_discard_keep d r' k v :
  lookup d k = Some v -> v <> r' -> lookup (discard d r') k = Some v.
Proof.
  induction d as [|[k2 v2] d IH]; cbn [lookup discard filter]; [discriminate|].
  intros H Hv. destruct (Z.eqb_spec k k2) as [->|Hne].
  - injection H as ->. cbn [snd]. destruct (Z.eqb_spec v r'); [contradiction|].
    cbn [negb lookup]. now rewrite Z.eqb_refl.
  - cbn [snd]. destruct (negb (v2 =? r')).
    + cbn [lookup]. destruct (Z.eqb_spec k k2); [contradiction|]. now apply IH.
    + now apply IH.
Qed.

Lemma mem_In x l : mem x l = true <-> In x l.
Proof.
  unfold mem. rewrite existsb_exists. split.
  - intros [y [Hy E]]. apply Z.eqb_eq in E. now subst.
  - intros H. exists x. split; [exact H|apply Z.eqb_refl].
Qed.

Lemma In_sadd x y l : In x (sadd y l) <-> x = y \/ In x l.
Proof.
  unfold sadd. destruct (mem y l) eqn:E.
  - apply mem_In in E. split; [now right|]. intros [->|H]; assumption.
  - cbn [In]. split; intros [H|H]; auto.
Qed.

Lemma NoDup_sadd y l : NoDup l -> NoDup (sadd y l).
Proof.
  intros H. unfold sadd. destruct (mem y l) eqn:E; [exact H|].
  constructor; [|exact H]. intros Hin. apply mem_In in Hin. congruence.
Qed.

Lemma In_sdiscard x y l : In x (sdiscard y l) <-> In x l /\ x <> y.
Proof.
  unfold sdiscard. rewrite filter_In. split; intros [H1 H2]; split; try exact H1.
  - destruct (Z.eqb_spec x y); [discriminate|assumption].
  - destruct (Z.eqb_spec x y); [contradiction|reflexivity].
Qed.

Lemma NoDup_sdiscard y l : NoDup l -> NoDup (sdiscard y l).
Proof. intros H. unfold sdiscard. now apply NoDup_filter. Qed.

Lemma In_sunion x a b : In x (sunion a b) <-> In x a \/ In x b.
Proof.
  induction a as [|y a IH]; cbn [sunion In]; [tauto|].
  rewrite In_sadd, IH. intuition congruence.
Qed.

Lemma In_lookups d ks v : In v (lookups d ks) <-> exists k, In k ks /\ lookup d k = Some v.
Proof.
  unfold lookups. induction ks as [|k ks IH]; cbn [fold_right In].
  - split; [tauto|]. intros [k [[] _]].
  - destruct (lookup d k) as [w|] eqn:E.
    + rewrite In_sadd, IH. split.
      * intros [->|[k' [H1 H2]]]; [exists k; auto|exists k'; auto].
      * intros [k' [[->|H1] H2]]; [left; congruence|right; exists k'; auto].
    + rewrite IH. split.
      * intros [k' [H1 H2]]; exists k'; auto.
      * intros [k' [[->|H1] H2]]; [congruence|exists k'; auto].
Qed.

Lemma noval_lookups d r : noval d r -> forall ks, ~ In r (lookups d ks).
Proof. intros H ks Hin. apply In_lookups in Hin as [k [_ Hk]]. exact (noval_lookup d r k H Hk). Qed.

Definition ptall (P : list Z -> Prop) (t : pttable) : Prop := Forall (fun e => P (snd e)) t.
Definition ptnodup (t : pttable) : Prop := Forall (fun e => NoDup (snd e)) t.
Definition ptabsent (t : pttable) (r : Z) : Prop := ptall (fun l => ~ In r l) t.

Lemma pt_get_all (P : list Z -> Prop) t pt : P [] -> ptall P t -> P (pt_get t pt).
Proof.
  intros H0 H. induction H as [|[p rs] t H1 H2 IH]; cbn [pt_get]; [exact H0|].
  destruct (Z.eqb pt p); assumption.
Qed.

Lemma pt_add_all (P : list Z -> Prop) t pt r :
  P [r] -> (forall l, P l -> P (sadd r l)) -> ptall P t -> ptall P (pt_add t pt r).
Proof.
  intros Hr Hs H. induction H as [|[p rs] t H1 H2 IH]; cbn [pt_add].
  - constructor; [exact Hr|constructor].
  - cbn [snd] in H1. destruct (Z.eqb pt p); constructor; cbn [snd]; auto.
Qed.

Lemma pt_discard_all (P : list Z -> Prop) t r :
  (forall l, P l -> P (sdiscard r l)) -> ptall P t -> ptall P (pt_discard t r).
Proof. intros Hd H. unfold ptall, pt_discard. rewrite Forall_map. revert H. apply Forall_impl. intros e. apply Hd. Qed.

Lemma pt_get_add t pt r pt' x :
  In x (pt_get (pt_add t pt r) pt') <-> In x (pt_get t pt') \/ (pt' = pt /\ x = r).
Proof.
  induction t as [|[p rs] t IH]; cbn [pt_add pt_get].
  - destruct (Z.eqb_spec pt' pt); cbn [In]; intuition congruence.
  - destruct (Z.eqb_spec pt p); cbn [pt_get]; destruct (Z.eqb_spec pt' p); rewrite ?In_sadd;
      intuition congruence.
Qed.

Lemma pt_discard_absent_same t r : ptabsent (pt_discard t r) r.
Proof.
  unfold ptabsent, ptall, pt_discard. rewrite Forall_map, Forall_forall. intros e _. cbn [snd].
  rewrite In_sdiscard. tauto.
Qed.

Lemma pt_get_discard t r pt x : In x (pt_get (pt_discard t r) pt) <-> In x (pt_get t pt) /\ x <> r.
Proof.
  unfold pt_discard. induction t as [|[p rs] t IH]; cbn [map pt_get fst snd]; [tauto|].
  destruct (Z.eqb pt p); [apply In_sdiscard|exact IH].
Qed.

(* folds used by register_receiver *)
Lemma fold_dset_noval ssrcs d r r' :
  noval d r -> r' <> r -> noval (fold_left (fun d ssrc => dset d ssrc r') ssrcs d) r.
Proof.
  revert d. induction ssrcs as [|x xs IH]; cbn [fold_left]; intros d H Hne; [exact H|].
  apply IH; [now apply noval_dset|exact Hne].
Qed.

Lemma fold_ptadd_all (P : list Z -> Prop) pts t r :
  P [r] -> (forall l, P l -> P (sadd r l)) -> ptall P t ->
  ptall P (fold_left (fun t pt => pt_add t pt r) pts t).
Proof.
  intros Hr Hs. revert t. induction pts as [|x xs IH]; cbn [fold_left]; intros t H; [exact H|].
  apply IH. now apply pt_add_all.
Qed.

Lemma fold_dset_lookup ssrcs d r k :
  lookup (fold_left (fun d ssrc => dset d ssrc r) ssrcs d) k =
  if mem k ssrcs then Some r else lookup d k.
Proof.
  revert d. induction ssrcs as [|x xs IH]; cbn [fold_left]; intros d; [reflexivity|].
  rewrite IH. unfold mem at 2. cbn [existsb]. fold (mem k xs).
  destruct (mem k xs); [now rewrite orb_true_r|]. rewrite orb_false_r.
  destruct (Z.eqb_spec k x) as [->|Hne]; [apply lookup_dset_same|].
  apply lookup_dset_other. congruence.
Qed.

Lemma fold_ptadd_get pts t r pt x :
  In x (pt_get (fold_left (fun t pt => pt_add t pt r) pts t) pt) <->
  In x (pt_get t pt) \/ (In pt pts /\ x = r).
Proof.
  revert t. induction pts as [|p ps IH]; cbn [fold_left In]; intros t; [tauto|].
  rewrite IH, pt_get_add. split.
  - intros [[H|[-> ->]]|[H ->]]; auto.
  - intros [H|[[->|H] ->]]; auto.
Qed.

Definition accepts (s : router) (r pt : Z) : Prop := In r (pt_get (pt_table s) pt).
Definition ssrc_of (s : router) (ssrc : Z) : option Z := lookup (ssrc_table s) ssrc.
Definition latch (s : router) (ssrc r : Z) : router :=
  mkRouter (receivers s) (senders s) (mid_table s) (dset (ssrc_table s) ssrc r) (pt_table s).

(* a packet is dropped, or handed to a receiver that accepts its payload type; the only
   change of state there can be is the latch of an SSRC that was unknown *)
Lemma route_rtp_eq s ssrc pt :
  route_rtp s ssrc pt = (None, s) \/
  exists r, accepts s r pt /\
    (route_rtp s ssrc pt = (Some r, s) \/ ssrc_of s ssrc = None /\ route_rtp s ssrc pt = (Some r, latch s ssrc r)).
Proof.
  unfold route_rtp, accepts, ssrc_of. destruct (lookup (ssrc_table s) ssrc) as [r|].
  - destruct (mem r _) eqn:M; [right|now left]. apply mem_In in M. eauto.
  - destruct (pt_get (pt_table s) pt) as [|r [|r2 l]]; [now left| |now left].
    right. exists r. split; [now left|]. right. split; reflexivity.
Qed.

Definition inv (s : router) : Prop := ptnodup (pt_table s) /\ NoDup (receivers s).

Lemma inv_empty : inv empty.
Proof. split; cbn; constructor. Qed.

Lemma inv_step s o : inv s -> inv (fst (step s o)).
Proof.
  intros [H1 H2]. destruct o as [r ssrcs pts mid|sh ssrc|r|sh|ssrc pt|p]; cbn [step fst].
  - split; cbn; [|now apply NoDup_sadd].
    apply (fold_ptadd_all (@NoDup Z)); [repeat constructor; intros []|intros l; apply NoDup_sadd|exact H1].
  - split; assumption.
  - split; cbn; [|now apply NoDup_sdiscard].
    apply (pt_discard_all (@NoDup Z)); [intros l; apply NoDup_sdiscard|exact H1].
  - split; assumption.
  - destruct (route_rtp_eq s ssrc pt) as [->|(r & _ & [->|[_ ->]])]; split; assumption.
  - destruct (route_rtcp s p) as [[rs ss] e]. cbn. split; assumption.
Qed.

Definition rabsent (s : router) (r : Z) : Prop :=
  ~ In r (receivers s) /\ noval (mid_table s) r /\ noval (ssrc_table s) r /\ ptabsent (pt_table s) r.

Definition sabsent (s : router) (h : Z) : Prop := noval (senders s) h.

Lemma unregister_receiver_rabsent s r : rabsent (unregister_receiver s r) r.
Proof.
  unfold rabsent, unregister_receiver; cbn. repeat split.
  - rewrite In_sdiscard. tauto.
  - apply noval_discard_same.
  - apply noval_discard_same.
  - apply pt_discard_absent_same.
Qed.

Lemma unregister_sender_sabsent s h : sabsent (unregister_sender s h) h.
Proof. unfold sabsent, unregister_sender; cbn. apply noval_discard_same. Qed.

Definition registers_recv (o : op) (r : Z) : Prop :=
  match o with RegRecv r' _ _ _ => r' = r | _ => False end.
Definition registers_send (o : op) (h : Z) : Prop :=
  match o with RegSend h' _ => h' = h | _ => False end.

Lemma rabsent_step s o r : rabsent s r -> ~ registers_recv o r -> rabsent (fst (step s o)) r.
Proof.
  intros (H1 & H2 & H3 & H4) Hn.
  destruct o as [r' ssrcs pts mid|sh ssrc|r'|sh|ssrc pt|p]; cbn [step fst registers_recv] in *.
  - unfold rabsent; cbn. repeat split.
    + rewrite In_sadd. intros [E|E]; [congruence|auto].
    + destruct mid; [apply noval_dset; [assumption|congruence]|assumption].
    + apply fold_dset_noval; [assumption|congruence].
    + apply fold_ptadd_all; [intros [E|[]]; congruence| |exact H4].
      intros l Hl. rewrite In_sadd. intros [E|E]; [congruence|auto].
  - unfold rabsent; cbn. auto.
  - unfold rabsent; cbn. repeat split.
    + rewrite In_sdiscard. tauto.
    + now apply noval_discard.
    + now apply noval_discard.
    + apply pt_discard_all; [|exact H4]. intros l Hl. rewrite In_sdiscard. tauto.
  - unfold rabsent; cbn. auto.
  - destruct (route_rtp_eq s ssrc pt) as [->|(r1 & Ha & [->|[_ ->]])]; unfold rabsent; cbn; auto.
    repeat split; auto. apply noval_dset; [assumption|].
    intros ->. exact (pt_get_all _ _ pt (@in_nil _ r) H4 Ha).
  - destruct (route_rtcp s p) as [[rs ss] e]. cbn. unfold rabsent; auto.
Qed.

Lemma sabsent_step s o h : sabsent s h -> ~ registers_send o h -> sabsent (fst (step s o)) h.
Proof.
  unfold sabsent. intros H Hn.
  destruct o as [r' ssrcs pts mid|sh ssrc|r'|sh|ssrc pt|p]; cbn [step fst registers_send] in *.
  - exact H.
  - cbn. apply noval_dset; [assumption|congruence].
  - exact H.
  - cbn. now apply noval_discard.
  - destruct (route_rtp_eq s ssrc pt) as [->|(r & _ & [->|[_ ->]])]; exact H.
  - destruct (route_rtcp s p) as [[rs ss] e]. cbn. assumption.
Qed.

Definition rtcp_recv_ssrcs (p : rtcp) : list Z :=
  match p with Sr ssrc _ => [ssrc] | Bye sources => sources | _ => [] end.

Definition rtcp_send_ssrcs (p : rtcp) : list Z :=
  match p with
  | Sr _ reports => reports
  | Rr reports => reports
  | Rtpfb m => [m]
  | Psfb fmt m fci =>
      if Z.eqb fmt rtp_RTCP_PSFB_APP then
        match unpack_remb_ssrcs fci with RembOk l => m :: l | _ => [m] end
      else [m]
  | _ => []
  end.

(* route_rtcp looks these SSRCs up.  For a REMB it looks up the media SSRC and the listed
   ones separately and unites the results, which is the lookup of the whole list. *)
Lemma route_rtcp_eq s p :
  route_rtcp s p = (lookups (ssrc_table s) (rtcp_recv_ssrcs p), lookups (senders s) (rtcp_send_ssrcs p), false) \/
  unpack_remb_ssrcs match p with Psfb _ _ fci => fci | _ => [] end = RembCrash /\ route_rtcp s p = ([], [], true).
Proof.
  destruct p as [ssrc reports|reports| |sources|m|fmt m fci]; cbn [route_rtcp rtcp_recv_ssrcs rtcp_send_ssrcs];
    try (left; reflexivity).
  destruct (fmt =? rtp_RTCP_PSFB_APP); [|left; reflexivity].
  destruct (unpack_remb_ssrcs fci) as [l| |]; [left|left; reflexivity|right; split; reflexivity].
  unfold lookups. cbn [fold_right]. destruct (lookup (senders s) m); reflexivity.
Qed.

Definition out_mentions_recv (x : out) (r : Z) : Prop :=
  match x with
  | ONone => False
  | ORtp o => o = Some r
  | ORtcp rs _ _ => In r rs
  end.
Definition out_mentions_send (x : out) (h : Z) : Prop :=
  match x with ORtcp _ ss _ => In h ss | _ => False end.

Lemma rabsent_out s o r : rabsent s r -> ~ out_mentions_recv (snd (step s o)) r.
Proof.
  intros (H1 & H2 & H3 & H4).
  destruct o as [r' ssrcs pts mid|sh ssrc|r'|sh|ssrc pt|p]; cbn [step snd out_mentions_recv]; auto.
  - destruct (route_rtp_eq s ssrc pt) as [->|(r1 & Ha & [->|[_ ->]])]; cbn; try discriminate.
    all: intros [= ->]; exact (pt_get_all _ _ pt (@in_nil _ r) H4 Ha).
  - destruct (route_rtcp_eq s p) as [->|[_ ->]]; cbn [snd out_mentions_recv]; [apply (noval_lookups _ _ H3)|intros []].
Qed.

Lemma sabsent_out s o h : sabsent s h -> ~ out_mentions_send (snd (step s o)) h.
Proof.
  unfold sabsent. intros H.
  destruct o as [r' ssrcs pts mid|sh ssrc|r'|sh|ssrc pt|p]; cbn [step snd out_mentions_send]; auto.
  - destruct (route_rtp s ssrc pt). cbn. auto.
  - destruct (route_rtcp_eq s p) as [->|[_ ->]]; cbn [snd out_mentions_send]; [apply (noval_lookups _ _ H)|intros []].
Qed.

Lemma run_cons s o ops :
  run s (o :: ops) = (fst (run (fst (step s o)) ops), snd (step s o) :: snd (run (fst (step s o)) ops)).
Proof.
  cbn [run]. destruct (step s o) as [s1 x]. cbn [fst snd]. destruct (run s1 ops) as [s2 xs]. reflexivity.
Qed.

Lemma run_invariant (I : router -> Prop) (A : op -> Prop) (Q : out -> Prop) :
  (forall s o, I s -> A o -> I (fst (step s o)) /\ Q (snd (step s o))) ->
  forall ops s, I s -> Forall A ops -> I (fst (run s ops)) /\ Forall Q (snd (run s ops)).
Proof.
  intros Hstep. induction ops as [|o ops IH]; intros s Hs Hops; [split; [exact Hs|constructor]|].
  inversion Hops as [|? ? Ho Hrest]; subst. destruct (Hstep s o Hs Ho) as [Hs1 Hq].
  destruct (IH _ Hs1 Hrest) as [Hs2 Hqs]. rewrite run_cons. split; [exact Hs2|constructor; assumption].
Qed.

Lemma inv_run ops s : inv s -> inv (fst (run s ops)).
Proof.
  intros H. apply (run_invariant inv (fun _ => True) (fun _ => True)); [|exact H|now apply Forall_forall].
  intros s' o H' _. split; [now apply inv_step|exact I].
Qed.

Lemma nodup_unique_singleton (l : list Z) r :
  NoDup l -> In r l -> (forall x, In x l -> x = r) -> l = [r].
Proof.
  intros Hnd Hin Hall. destruct l as [|a [|b l]].
  - destruct Hin.
  - f_equal. apply Hall. now left.
  - exfalso. assert (a = r) by (apply Hall; now left). assert (b = r) by (apply Hall; right; now left).
    subst. inversion Hnd as [|? ? Hn _]; subst. apply Hn. now left.
Qed.

Theorem route_rtp_known s ssrc pt r :
  ssrc_of s ssrc = Some r ->
  route_rtp s ssrc pt = (if mem r (pt_get (pt_table s) pt) then Some r else None, s).
Proof.
  unfold ssrc_of, route_rtp. intros ->. destruct (mem r _); reflexivity.
Qed.

Theorem route_rtp_spec s ssrc pt :
  inv s ->
  let '(res, s') := route_rtp s ssrc pt in
  match res with
  | Some r =>
      accepts s r pt /\
      ((ssrc_of s ssrc = Some r /\ s' = s) \/
       (ssrc_of s ssrc = None /\ (forall r', accepts s r' pt -> r' = r) /\ s' = latch s ssrc r))
  | None =>
      s' = s /\
      match ssrc_of s ssrc with
      | Some r => ~ accepts s r pt
      | None => (forall r, ~ accepts s r pt) \/ (exists r1 r2, r1 <> r2 /\ accepts s r1 pt /\ accepts s r2 pt)
      end
  end.
Proof.
  intros [Hnd _]. unfold route_rtp, ssrc_of, accepts.
  destruct (lookup (ssrc_table s) ssrc) as [r|] eqn:E.
  - destruct (mem r (pt_get (pt_table s) pt)) eqn:M.
    + apply mem_In in M. split; [exact M|]. left. auto.
    + split; [reflexivity|]. intros Hin. apply mem_In in Hin. congruence.
  - pose proof (pt_get_all _ _ pt (NoDup_nil Z) Hnd) as Hn.
    destruct (pt_get (pt_table s) pt) as [|r1 [|r2 l]] eqn:E2.
    + split; [reflexivity|]. left. intros r [].
    + split; [now left|]. right. split; [reflexivity|]. split; [|reflexivity].
      intros r' [H|[]]. congruence.
    + split; [reflexivity|]. right. exists r1, r2. split; [|split; [now left|right; now left]].
      intros ->. inversion Hn as [|? ? Hx _]; subst. apply Hx. now left.
Qed.

(* converse direction: the cases in which a packet must be routed *)
Theorem route_rtp_complete s ssrc pt r :
  inv s -> accepts s r pt ->
  (ssrc_of s ssrc = Some r \/ (ssrc_of s ssrc = None /\ forall r', accepts s r' pt -> r' = r)) ->
  fst (route_rtp s ssrc pt) = Some r.
Proof.
  intros [Hnd _] Hacc Hcase. unfold route_rtp, ssrc_of, accepts in *.
  destruct Hcase as [E|[E Huniq]]; rewrite E.
  - apply mem_In in Hacc. now rewrite Hacc.
  - rewrite (nodup_unique_singleton _ r (pt_get_all _ _ pt (NoDup_nil Z) Hnd) Hacc Huniq). reflexivity.
Qed.

Definition disturbs (o : op) (ssrc r : Z) : Prop :=
  match o with
  | RegRecv r' ssrcs _ _ => In ssrc ssrcs /\ r' <> r
  | UnregRecv r' => r' = r
  | _ => False
  end.

Definition latched (s : router) (ssrc pt r : Z) : Prop :=
  ssrc_of s ssrc = Some r /\ accepts s r pt.

Lemma latched_after_latch s ssrc pt r :
  ssrc_of s ssrc = None -> route_rtp s ssrc pt = (Some r, latch s ssrc r) ->
  latched (latch s ssrc r) ssrc pt r.
Proof.
  intros E H. unfold route_rtp in H. unfold ssrc_of in E. rewrite E in H.
  destruct (pt_get (pt_table s) pt) as [|r1 [|r2 l]] eqn:E2; try discriminate.
  injection H as -> _. split.
  - unfold ssrc_of, latch; cbn. apply lookup_dset_same.
  - unfold accepts, latch; cbn. rewrite E2. now left.
Qed.

Lemma latched_step s o ssrc pt r :
  latched s ssrc pt r -> ~ disturbs o ssrc r -> latched (fst (step s o)) ssrc pt r.
Proof.
  unfold latched, ssrc_of, accepts. intros [H1 H2] Hd.
  destruct o as [r' ssrcs pts mid|sh ssrc'|r'|sh|ssrc' pt'|p]; cbn [step fst disturbs] in *.
  - cbn [register_receiver ssrc_table pt_table]. split.
    + rewrite fold_dset_lookup. destruct (mem ssrc ssrcs) eqn:M; [|exact H1].
      apply mem_In in M. destruct (Z.eq_dec r' r) as [->|Hne]; [reflexivity|]. exfalso. apply Hd. auto.
    + rewrite fold_ptadd_get. now left.
  - split; assumption.
  - cbn [unregister_receiver ssrc_table pt_table]. split.
    + apply lookup_discard_keep; [exact H1|congruence].
    + rewrite pt_get_discard. split; [exact H2|congruence].
  - split; assumption.
  - destruct (route_rtp_eq s ssrc' pt') as [->|(r1 & _ & [->|[E ->]])]; cbn [fst latch ssrc_table pt_table]; auto.
    split; [|exact H2]. rewrite lookup_dset_other; [exact H1|]. intros ->. unfold ssrc_of in E. congruence.
  - destruct (route_rtcp s p) as [[rs ss] e]. split; assumption.
Qed.

Theorem latched_sticks :
  forall ops s ssrc pt r, latched s ssrc pt r -> Forall (fun o => ~ disturbs o ssrc r) ops ->
    fst (route_rtp (fst (run s ops)) ssrc pt) = Some r.
Proof.
  intros ops s ssrc pt r Hl Hops.
  destruct (run_invariant (fun s => latched s ssrc pt r) _ (fun _ => True)
              (fun s o H Ho => conj (latched_step s o ssrc pt r H Ho) I) ops s Hl Hops) as [[H1 H2] _].
  rewrite (route_rtp_known _ _ pt _ H1). apply mem_In in H2. now rewrite H2.
Qed.

Theorem route_rtcp_spec s p :
  unpack_remb_ssrcs match p with Psfb _ _ fci => fci | _ => [] end <> RembCrash ->
  let '(rs, ss, raised) := route_rtcp s p in
  raised = false /\
  (forall r, In r rs <-> exists ssrc, In ssrc (rtcp_recv_ssrcs p) /\ lookup (ssrc_table s) ssrc = Some r) /\
  (forall h, In h ss <-> exists ssrc, In ssrc (rtcp_send_ssrcs p) /\ lookup (senders s) ssrc = Some h).
Proof.
  intros Hc. destruct (route_rtcp_eq s p) as [->|[E _]]; [|contradiction].
  split; [reflexivity|]. split; intros x; apply In_lookups.
Qed.

(* The REMB parser never crashes on a byte string (after the fix: ValueError on a
   truncated SSRC list) *)
Lemma remb_ssrcs_total data : forall n pos,
  (pos + 4 * n <= length data)%nat -> remb_ssrcs data pos n <> None.
Proof.
  induction n as [|n IH]; intros pos Hlen; cbn [remb_ssrcs]; [discriminate|].
  destruct (u32_some data pos) as [x ->]; [lia|]. specialize (IH (4 + pos)%nat).
  destruct (remb_ssrcs data (4 + pos) n); [discriminate|]. exfalso. apply IH; [lia|reflexivity].
Qed.

Theorem unpack_remb_never_crashes data : bytes_ok data -> unpack_remb_ssrcs data <> RembCrash.
Proof.
  intros Hok. unfold unpack_remb_ssrcs.
  destruct (Nat.ltb_spec (length data) 8) as [Hlt|Hge]; cbn [orb]; [discriminate|].
  destruct (negb _); [discriminate|].
  destruct (u8_some data 4) as [cnt E]; [lia|]. rewrite E. apply (u8_range _ _ _ Hok) in E.
  destruct (Z.ltb_spec (len data) (8 + 4 * cnt)) as [Hl|Hl]; [discriminate|].
  destruct (remb_ssrcs data 8 (Z.to_nat cnt)) eqn:E2; [discriminate|].
  exfalso. apply (remb_ssrcs_total data (Z.to_nat cnt) 8%nat); [|exact E2].
  unfold len in Hl. lia.
Qed.
