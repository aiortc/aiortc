(* Lemmas about Model/SctpWire.v, part 3: every parser is sound.  On any byte
   string it returns ValueErr or a well-formed value (never Crash, and never
   OutOfFuel with the fuel the model passes, length + 1); so whatever
   parse_packet returns can be serialised again without struct.error and parses
   back to itself. *)
From Coq Require Import ZArith List Bool Lia ZifyBool.
From AV Require Import Lib.Bytes Lib.BytesP Gen.SctpConst Model.Crc32c Model.SctpWire
  Proof.SctpWireP Proof.SctpWireRtP.
Import ListNotations.
Local Open Scope Z_scope.

Ltac Zify.zify_post_hook ::= Z.to_euclidean_division_equations.

Definition sound {T} (P : T -> Prop) (r : result T) : Prop :=
  match r with
  | Ok v => P v
  | ValueErr => True
  | Crash | OutOfFuel => False
  end.

Lemma sound_ok {T} (P : T -> Prop) r v : sound P r -> r = Ok v -> P v.
Proof. now intros H ->. Qed.

Lemma sound_bind {T U} (P : T -> Prop) (Q : U -> Prop) r (f : T -> result U) :
  sound P r -> (forall v, P v -> sound Q (f v)) -> sound Q (bind r f).
Proof. destruct r; cbn [bind sound]; auto. Qed.

Lemma decode_loop_sound fuel : forall body pos,
  (pos <= length body + 3)%nat -> (length body + 4 <= 4 * fuel + pos)%nat ->
  sound (fun ps => bytes_ok body ->
                   params_okb ps = true /\ len (encode_params ps) <= Z.max 0 (len body - Z.of_nat pos))
        (decode_params_loop fuel body pos).
Proof.
  induction fuel as [|f IH]; intros body pos Hp Hf; [lia|].
  cbn [decode_params_loop]. set (P := fun ps : list param => _). unfold len.
  destruct (Z.of_nat pos <=? Z.of_nat (length body) - 4) eqn:E; [|split; [reflexivity|unfold len; cbn; lia]].
  destruct (u16_some body pos) as [pt Ept]; [lia|]. destruct (u16_some body (pos + 2)) as [pl Epl]; [lia|].
  rewrite Ept, Epl.
  destruct ((pl <? 4) || (Z.of_nat pos + pl >? Z.of_nat (length body))) eqn:E2; [exact I|].
  pose proof (padl_range pl) as Hpad.
  specialize (IH body (pos + Z.to_nat (pl + padl pl))%nat ltac:(lia) ltac:(lia)).
  destruct (decode_params_loop f body (pos + Z.to_nat (pl + padl pl))) as [rest| | |]; try exact IH.
  intros Hok. destruct (IH Hok) as [Hr Hlen].
  apply (u16_range _ _ _ Hok) in Ept. apply (u16_range _ _ _ Hok) in Epl.
  set (v := slice body (pos + 4) (pos + Z.to_nat pl)) in *.
  assert (Lv : len v + 4 = pl) by (subst v; unfold len; rewrite slice_length; lia).
  split.
  - apply andb_true_iff. split; [|exact Hr]. apply param_okb_iff. cbn [fst snd].
    split; [exact Ept|]. split; [lia|]. now apply bytes_ok_slice.
  - rewrite encode_params_cons. cbn [fst snd]. rewrite Lv. pose proof (encode_params_count rest) as Hc.
    unfold len in *. destruct rest; rewrite !app_length, ?zpad_length; cbn [length be16] in *; lia.
Qed.

Lemma decode_params_sound body :
  sound (fun ps => bytes_ok body -> params_okb ps = true /\ len (encode_params ps) <= len body)
        (decode_params body).
Proof.
  pose proof (decode_loop_sound (S (length body)) body 0 ltac:(lia) ltac:(lia)) as H.
  unfold decode_params. destruct (decode_params_loop _ body 0); try exact H.
  intros Hok. destruct (H Hok). unfold len in *. split; [assumption|lia].
Qed.

Lemma read_pairs_sound n : forall body pos,
  (pos + 4 * n <= length body)%nat ->
  exists l, read_pairs body pos n = Some l /\ length l = n /\ (bytes_ok body -> forallb pair_okb l = true).
Proof.
  induction n as [|n IH]; intros body pos H; [now exists []|].
  cbn [read_pairs]. destruct (u16_some body pos) as [a Ea]; [lia|]. destruct (u16_some body (pos + 2)) as [b Eb]; [lia|].
  destruct (IH body (pos + 4)%nat) as (l & El & Ll & Hl); [lia|]. rewrite Ea, Eb, El.
  exists ((a, b) :: l). split; [reflexivity|]. split; [cbn [length]; lia|].
  intros Hok. apply (u16_range _ _ _ Hok) in Ea. apply (u16_range _ _ _ Hok) in Eb.
  cbn [forallb]. rewrite (Hl Hok). unfold pair_okb, in_u16. cbn [fst snd]. lia.
Qed.

Lemma read_u32s_sound n : forall body pos,
  (pos + 4 * n <= length body)%nat ->
  exists l, read_u32s body pos n = Some l /\ length l = n /\ (bytes_ok body -> forallb in_u32 l = true).
Proof.
  induction n as [|n IH]; intros body pos H; [now exists []|].
  cbn [read_u32s]. destruct (u32_some body pos) as [a Ea]; [lia|].
  destruct (IH body (pos + 4)%nat) as (l & El & Ll & Hl); [lia|]. rewrite Ea, El.
  exists (a :: l). split; [reflexivity|]. split; [cbn [length]; lia|].
  intros Hok. apply (u32_range _ _ _ Hok) in Ea. cbn [forallb]. rewrite (Hl Hok). unfold in_u32. lia.
Qed.

Section Ctor.
  Variables (fl : Z) (body : bytes).
  Hypotheses (Hfl : in_u8 fl = true) (Hok : bytes_ok body) (Hlen : len body + 4 < 65536).

  Lemma data_ctor_sound : sound (fun c => chunk_okb c = true) (data_ctor fl body).
  Proof.
    unfold data_ctor, len in *.
    destruct (nonempty body); [|unfold chunk_okb, in_u8 in *; cbn; lia].
    destruct (Z.of_nat (length body) <? 12) eqn:E; [exact I|].
    destruct (u32_read body 0 Hok) as (a & -> & Ha); [lia|]. destruct (u16_read body 4 Hok) as (b & -> & Hb); [lia|].
    destruct (u16_read body 6 Hok) as (c & -> & Hc); [lia|]. destruct (u32_read body 8 Hok) as (d & -> & Hd); [lia|].
    cbn [sound]. unfold chunk_okb, in_u8, in_u16, in_u32, len in *. cbn [chunk_flags].
    rewrite (proj2 (bytes_okb_ok _) (from_ok body 12 Hok)), from_length. lia.
  Qed.

  Lemma init_ctor_sound ty :
    (ty =? 1) || (ty =? 2) = true -> sound (fun c => chunk_okb c = true) (init_ctor ty fl body).
  Proof.
    intros Hty. unfold init_ctor, len in *.
    destruct (nonempty body); [|unfold chunk_okb, in_u8 in *; cbn; lia].
    destruct (Z.of_nat (length body) <? 16) eqn:E; [exact I|].
    destruct (u32_read body 0 Hok) as (a & -> & Ha); [lia|]. destruct (u32_read body 4 Hok) as (b & -> & Hb); [lia|].
    destruct (u16_read body 8 Hok) as (c & -> & Hc); [lia|]. destruct (u16_read body 10 Hok) as (d & -> & Hd); [lia|].
    destruct (u32_read body 12 Hok) as (e & -> & He); [lia|].
    apply (sound_bind _ _ _ _ (decode_params_sound (from body 16))). intros ps Hps.
    cbn [sound]. unfold chunk_okb. cbn [chunk_flags chunk_body]. destruct (Hps (from_ok body 16 Hok)) as [-> Hl].
    unfold in_u8, in_u16, in_u32, len in *. rewrite from_length in Hl. rewrite app_length.
    cbn [length be32 be16 app]. lia.
  Qed.

  Lemma sack_ctor_sound : sound (fun c => chunk_okb c = true) (sack_ctor fl body).
  Proof.
    unfold sack_ctor, len in *.
    destruct (nonempty body); [|unfold chunk_okb, in_u8 in *; cbn; lia].
    destruct (Z.of_nat (length body) <? 12) eqn:E; [exact I|].
    destruct (u32_read body 0 Hok) as (a & -> & Ha); [lia|]. destruct (u32_read body 4 Hok) as (b & -> & Hb); [lia|].
    destruct (u16_read body 8 Hok) as (ng & -> & Hng); [lia|]. destruct (u16_read body 10 Hok) as (nd & -> & Hnd); [lia|].
    destruct (12 + (ng + nd) * 4 >? Z.of_nat (length body)) eqn:E2; [exact I|].
    destruct (read_pairs_sound (Z.to_nat ng) body 12) as (gaps & -> & Lg & Hg); [lia|].
    destruct (read_u32s_sound (Z.to_nat nd) body (12 + Z.to_nat ng * 4)) as (dups & -> & Ld & Hd); [lia|].
    cbn [sound]. unfold chunk_okb. cbn [chunk_flags]. rewrite (Hg Hok), (Hd Hok), Lg, Ld.
    unfold in_u8, in_u16, in_u32 in *. lia.
  Qed.

  Lemma params_ctor_sound ty :
    (ty =? 4) || (ty =? 5) || (ty =? 6) || (ty =? 9) || (ty =? 130) = true ->
    sound (fun c => chunk_okb c = true) (params_ctor ty fl body).
  Proof.
    intros Hty. unfold params_ctor.
    destruct (nonempty body); [|unfold chunk_okb, in_u8 in *; cbn; lia].
    apply (sound_bind _ _ _ _ (decode_params_sound body)). intros ps Hps.
    cbn [sound]. unfold chunk_okb. cbn [chunk_flags chunk_body]. destruct (Hps Hok) as [-> Hl].
    pose proof (len_nonneg (encode_params ps)). unfold in_u8, in_u16 in *. lia.
  Qed.

  Lemma shutdown_ctor_sound : sound (fun c => chunk_okb c = true) (shutdown_ctor fl body).
  Proof.
    unfold shutdown_ctor, len in *.
    destruct (nonempty body); [|unfold chunk_okb, in_u8 in *; cbn; lia].
    destruct (Z.of_nat (length body) <? 4) eqn:E; [exact I|].
    destruct (u32_read body 0 Hok) as (a & -> & Ha); [lia|].
    cbn [sound]. unfold chunk_okb, in_u8, in_u32 in *. cbn [chunk_flags]. lia.
  Qed.

  Lemma plain_ctor_sound ty :
    (ty =? 8) || (ty =? 10) || (ty =? 11) || (ty =? 14) = true ->
    sound (fun c => chunk_okb c = true) (plain_ctor ty fl body).
  Proof.
    intros Hty. unfold plain_ctor, chunk_okb, in_u8, in_u16 in *. cbn [sound chunk_flags].
    rewrite (proj2 (bytes_okb_ok _) Hok). pose proof (len_nonneg body). lia.
  Qed.

  Lemma fwd_ctor_sound : sound (fun c => chunk_okb c = true) (fwd_ctor fl body).
  Proof.
    unfold fwd_ctor, in_u8, len in *.
    destruct (nonempty body); [|unfold chunk_okb, in_u8; cbn; lia].
    destruct ((Z.of_nat (length body) <? 4) || negb (Z.of_nat (length body) mod 4 =? 0)) eqn:E; [exact I|].
    destruct (u32_read body 0 Hok) as (a & -> & Ha); [lia|].
    rewrite (fwd_loop_read_pairs _ _ _ (Z.to_nat ((Z.of_nat (length body) - 4) / 4))) by lia.
    destruct (read_pairs_sound (Z.to_nat ((Z.of_nat (length body) - 4) / 4)) body 4) as (l & -> & Ll & Hl); [lia|].
    cbn [bind sound]. unfold chunk_okb. cbn [chunk_flags]. rewrite (Hl Hok), wire_body_fwd, wire_body_length, Ll.
    unfold in_u8, in_u16, in_u32. lia.
  Qed.

  Lemma chunk_ctor_sound ty :
    match chunk_ctor ty fl body with Some r => sound (fun c => chunk_okb c = true) r | None => True end.
  Proof.
    unfold chunk_ctor.
    destruct (ty =? 0); [apply data_ctor_sound|].
    destruct ((ty =? 1) || (ty =? 2)) eqn:T1; [now apply init_ctor_sound|].
    destruct (ty =? 3); [apply sack_ctor_sound|].
    destruct ((ty =? 4) || (ty =? 5) || (ty =? 6) || (ty =? 9) || (ty =? 130)) eqn:T4; [now apply params_ctor_sound|].
    destruct (ty =? 7); [apply shutdown_ctor_sound|].
    destruct ((ty =? 8) || (ty =? 10) || (ty =? 11) || (ty =? 14)) eqn:T8; [now apply plain_ctor_sound|].
    destruct (ty =? 192); [apply fwd_ctor_sound|exact I].
  Qed.
End Ctor.

Lemma parse_chunks_sound fuel : forall data pos,
  bytes_ok data -> (pos <= length data + 3)%nat -> (length data + 4 <= 4 * fuel + pos)%nat ->
  sound (fun cs => forallb chunk_okb cs = true) (parse_chunks fuel data pos).
Proof.
  induction fuel as [|f IH]; intros data pos Hok Hp Hf; [lia|].
  cbn [parse_chunks]. unfold len, SCTP_CHUNK_HEADER_LENGTH.
  destruct (Z.of_nat pos <=? Z.of_nat (length data) - 4) eqn:E; [|reflexivity].
  destruct (u8_some data pos) as [ty ->]; [lia|].
  destruct (u8_read data (pos + 1) Hok) as (fl & -> & Hfl); [lia|].
  destruct (u16_read data (pos + 2) Hok) as (cl & -> & Hcl); [lia|].
  destruct ((cl <? 4) || (Z.of_nat pos + cl >? Z.of_nat (length data))) eqn:E2; [exact I|].
  pose proof (padl_range cl) as Hpad.
  specialize (IH data (pos + Z.to_nat (cl + padl cl))%nat Hok ltac:(lia) ltac:(lia)).
  set (body := slice data (pos + Z.to_nat 4) (pos + Z.to_nat cl)).
  assert (Hc : match chunk_ctor ty fl body with Some r => sound (fun c => chunk_okb c = true) r | None => True end).
  { apply chunk_ctor_sound; [now apply in_u8_iff|now apply bytes_ok_slice|]. subst body. unfold len. rewrite slice_length. lia. }
  destruct (chunk_ctor ty fl body) as [r|]; [|exact IH].
  destruct (negb (nonempty body) && has_fixed_part ty); [exact I|].
  apply (sound_bind _ _ _ _ Hc). intros c Hcok. apply (sound_bind _ _ _ _ IH). intros cs Hcs.
  cbn [sound forallb]. now rewrite Hcok.
Qed.

Lemma parse_packet_sound data :
  bytes_ok data ->
  sound (fun '(sp, dp, tag, cs) =>
           in_u16 sp = true /\ in_u16 dp = true /\ in_u32 tag = true /\ forallb chunk_okb cs = true)
        (parse_packet data).
Proof.
  intros Hok. unfold parse_packet, SCTP_PACKET_MINIMUM_LENGTH, SCTP_COMMON_HEADER_LENGTH, len.
  destruct (Z.of_nat (length data) <? 16) eqn:E; [exact I|].
  destruct (u16_read data 0 Hok) as (sp & -> & Hsp); [lia|]. destruct (u16_read data 2 Hok) as (dp & -> & Hdp); [lia|].
  destruct (u32_read data 4 Hok) as (tag & -> & Htag); [lia|]. destruct (u32le_some data 8) as [c ->]; [lia|].
  destruct (negb (c =? crc32c (checksum_input data))); [exact I|].
  apply (sound_bind _ _ _ _ (parse_chunks_sound (S (length data)) data 12 Hok ltac:(lia) ltac:(lia))). intros cs Hcs.
  unfold in_u16, in_u32. repeat split; try lia. exact Hcs.
Qed.

Lemma parse_packet_wf data sp dp tag cs :
  bytes_ok data -> parse_packet data = Ok (sp, dp, tag, cs) ->
  in_u16 sp = true /\ in_u16 dp = true /\ in_u32 tag = true /\ forallb chunk_okb cs = true.
Proof. intros Hok H. exact (sound_ok _ _ _ (parse_packet_sound data Hok) H). Qed.

Lemma parse_serialize_parse data sp dp tag cs :
  bytes_ok data -> parse_packet data = Ok (sp, dp, tag, cs) -> cs <> [] ->
  parse_packet (packet_bytes sp dp tag (flat_map chunk_bytes cs)) = Ok (sp, dp, tag, cs).
Proof.
  intros Hok H Hne. destruct (parse_packet_wf _ _ _ _ _ Hok H) as (H1 & H2 & H3 & H4).
  now apply parse_packet_bundle.
Qed.
