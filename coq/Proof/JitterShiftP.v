(* Proofs about Model/Jitter.v, part 3 (for C17): independence of the sequence-number origin and
   of the timestamp origin.  Adding any delta (mod 2^16) to every sequence number of an arrival
   list leaves every returned PLI flag and every released frame unchanged; adding any delta
   (mod 2^32) to every timestamp only shifts the released frames' timestamps.  Both are instances
   of one simulation on the window-level buffer: under a renaming of sequence numbers that
   commutes with the serial arithmetic of add(), and a renaming of timestamps that is injective
   on the timestamps that occur, the renamed run is literally the same computation on renamed
   packets (the rotation of the ring, capacity | 2^16, is absorbed by the window view).  It is
   transported to the model with run_refines. *)
From Coq Require Import ZArith List Bool Lia.
From AV Require Import Lib.Sx Lib.Bytes Gen.Utils Gen.JbConst Model.Jitter Proof.JitterP Proof.JitterInvP.
Import ListNotations.
Local Open Scope Z_scope.

Lemma set_nth_map {A B} (g : A -> B) (l : list A) k x :
  set_nth (map g l) k (g x) = option_map (map g) (set_nth l k x).
Proof.
  revert k. induction l as [|h t IH]; intros k; [destruct k; reflexivity|].
  destruct k as [|k]; [reflexivity|]. cbn [map set_nth]. rewrite IH.
  destruct (set_nth t k x); reflexivity.
Qed.

Section Relabel.
Variables (sn ts : Z -> Z) (T : Z -> Prop).
Hypothesis sn_range : forall s, 0 <= s < 65536 -> 0 <= sn s < 65536.
Hypothesis sn_diff : forall s o, uint16_add (sn s) (- sn o) = uint16_add s (- o).
Hypothesis sn_add : forall o b, uint16_add (sn o) b = sn (uint16_add o b).
Hypothesis ts_inj : forall x y, T x -> T y -> (ts x =? ts y) = (x =? y).

Definition rl_pkt (p : pkt) : pkt := mkPkt (sn (pseq p)) (ts (pts p)) (pdata p).
Definition rl_frame (f : frame) : frame := mkFrame (ts (fts f)) (fdata f).
Definition rl_out (o : out) : out := (fst o, option_map rl_frame (snd o)).
Definition rl_w (w : W) : W := map (option_map rl_pkt) w.
Definition rl_a (a : jb) : jb :=
  mkJb (cap a) (prefetch a) (is_video a) (option_map sn (origin a)) (rl_w (slots a)).

Definition Wts (w : W) : Prop := forall q, In (Some q) w -> T (pts q).
Definition ts_in (t : option Z) : Prop := forall x, t = Some x -> T x.

Lemma rl_w_length w : length (rl_w w) = length w.
Proof. apply map_length. Qed.

Lemma rl_w_repeat n : rl_w (repeat None n) = repeat None n.
Proof. induction n as [|n IH]; [reflexivity|]. cbn [repeat rl_w map option_map]. f_equal. exact IH. Qed.

Lemma rl_w_remove w b : rl_w (w_remove w b) = w_remove (rl_w w) b.
Proof. unfold w_remove, rl_w. rewrite map_app, skipn_map. f_equal. apply rl_w_repeat. Qed.

Lemma rl_placed p o w : placed (rl_pkt p) (sn o) (rl_w w) = rl_w (placed p o w).
Proof.
  unfold placed, w_set, rl_w. change (pseq (rl_pkt p)) with (sn (pseq p)). rewrite sn_diff.
  change (Some (rl_pkt p)) with (option_map rl_pkt (Some p)).
  rewrite set_nth_map. destruct (set_nth w _ (Some p)); reflexivity.
Qed.

Lemma Wts_tail h t : Wts (h :: t) -> Wts t.
Proof. intros H q Hq. apply H. right. exact Hq. Qed.

Lemma Wts_repeat n : Wts (repeat None n).
Proof. intros q Hq. apply repeat_spec in Hq. discriminate. Qed.

Lemma Wts_remove w b : Wts w -> Wts (w_remove w b).
Proof.
  intros H q Hq. unfold w_remove in Hq. apply in_app_or in Hq. destruct Hq as [Hq|Hq].
  - apply H. rewrite <- (firstn_skipn b w). apply in_or_app. right. exact Hq.
  - apply repeat_spec in Hq. discriminate.
Qed.

Lemma Wts_placed p o w : T (pts p) -> Wts w -> Wts (placed p o w).
Proof.
  intros Hp H q Hq. apply In_nth_error in Hq. destruct Hq as [j Ej]. unfold placed in Ej. rewrite w_set_nth in Ej.
  destruct (Nat.eqb j _ && Nat.ltb _ (length w))%bool.
  - injection Ej as <-. exact Hp.
  - apply H. eapply nth_error_In. exact Ej.
Qed.

Lemma ts_in_some x : T x -> ts_in (Some x).
Proof. intros H y E. injection E as <-. exact H. Qed.

Lemma ts_in_none : ts_in None.
Proof. intros x E. discriminate E. Qed.

Lemma ts_differs_rl tsv x : ts_in tsv -> T x -> ts_differs (option_map ts tsv) (ts x) = ts_differs tsv x.
Proof.
  intros Ht Hx. destruct tsv as [t|]; cbn [option_map ts_differs]; [|reflexivity].
  rewrite ts_inj; [reflexivity|apply Ht; reflexivity|exact Hx].
Qed.

Lemma w_smart_rl w : forall i count tsv, Wts w -> ts_in tsv ->
  w_smart (rl_w w) i count (option_map ts tsv) = w_smart w i count tsv.
Proof.
  induction w as [|h t IH]; intros i count tsv HW Ht; [reflexivity|].
  pose proof (Wts_tail _ _ HW) as HW'.
  destruct h as [p|]; cbn [rl_w map option_map w_smart]; fold (rl_w t).
  - assert (Hp : T (pts p)) by (apply HW; left; reflexivity).
    change (pts (rl_pkt p)) with (ts (pts p)). rewrite ts_differs_rl by assumption.
    rewrite (IH _ _ (Some (pts p))); [reflexivity|exact HW'|apply ts_in_some; exact Hp].
  - rewrite IH by assumption. reflexivity.
Qed.

Lemma w_rf_rl w : forall count pf fr frames packets rem tsv, Wts w -> ts_in tsv ->
  w_rf (rl_w w) count pf (option_map rl_frame fr) frames (map rl_pkt packets) rem (option_map ts tsv) =
  option_map (fun r => (rl_frame (fst r), snd r)) (w_rf w count pf fr frames packets rem tsv).
Proof.
  induction w as [|h t IH]; intros count pf fr frames packets rem tsv HW Ht; [reflexivity|].
  pose proof (Wts_tail _ _ HW) as HW'.
  destruct h as [p|]; cbn [rl_w map option_map w_rf]; [|reflexivity]. fold (rl_w t).
  assert (Hp : T (pts p)) by (apply HW; left; reflexivity).
  pose proof (ts_in_some _ Hp) as Htp.
  assert (Eapp : map rl_pkt packets ++ [rl_pkt p] = map rl_pkt (packets ++ [p])).
  { rewrite map_app. reflexivity. }
  assert (Edata : concat (map pdata (map rl_pkt packets)) = concat (map pdata packets)).
  { rewrite map_map. reflexivity. }
  change (pts (rl_pkt p)) with (ts (pts p)).
  destruct tsv as [t0|]; cbn [option_map].
  - rewrite ts_inj; [|exact Hp|apply Ht; reflexivity].
    destruct (negb (pts p =? t0)).
    + rewrite Edata.
      assert (Efr : match option_map rl_frame fr with
                    | Some f => f
                    | None => mkFrame (ts t0) (concat (map pdata packets))
                    end = rl_frame match fr with
                                   | Some f => f
                                   | None => mkFrame t0 (concat (map pdata packets))
                                   end).
      { destruct fr; reflexivity. }
      assert (Erem : match option_map rl_frame fr with None => count | Some _ => rem end =
                     match fr with None => count | Some _ => rem end).
      { destruct fr; reflexivity. }
      rewrite Efr, Erem. destruct (frames + 1 >=? pf); [reflexivity|].
      apply (IH _ _ (Some _) _ [p] _ (Some (pts p))); assumption.
    + rewrite Eapp. apply (IH _ _ _ _ _ _ (Some t0)); assumption.
  - rewrite Eapp. apply (IH _ _ _ _ _ _ (Some (pts p))); assumption.
Qed.

Lemma a_tail_rl a a' p o1 w1 pli :
  static a' = static a -> T (pts p) -> Wts w1 ->
  a_tail a' (rl_pkt p) (sn o1) (rl_w w1) pli =
  (rl_a (fst (a_tail a p o1 w1 pli)), rl_out (snd (a_tail a p o1 w1 pli))) /\
  Wts (slots (fst (a_tail a p o1 w1 pli))).
Proof.
  intros Est Hp HW. injection Est as Ec Ep Ev. unfold a_tail. rewrite Ec, Ep, Ev, rl_placed.
  pose proof (Wts_placed p o1 w1 Hp HW) as HW2.
  pose proof (w_rf_rl _ 0 (prefetch a) None 0 [] 0 None HW2 ts_in_none) as E. cbn [option_map map] in E.
  unfold w_frame. rewrite E.
  destruct (w_rf (placed p o1 w1) 0 (prefetch a) None 0 [] 0 None) as [[f r]|];
    unfold rl_a, rl_out; cbn [option_map fst snd cap prefetch is_video origin slots].
  - rewrite rl_w_remove, sn_add. split; [reflexivity|]. apply Wts_remove. exact HW2.
  - split; [reflexivity|exact HW2].
Qed.

Lemma a_place_rl a a' p o delta w pli :
  static a' = static a -> T (pts p) -> Wts w ->
  a_place a' (rl_pkt p) (sn o) delta (rl_w w) pli =
  (rl_a (fst (a_place a p o delta w pli)), rl_out (snd (a_place a p o delta w pli))) /\
  Wts (slots (fst (a_place a p o delta w pli))).
Proof.
  intros Est Hp HW. pose proof Est as Est'. injection Est' as Ec _ Ev. unfold a_place. rewrite Ec, Ev, rl_w_length.
  pose proof (w_smart_rl w 0 (delta - cap a + 1) None HW ts_in_none) as E. cbn [option_map] in E. rewrite E.
  destruct (delta >=? cap a); [|apply a_tail_rl; assumption].
  destruct (w_smart w 0 (delta - cap a + 1) None) as [b|].
  - rewrite sn_add, <- rl_w_remove. apply a_tail_rl; try assumption. apply Wts_remove. exact HW.
  - rewrite <- rl_w_repeat at 1. apply (a_tail_rl a a' p (pseq p)); try assumption. apply Wts_repeat.
Qed.

Theorem a_add_rl a p : T (pts p) -> Wts (slots a) ->
  a_add (rl_a a) (rl_pkt p) = (rl_a (fst (a_add a p)), rl_out (snd (a_add a p))) /\
  Wts (slots (fst (a_add a p))).
Proof.
  intros Hp HW. unfold a_add. cbn [rl_a origin slots is_video].
  change (pseq (rl_pkt p)) with (sn (pseq p)).
  destruct (origin a) as [o|]; cbn [option_map].
  - rewrite !sn_diff. destruct (uint16_add o (- pseq p) <? uint16_add (pseq p) (- o)).
    + destruct (uint16_add o (- pseq p) >=? MAX_MISORDER); [|split; [reflexivity|exact HW]].
      rewrite rl_w_length. rewrite <- rl_w_repeat at 1.
      apply (a_place_rl a (rl_a a) p (pseq p)); try reflexivity; [exact Hp|apply Wts_repeat].
    + apply (a_place_rl a (rl_a a)); try reflexivity; assumption.
  - apply (a_place_rl a (rl_a a) p (pseq p)); try reflexivity; assumption.
Qed.

Lemma a_run_rl l : forall a, Forall (fun p => T (pts p)) l -> Wts (slots a) ->
  a_run (rl_a a) (map rl_pkt l) = (rl_a (fst (a_run a l)), map rl_out (snd (a_run a l))).
Proof.
  induction l as [|p l IH]; intros a HF HW; [reflexivity|].
  inversion HF as [|? ? Hp HF']; subst.
  cbn [map a_run]. destruct (a_add_rl a p Hp HW) as [E HW1]. rewrite E. cbn [fst snd].
  rewrite (IH _ HF' HW1). reflexivity.
Qed.

Lemma rl_a_init c pf v : rl_a (a_init c pf v) = a_init c pf v.
Proof. unfold rl_a, a_init. cbn [cap prefetch is_video origin slots option_map]. rewrite rl_w_repeat. reflexivity. Qed.

Theorem relabel_invariant c pf v l s outs :
  cap_ok c -> Forall seq16 l -> Forall (fun p => T (pts p)) l -> reaches c pf v l s outs ->
  exists s', reaches c pf v (map rl_pkt l) s' (map rl_out outs) /\ origin s' = option_map sn (origin s).
Proof.
  intros Hc HF HT HR. destruct (reaches_abs c pf v l s outs Hc HF HR) as [-> R].
  assert (HF' : Forall seq16 (map rl_pkt l)).
  { apply Forall_map. revert HF. apply Forall_impl. intros q. apply sn_range. }
  destruct (reach_abs c pf v _ Hc HF') as (s' & HR' & R').
  rewrite <- (rl_a_init c pf v) in HR', R' at 1.
  rewrite (a_run_rl l (a_init c pf v) HT (Wts_repeat _)) in HR', R'. cbn [fst snd] in HR', R'.
  exists s'. split; [exact HR'|].
  destruct R' as (_ & _ & Eo' & _). destruct R as (_ & _ & Eo & _).
  rewrite <- Eo', <- Eo. reflexivity.
Qed.
End Relabel.

Definition shift_pkt (d : Z) (p : pkt) : pkt := mkPkt (uint16_add (pseq p) d) (pts p) (pdata p).

Lemma uint16_diff_shift d s o : uint16_add (uint16_add s d) (- uint16_add o d) = uint16_add s (- o).
Proof.
  rewrite !uint16_add_mod, !Z.add_opp_r, Zminus_mod_idemp_r, Zminus_mod_idemp_l. f_equal. lia.
Qed.

Lemma uint16_add_swap d o b : uint16_add (uint16_add o d) b = uint16_add (uint16_add o b) d.
Proof. rewrite !uint16_add_add, (Z.add_comm d b). reflexivity. Qed.

Lemma rl_out_id outs : map (rl_out (fun t => t)) outs = outs.
Proof.
  rewrite <- (map_id outs) at 2. apply map_ext. intros [b [[t d]|]]; reflexivity.
Qed.

(* C17 for the jitter buffer: shifting every sequence number of ANY arrival list by ANY delta
   (mod 2^16), starting from the empty buffer, yields the same PLI flags and the same released
   frames (timestamps and data); the final origin is shifted by delta. *)
Theorem jitter_shift_invariant c pf v l d s outs :
  cap_ok c -> Forall seq16 l -> reaches c pf v l s outs ->
  exists s', reaches c pf v (map (shift_pkt d) l) s' outs /\
             origin s' = option_map (fun o => uint16_add o d) (origin s).
Proof.
  intros Hc HF HR.
  destruct (relabel_invariant (fun s => uint16_add s d) (fun t => t) (fun _ => True)
              (fun s _ => uint16_add_range s d) (uint16_diff_shift d) (uint16_add_swap d)
              (fun x y _ _ => eq_refl) c pf v l s outs Hc HF) as (s' & HR' & Eo); [|exact HR|].
  - apply Forall_forall. intros q _. exact I.
  - rewrite rl_out_id in HR'. exists s'. split; [exact HR'|exact Eo].
Qed.

(* The buffer only compares timestamps for equality, so adding any delta (mod 2^32) to every
   timestamp shifts the released frames' timestamps by the same delta and changes nothing else. *)
Definition ts32 (p : pkt) : Prop := 0 <= pts p < 4294967296.
Definition tshift_pkt (e : Z) (p : pkt) : pkt := mkPkt (pseq p) (uint32_add (pts p) e) (pdata p).
Definition tshift_frame (e : Z) (f : frame) : frame := mkFrame (uint32_add (fts f) e) (fdata f).
Definition tshift_out (e : Z) (o : out) : out := (fst o, option_map (tshift_frame e) (snd o)).

Lemma uint32_add_mod a b : uint32_add a b = (a + b) mod 4294967296.
Proof. unfold uint32_add. change 4294967295 with (Z.ones 32). rewrite Z.land_ones by lia. reflexivity. Qed.

Lemma uint32_add_inj e a b : 0 <= a < 4294967296 -> 0 <= b < 4294967296 ->
  (uint32_add a e =? uint32_add b e) = (a =? b).
Proof.
  intros Ha Hb. rewrite !uint32_add_mod.
  destruct (Z.eqb_spec a b) as [->|Hne]; [apply Z.eqb_refl|]. apply Z.eqb_neq. intros E.
  apply Hne. apply mod_inj in E; lia.
Qed.

(* C17, timestamps: shifting every 32-bit timestamp of ANY arrival list by ANY delta (mod 2^32)
   yields the same PLI flags and the same frames with timestamps shifted by that delta. *)
Theorem jitter_ts_shift_invariant c pf v l e s outs :
  cap_ok c -> Forall seq16 l -> Forall ts32 l -> reaches c pf v l s outs ->
  exists s', reaches c pf v (map (tshift_pkt e) l) s' (map (tshift_out e) outs) /\ origin s' = origin s.
Proof.
  intros Hc HF HT HR.
  destruct (relabel_invariant (fun s => s) (fun t => uint32_add t e) (fun t => 0 <= t < 4294967296)
              (fun s H => H) (fun s o => eq_refl) (fun o b => eq_refl) (uint32_add_inj e)
              c pf v l s outs Hc HF HT HR) as (s' & HR' & Eo).
  exists s'. split; [exact HR'|]. rewrite Eo. destruct (origin s); reflexivity.
Qed.
