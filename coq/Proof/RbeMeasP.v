(* Proofs about Model/Rbe.v (property C15): the incoming bitrate handed to the
   rate controller is measured over exactly the packets of the last 1000 ms --
   the reset() calls of RemoteBitrateEstimator.add never discard a packet that
   is still inside the window. *)
From Coq Require Import ZArith List Bool Lia.
From AV Require Import Lib.Sx Lib.Bytes Model.RateCounter Model.Aimd Model.Rbe
  Proof.RateCounterP Proof.AimdP Proof.RbeP.
Import ListNotations.
Local Open Scope Z_scope.

(* `hist` = every packet of the history so far (newest first).  After each add():
   _total of the rate counter is the (count, sum) of exactly the packets with
   now - 1000 < t <= now, and latest_estimated_throughput is unchanged or equals
   round(8000 * window bytes / active) for an active window of 2..1000 ms. *)
Fixpoint measure_ok (s : rbe) (hist : list sample) (l : list arrival) : Prop :=
  match l with
  | [] => True
  | a :: l' =>
      let now := a_time a in
      let hist' := (now, a_size a) :: hist in
      match rbe_add s a with
      | Ok (s', o) =>
          total (incoming s') = (cnt (in_window 1000 now) hist', vsum (in_window 1000 now) hist') /\
          (latest (control s') = latest (control s) \/
           exists active, 2 <= active <= 1000 /\
             latest (control s') = round_div (8000 * vsum (in_window 1000 now) hist') active) /\
          measure_ok s' hist' l'
      | _ => False
      end
  end.

(* samples dropped by earlier resets are all older than the window *)
Definition covers (hist smp : list sample) (last : option Z) : Prop :=
  exists rest, hist = smp ++ rest /\
    forall t v, In (t, v) rest -> match last with Some l => t <= l - 1000 | None => False end.

Lemma measure_run l : forall s v hist,
  views s v -> VInv v -> covers hist (v_smp v) (v_last v) ->
  nondecreasing (ocons (v_last v) (map a_time l)) -> measure_ok s hist l.
Proof.
  induction l as [|a l IH]; intros s v hist Hs HV (rest & -> & Hr) Hm; cbn [measure_ok]; [exact I|].
  destruct (nondecreasing_ocons _ _ _ Hm) as [Hle Hm'].
  destruct (rbe_add_ok s v a Hs HV Hle) as (s' & v' & o & -> & Ev & Hs' & HV' & Hl').
  set (now := a_time a) in *. rewrite <- Hl' in Hm'.
  assert (Hr' : forall t x, In (t, x) rest -> t <= now - 1000).
  { intros t x Hin. specialize (Hr t x Hin). destruct (v_last v); [cbn [le_opt] in Hle; lia|contradiction]. }
  assert (Hc' : exists rest', (now, a_size a) :: v_smp v ++ rest = v_smp v' ++ rest' /\
                              forall t x, In (t, x) rest' -> t <= now - 1000).
  { destruct (view_add_inv v a v' o (proj1 HV) Ev) as (_ & Hw & _).
    destruct (window_step_cases v a) as [(ii & Ew & _)|(Ew & Hi & Ex)]; rewrite Ew in Hw; injection Hw as -> _;
      [exists rest; split; [reflexivity|exact Hr']|].
    exists (v_smp v ++ rest). split; [reflexivity|]. intros t x Hin.
    apply in_app_or in Hin. destruct Hin as [Hin|Hin]; [|exact (Hr' t x Hin)].
    (* a reset: the rate is None although the first sample is older than the clock *)
    destruct (oldest (v_smp v)) as [f|] eqn:Hf; [|apply oldest_none in Hf; rewrite Hf in Hin; destruct Hin].
    destruct (proj2 HV Hi f Hf) as (l0 & El & Hfl). pose proof (views_counter _ _ Hs) as HI.
    rewrite El in *. cbn [le_opt] in Hle. pose proof (Inv_samples_le _ _ _ _ _ HI t x Hin).
    pose proof (rate_spec_none_empty 1000 _ _ now f Hf ltac:(lia) ltac:(lia) Ex t x Hin) as Hw.
    unfold in_window in Hw. destruct (Z.ltb_spec (now - 1000) t); [|lia].
    destruct (Z.leb_spec t now); [discriminate|lia]. }
  destruct Hc' as (rest' & Eh & Hold). rewrite Eh.
  assert (Hw : tally (in_window 1000 now) (v_smp v' ++ rest') = tally (in_window 1000 now) (v_smp v')).
  { apply tally_app_none. intros t x Hin. apply Hold in Hin. unfold in_window.
    destruct (Z.ltb_spec (now - 1000) t); [lia|reflexivity]. }
  injection Hw as Wc Wv. rewrite Wc, Wv.
  pose proof (views_counter _ _ Hs') as HI'. rewrite Hl' in HI'. split; [exact (Inv_total _ _ _ _ _ HI')|].
  split.
  - rewrite (views_control _ _ Hs), (views_control _ _ Hs').
    destruct (view_add_latest v a v' o HV Ev) as [El|El]; [now left|right].
    destruct (rate_spec_some _ _ _ _ _ El) as (_ & active & _ & _ & Ha & Ex).
    exists active. split; [exact Ha|exact Ex].
  - apply (IH s' v' _ Hs' HV'); [|exact Hm']. exists rest'. split; [reflexivity|]. rewrite Hl'. exact Hold.
Qed.

Theorem rbe_measure_exact : forall l,
  nondecreasing (map a_time l) -> measure_ok rbe_init [] l.
Proof.
  intros l Hm. apply (measure_run l rbe_init view_init [] views_init VInv_init); [|exact Hm].
  exists []. split; [reflexivity|]. intros t v [].
Qed.
