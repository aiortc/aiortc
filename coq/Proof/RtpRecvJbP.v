(* C11, jitter-buffer level: when every arrival is one of the sender's packets, every released
   frame is a run of ONE sent frame (never a splice); if the stream's sequence numbers are distinct
   it runs to the end of that frame, and it is the whole frame unless it is the first release
   after the start or after an add() that raised the PLI flag.  Built on the window-level model
   of Proof/JitterP.v / JitterInvP.v (C10). *)
From Coq Require Import ZArith List Bool Lia.
From AV Require Import Lib.Bytes Gen.Utils Gen.JbConst Model.Jitter Proof.JitterP Proof.JitterInvP Proof.SerialP.
Import ListNotations.
Local Open Scope Z_scope.

Lemma prefix_of_nth {A} (ps : list A) : forall g,
  (forall j x, nth_error ps j = Some x -> nth_error g j = Some x) -> g = ps ++ skipn (length ps) g.
Proof.
  induction ps as [|a ps IH]; intros g H; [reflexivity|].
  destruct g as [|b g]; [specialize (H 0%nat a eq_refl); discriminate|].
  pose proof (H 0%nat a eq_refl) as H0. cbn [nth_error] in H0. injection H0 as ->.
  cbn [app length skipn]. f_equal. apply IH. intros j x E. exact (H (S j) x E).
Qed.

Definition run_of (S : pkt -> Prop) (o1 : Z) (ps : list pkt) : Prop :=
  forall j x, nth_error ps j = Some x -> pseq x = uint16_add o1 (Z.of_nat j) /\ S x.

Definition released_at (S : pkt -> Prop) (o1 : Z) (f : frame) (ps : list pkt) (q : pkt) : Prop :=
  frame_of ps f /\ run_of S o1 ps /\ S q /\ pseq q = uint16_add o1 (Z.of_nat (length ps)) /\ pts q <> fts f.

Lemma released_at_impl (S S' : pkt -> Prop) o1 f ps q :
  (forall x, S x -> S' x) -> released_at S o1 f ps q -> released_at S' o1 f ps q.
Proof.
  intros HS (Hf & Hr & Hq & Hrest). split; [exact Hf|]. split; [|split; [exact (HS q Hq)|exact Hrest]].
  intros j x E. destruct (Hr j x E) as [E1 E2]. split; [exact E1|exact (HS x E2)].
Qed.

Section Stream.
Variable frames : list (list pkt).

Definition frame_ok (g : list pkt) : Prop :=
  Z.of_nat (length g) < 65536 /\
  exists b t, forall j p, nth_error g j = Some p -> pseq p = uint16_add b (Z.of_nat j) /\ pts p = t.

Definition ts_distinct : Prop :=
  forall g g' p p', In g frames -> In g' frames -> In p g -> In p' g' -> pts p = pts p' -> g = g'.

Definition seq_distinct : Prop :=
  forall p q, In p (concat frames) -> In q (concat frames) -> pseq p = pseq q -> p = q.

Definition sent (p : pkt) : Prop := In p (concat frames).

Definition part_frame (f : frame) : Prop :=
  exists g pre ps post, In g frames /\ g = pre ++ ps ++ post /\ frame_of ps f /\ consec ps.
Definition tail_frame (f : frame) : Prop :=
  exists g pre ps, In g frames /\ g = pre ++ ps /\ frame_of ps f.
Definition whole_frame (f : frame) : Prop :=
  exists g, In g frames /\ frame_of g f.

Definition placed_at (g : list pkt) (i : nat) (ps : list pkt) : Prop :=
  forall j x, nth_error ps j = Some x -> nth_error g (i + j) = Some x.

Hypothesis Hok : Forall frame_ok frames.
Hypothesis Hts : ts_distinct.

Lemma sent_in_frame p : sent p <-> exists g i, In g frames /\ nth_error g i = Some p.
Proof.
  unfold sent. rewrite in_concat. split.
  - intros (g & Hg & Hp). apply In_nth_error in Hp. destruct Hp as [i E]. exists g, i. auto.
  - intros (g & i & Hg & E). exists g. split; [exact Hg|]. eapply nth_error_In. exact E.
Qed.

Lemma sent_seq16 p : sent p -> in16 (pseq p).
Proof.
  intros H. apply sent_in_frame in H. destruct H as (g & i & Hg & E). rewrite Forall_forall in Hok.
  destruct (Hok g Hg) as (_ & b & t & Hn). rewrite (proj1 (Hn _ _ E)). apply uint16_add_range.
Qed.

Lemma frame_step g i d x y : In g frames -> nth_error g i = Some x -> nth_error g (i + d) = Some y ->
  pseq y = uint16_add (pseq x) (Z.of_nat d) /\ pts y = pts x.
Proof.
  intros Hg Ex Ey. rewrite Forall_forall in Hok. destruct (Hok g Hg) as (_ & b & t & Hn).
  destruct (Hn _ _ Ex) as [-> ->]. destruct (Hn _ _ Ey) as [-> ->].
  rewrite uint16_add_add, Nat2Z.inj_add. auto.
Qed.

Lemma frame_index g i k d x y : In g frames -> nth_error g i = Some x -> nth_error g k = Some y ->
  pseq y = uint16_add (pseq x) (Z.of_nat d) -> (i + d <= length g)%nat -> k = (i + d)%nat.
Proof.
  intros Hg Ex Ey E Hd. rewrite Forall_forall in Hok. destruct (Hok g Hg) as (Hl & b & t & Hn).
  rewrite (proj1 (Hn _ _ Ex)), (proj1 (Hn _ _ Ey)), uint16_add_add in E.
  apply nth_error_some_lt in Ey. apply uint16_add_inj in E; lia.
Qed.

Lemma run_in_one_frame ps o1 f : frame_of ps f -> run_of sent o1 ps ->
  exists g i, In g frames /\ placed_at g i ps.
Proof.
  intros (Hne & Hall & _) Hps. rewrite Forall_forall in Hall. destruct ps as [|p0 ps']; [congruence|].
  destruct (Hps 0%nat p0 eq_refl) as [E0 S0]. apply sent_in_frame in S0. destruct S0 as (g & i & Hg & Ei).
  exists g, i. split; [exact Hg|].
  intros j. induction j as [|j IHj]; intros x E; [rewrite Nat.add_0_r; injection E as <-; exact Ei|].
  destruct (nth_error (p0 :: ps') j) as [y|] eqn:Ey.
  2:{ apply nth_error_None in Ey. apply nth_error_some_lt in E. lia. }
  pose proof (nth_error_some_lt _ _ _ (IHj y eq_refl)) as Hij.
  destruct (Hps (S j) x E) as [Ex Sx]. apply sent_in_frame in Sx. destruct Sx as (g' & k & Hg' & Ek).
  assert (g' = g).
  { apply (Hts g' g x p0 Hg' Hg); [eapply nth_error_In; exact Ek|eapply nth_error_In; exact Ei|].
    rewrite (Hall x (nth_error_In _ _ E)). symmetry. apply Hall. left. reflexivity. }
  subst g'. rewrite <- (frame_index g i k (S j) p0 x Hg Ei Ek); [exact Ek| |lia].
  rewrite Ex, E0, uint16_add_add. reflexivity.
Qed.

Lemma placed_split g i ps : placed_at g i ps -> g = firstn i g ++ ps ++ skipn (length ps) (skipn i g).
Proof.
  intros H. rewrite <- (firstn_skipn i g) at 1. f_equal. apply prefix_of_nth.
  intros j x E. rewrite nth_error_skipn'. exact (H j x E).
Qed.

Hypothesis Hseq : seq_distinct.

Lemma after_run g i ps o1 f c : frame_of ps f -> In g frames -> run_of sent o1 ps -> placed_at g i ps ->
  nth_error g (i + length ps) = Some c ->
  pseq c = uint16_add o1 (Z.of_nat (length ps)) /\ pts c = fts f.
Proof.
  intros (Hne & Hall & _) Hg Hps Hnth Ec. destruct ps as [|p0 ps']; [congruence|].
  pose proof (Hnth 0%nat p0 eq_refl) as E0. rewrite Nat.add_0_r in E0.
  destruct (frame_step g i _ p0 c Hg E0 Ec) as [Es Et].
  rewrite Es, Et, (proj1 (Hps 0%nat p0 eq_refl)), uint16_add_add. split; [reflexivity|].
  rewrite Forall_forall in Hall. apply Hall. left. reflexivity.
Qed.

Lemma run_reaches_end ps o1 f q g i :
  released_at sent o1 f ps q -> In g frames -> placed_at g i ps -> skipn (length ps) (skipn i g) = [].
Proof.
  intros (Hf & Hps & Sq & Eq & Tq) Hg Hnth.
  destruct (skipn (length ps) (skipn i g)) as [|c rest] eqn:Esk; [reflexivity|]. exfalso.
  assert (Ec : nth_error g (i + length ps) = Some c).
  { rewrite <- nth_error_skipn', <- (Nat.add_0_r (length ps)), <- nth_error_skipn', Esk. reflexivity. }
  destruct (after_run g i ps o1 f c Hf Hg Hps Hnth Ec) as [Es Et].
  apply Tq. rewrite <- Et. f_equal. apply Hseq; [exact Sq| |congruence].
  apply sent_in_frame. eauto.
Qed.

Definition frame_start (o : Z) : Prop := exists g c, In g frames /\ nth_error g 0 = Some c /\ pseq c = o.

Lemma run_from_start ps o1 f g i :
  frame_of ps f -> In g frames -> run_of sent o1 ps -> placed_at g i ps -> in16 o1 -> frame_start o1 -> i = 0%nat.
Proof.
  intros (Hne & _) Hg Hps Hnth Ho (g' & c & Hg' & Ec & Eo). destruct ps as [|p0 ps']; [congruence|].
  pose proof (Hnth 0%nat p0 eq_refl) as E0. rewrite Nat.add_0_r in E0.
  destruct (Hps 0%nat p0 eq_refl) as [Ep0 Sp0]. cbn [Z.of_nat] in Ep0. rewrite (uint16_add_0 _ Ho) in Ep0.
  assert (c = p0) by (apply Hseq; [apply sent_in_frame; eauto|exact Sp0|congruence]). subst c.
  assert (g' = g) by (apply (Hts g' g p0 p0 Hg' Hg); [eapply nth_error_In; exact Ec|eapply nth_error_In; exact E0|reflexivity]).
  subst g'. apply (frame_index g 0 i 0 p0 p0 Hg Ec E0); [|lia].
  symmetry. apply uint16_add_0, sent_seq16, Sp0.
Qed.

Lemma next_is_start ps o1 f q : released_at sent o1 f ps q -> frame_start (pseq q).
Proof.
  intros ((Hne & Hall & _) & Hps & Sq & Eq & Tq). rewrite Forall_forall in Hall.
  apply sent_in_frame in Sq. destruct Sq as (g & [|k] & Hg & Ek); [exists g, q; auto|]. exfalso.
  destruct (nth_error g k) as [c|] eqn:Ec; [|apply nth_error_None in Ec; apply nth_error_some_lt in Ek; lia].
  rewrite <- Nat.add_1_r in Ek. destruct (frame_step g k 1 c q Hg Ec Ek) as [Es Et].
  (* c carries the number of the last packet of the run *)
  destruct (nth_error ps (length ps - 1)) as [y|] eqn:Ey.
  2:{ apply nth_error_None in Ey. destruct ps; [congruence|cbn [length] in Ey; lia]. }
  destruct (Hps _ _ Ey) as [Ey1 Sy].
  assert (Sc : sent c) by (apply sent_in_frame; eauto).
  assert (c = y).
  { apply Hseq; [exact Sc|exact Sy|]. apply (uint16_add_cancel _ _ (Z.of_nat 1)); [exact (sent_seq16 c Sc)|exact (sent_seq16 y Sy)|].
    rewrite <- Es, Eq, Ey1, uint16_add_add. f_equal. apply nth_error_some_lt in Ey. lia. }
  subst c. apply Tq. rewrite Et. apply Hall. eapply nth_error_In. exact Ey.
Qed.

End Stream.

Lemma a_tail_next H a p o1 w1 pli :
  seq16 p -> Good H o1 w1 ->
  match snd (snd (a_tail a p o1 w1 pli)) with
  | None => origin (fst (a_tail a p o1 w1 pli)) = Some o1
  | Some f =>
      exists ps q, released_at (fun x => In x (p :: H)) o1 f ps q /\
                   origin (fst (a_tail a p o1 w1 pli)) = Some (pseq q)
  end.
Proof.
  intros Hp G. pose proof (Good_set H o1 w1 p Hp G) as G2.
  destruct (a_tail_cases a p o1 w1 pli) as [E|(f & ps & q & rest & Hf & Ew & Hts & E)]; rewrite E;
    cbn [fst snd origin]; [reflexivity|].
  rewrite Ew in G2. destruct (Good_next _ _ _ _ _ G2) as [Eq Inq].
  exists ps, q. split; [|rewrite Eq; reflexivity]. split; [exact Hf|].
  split; [intros j x Ex; exact (Good_run _ _ _ _ _ _ G2 Ex)|]. auto.
Qed.

Lemma a_add_track H a p :
  AInv H a -> seq16 p ->
  match snd (snd (a_add a p)) with
  | None => is_video a = true -> fst (snd (a_add a p)) = false -> origin a <> None ->
            origin (fst (a_add a p)) = origin a
  | Some f =>
      exists ps q o1, 0 <= o1 < 65536 /\ released_at (fun x => In x (p :: H)) o1 f ps q /\
        origin (fst (a_add a p)) = Some (pseq q) /\
        (is_video a = true -> fst (snd (a_add a p)) = false -> origin a <> None -> origin a = Some o1)
  end.
Proof.
  intros HI Hp. destruct (a_add_cases a p (proj1 HI)) as [E|(o1 & w1 & pli & HS & E)]; rewrite E.
  - cbn [fst snd]. intros _ _ _. reflexivity.
  - destruct (start_good H a p o1 w1 pli HI Hp HS) as (Ho1 & _ & G1).
    pose proof (a_tail_next H a p o1 w1 pli Hp G1) as HT.
    assert (Hq : is_video a = true -> fst (snd (a_tail a p o1 w1 pli)) = false -> origin a <> None ->
                 origin a = Some o1).
    { rewrite a_tail_flag. intros Hv -> Hn.
      destruct (start_quiet a p o1 w1 HS Hv) as [_ [E0|E0]]; [contradiction|exact E0]. }
    destruct (snd (snd (a_tail a p o1 w1 pli))) as [f|].
    + destruct HT as (ps & q & T1 & T2). exists ps, q, o1. auto.
    + intros Hv Hf Hn. rewrite HT. symmetry. exact (Hq Hv Hf Hn).
Qed.

Section Run.
Variable frames : list (list pkt).

(* `clean` = the origin is the first packet of a frame and nothing was discarded since *)
Fixpoint scan (clean : bool) (outs : list out) : Prop :=
  match outs with
  | [] => True
  | (pli, fr) :: t =>
      let clean' := clean && negb pli in
      match fr with
      | Some f => (if clean' then whole_frame frames f else tail_frame frames f) /\ scan true t
      | None => scan clean' t
      end
  end.

Definition parts (outs : list out) : Prop :=
  Forall (fun o : out => match snd o with Some f => part_frame frames f | None => True end) outs.

Hypothesis Hok : Forall frame_ok frames.
Hypothesis Hts : ts_distinct frames.

(* never a splice -- no assumption on the length of the stream, audio or video *)
Lemma a_run_parts l : forall a H,
  AInv H a -> Forall seq16 l -> (forall x, In x H -> sent frames x) -> Forall (sent frames) l ->
  parts (snd (a_run a l)).
Proof.
  induction l as [|p l IH]; intros a H HI HF HH HS; cbn [a_run snd]; [constructor|].
  inversion HF as [|? ? Hp HF']; subst. inversion HS as [|? ? Sp HS']; subst.
  pose proof (a_add_char H a p HI Hp) as (I1 & _).
  assert (HH1 : forall x, In x (p :: H) -> sent frames x).
  { intros x [<-|Hx]; [exact Sp|apply HH; exact Hx]. }
  constructor.
  - pose proof (a_add_track H a p HI Hp) as HT.
    destruct (snd (snd (a_add a p))) as [f|]; [|exact I].
    destruct HT as (ps & q & o1 & _ & T & _). apply (released_at_impl _ _ _ _ _ _ HH1) in T.
    destruct T as (T1 & T2 & _).
    destruct (run_in_one_frame frames Hok Hts ps o1 f T1 T2) as (g & i & Hg & Hnth).
    exists g, (firstn i g), ps, (skipn (length ps) (skipn i g)).
    split; [exact Hg|]. split; [exact (placed_split g i ps Hnth)|]. split; [exact T1|].
    apply (consec_of_run o1). intros j x E. exact (proj1 (T2 j x E)).
  - apply (IH (fst (a_add a p)) (p :: H)); assumption.
Qed.

Hypothesis Hseq : seq_distinct frames.

Definition Clean (clean : bool) (a : jb) : Prop :=
  clean = true -> exists o, origin a = Some o /\ frame_start frames o.

Lemma a_run_scan l : forall a H clean,
  is_video a = true -> AInv H a -> Forall seq16 l ->
  (forall x, In x H -> sent frames x) -> Forall (sent frames) l -> Clean clean a ->
  scan clean (snd (a_run a l)).
Proof.
  induction l as [|p l IH]; intros a H clean Hv HI HF HH HS HC; cbn [a_run snd]; [exact I|].
  inversion HF as [|? ? Hp HF']; subst. inversion HS as [|? ? Sp HS']; subst.
  pose proof (a_add_char H a p HI Hp) as (I1 & _).
  assert (HH1 : forall x, In x (p :: H) -> sent frames x).
  { intros x [<-|Hx]; [exact Sp|apply HH; exact Hx]. }
  pose proof (a_add_track H a p HI Hp) as HT.
  assert (Hv1 : is_video (fst (a_add a p)) = true).
  { pose proof (a_add_static a p (proj1 HI)) as Est. injection Est as _ _ ->. exact Hv. }
  destruct (a_add a p) as [a1 [pli fr]] eqn:EA. cbn [fst snd] in *. cbn [scan].
  destruct fr as [f|].
  - destruct HT as (ps & q & o1 & T0 & T & T6 & T7). apply (released_at_impl _ _ _ _ _ _ HH1) in T.
    pose proof T as (T1 & T2 & _).
    destruct (run_in_one_frame frames Hok Hts ps o1 f T1 T2) as (g & i & Hg & Hnth).
    pose proof (placed_split g i ps Hnth) as Eg.
    rewrite (run_reaches_end frames Hok Hseq ps o1 f q g i T Hg Hnth), app_nil_r in Eg.
    split.
    + destruct (clean && negb pli) eqn:EC.
      * apply andb_true_iff in EC. destruct EC as [-> Epli]. apply negb_true_iff in Epli. subst pli.
        destruct (HC eq_refl) as (o & EO & Hst).
        assert (o1 = o) by (specialize (T7 Hv eq_refl ltac:(congruence)); congruence). subst o1.
        rewrite (run_from_start frames Hok Hts Hseq ps o f g i T1 Hg T2 Hnth T0 Hst) in Eg.
        cbn [firstn app] in Eg. exists g. split; [exact Hg|]. rewrite Eg. exact T1.
      * exists g, (firstn i g), ps. auto.
    + apply (IH a1 (p :: H) true); try assumption.
      intros _. exists (pseq q). split; [exact T6|].
      exact (next_is_start frames Hok Hseq ps o1 f q T).
  - apply (IH a1 (p :: H)); try assumption.
    intros EC. apply andb_true_iff in EC. destruct EC as [-> Epli]. apply negb_true_iff in Epli. subst pli.
    destruct (HC eq_refl) as (o & EO & Hst). exists o. split; [|exact Hst].
    rewrite (HT Hv eq_refl ltac:(congruence)). exact EO.
Qed.

End Run.

Theorem jitter_parts frames c pf v l s outs :
  cap_ok c -> Forall frame_ok frames -> ts_distinct frames ->
  Forall seq16 l -> Forall (sent frames) l -> reaches c pf v l s outs ->
  parts frames outs.
Proof.
  intros Hc Hok Hts HF HS HR. destruct (reaches_abs c pf v l s outs Hc HF HR) as [-> _].
  apply (a_run_parts frames Hok Hts l (a_init c pf v) []); try assumption.
  - apply a_init_inv, cap_ok_pos, Hc.
  - intros x [].
Qed.

Theorem jitter_scan frames c pf l s outs :
  cap_ok c -> Forall frame_ok frames -> ts_distinct frames -> seq_distinct frames ->
  Forall seq16 l -> Forall (sent frames) l -> reaches c pf true l s outs ->
  scan frames false outs.
Proof.
  intros Hc Hok Hts Hseq HF HS HR. destruct (reaches_abs c pf true l s outs Hc HF HR) as [-> _].
  apply (a_run_scan frames Hok Hts Hseq l (a_init c pf true) [] false); try assumption.
  - reflexivity.
  - apply a_init_inv, cap_ok_pos, Hc.
  - intros x [].
  - intros E. discriminate.
Qed.
