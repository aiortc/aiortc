(* H264Encoder._packetize_fu_a: the fragmentation loop terminates with its
   assertion satisfied, fragments are size-bounded, carry one S / one E marker
   and the original header bits, and reassemble to the NAL unit. *)
From Coq Require Import ZArith List Bool Lia.
From AV Require Import Lib.Bytes Lib.BytesP Lib.CodecX Lib.CodecXP Gen.H264Const Model.H264 Proof.H264PBase.
Import ListNotations.
Local Open Scope Z_scope.

(* headers attached by the loop: h0 on the first, hm on the middle ones, he on
   the last (which wins when there is a single payload) *)
Fixpoint attach (h0 hm he : bytes) (ps : list bytes) : list bytes :=
  match ps with
  | [] => []
  | p :: tl =>
      match tl with
      | [] => [he ++ p]
      | _ :: _ => (h0 ++ p) :: attach hm hm he tl
      end
  end.

Lemma attach_shape hm he : forall mids h0 p0 pl,
  attach h0 hm he (p0 :: mids ++ [pl]) = (h0 ++ p0) :: map (fun p => hm ++ p) mids ++ [he ++ pl].
Proof.
  induction mids as [|p mids IH]; intros h0 p0 pl; [reflexivity|].
  cbn [app attach map]. f_equal. apply IH.
Qed.

Lemma attach_len k hm he : len hm = 2 -> len he = 2 -> forall ps h0,
  len h0 = 2 -> Forall (fun p => len p <= k - 2) ps ->
  Forall (fun f => len f <= k) (attach h0 hm he ps).
Proof.
  intros Hm He. induction ps as [|p ps IH]; intros h0 H0 Hps; [constructor|].
  inversion Hps as [|? ? Hp Hps']; subst. cbn [attach].
  destruct ps as [|q ps]; constructor; rewrite ?len_app; try lia.
  - constructor.
  - apply IH; assumption.
Qed.

Lemma fu_loop_done fuel data nl ps hdr hm he : fu_loop fuel data (len data) nl ps hdr hm he = Ok [].
Proof. destruct fuel; cbn [fu_loop]; rewrite Z.ltb_irrefl, Z.eqb_refl; reflexivity. Qed.

(* one round of the loop; b = 1 while larger packets remain *)
Lemma fu_loop_step f data offset nl ps hdr hm he :
  offset < len data ->
  let b := if 0 <? nl then 1 else 0 in
  let offset' := offset + (ps + b) in
  fu_loop (S f) data offset nl ps hdr hm he =
  rest <- fu_loop f data offset' (nl - b) ps hm hm he ;;
  Ok (((if offset' =? len data then he else hdr) ++ pyslice data offset offset') :: rest).
Proof.
  intros H. cbn [fu_loop]. rewrite (proj2 (Z.ltb_lt _ _) H).
  destruct (0 <? nl); cbv zeta; rewrite ?Z.add_0_r, ?Z.sub_0_r, ?Z.add_assoc; reflexivity.
Qed.

(* The loop, started with  len(data) - offset = c*ps + nl  and nl <= c, runs
   exactly c times, never trips the assertion, and cuts data[offset:] into nl
   pieces of ps+1 bytes followed by c - nl pieces of ps bytes. *)
Lemma fu_loop_spec : forall c fuel data offset nl ps hdr hm he,
  0 <= offset -> 0 <= nl <= Z.of_nat c -> 1 <= ps ->
  len data - offset = Z.of_nat c * ps + nl -> (c <= fuel)%nat ->
  exists payloads,
    fu_loop fuel data offset nl ps hdr hm he = Ok (attach hdr hm he payloads) /\
    length payloads = c /\
    concat payloads = skipn (Z.to_nat offset) data /\
    Forall (fun p => 1 <= len p <= ps + (if 0 <? nl then 1 else 0)) payloads.
Proof.
  induction c as [|c IH]; intros fuel data offset nl ps hdr hm he Hoff Hnl Hps Hlen Hfuel.
  - assert (offset = len data) as -> by lia. exists []. rewrite fu_loop_done.
    rewrite skipn_len. repeat split. constructor.
  - destruct fuel as [|fuel]; [lia|].
    rewrite Nat2Z.inj_succ, Z.mul_succ_l in Hlen.
    rewrite fu_loop_step by lia. cbv zeta.
    set (b := if 0 <? nl then 1 else 0).
    assert (Hb : 0 <= b <= 1 /\ b <= nl /\ (nl - b <= 0 \/ b = 1))
      by (unfold b; destruct (Z.ltb_spec 0 nl); lia).
    destruct (pyslice_chunk data offset (ps + b)) as [Hl Hk]; try lia.
    destruct (IH fuel data (offset + (ps + b)) (nl - b) ps hm hm he)
      as [pl [Hrun [Hcnt [Hcat Hall]]]]; try lia.
    rewrite Hrun. cbn [bind]. exists (pyslice data offset (offset + (ps + b)) :: pl).
    split; [|split; [|split]].
    + (* the end header goes on exactly when nothing follows *)
      f_equal. cbn [attach]. destruct pl; cbn [length] in Hcnt; subst c.
      * rewrite (proj2 (Z.eqb_eq _ _)) by lia. reflexivity.
      * rewrite (proj2 (Z.eqb_neq _ _)) by lia. reflexivity.
    + cbn [length]. lia.
    + cbn [concat]. rewrite Hcat. exact Hk.
    + constructor; [lia|].
      eapply Forall_impl; [|exact Hall]. cbn beta. intros p Hp.
      destruct (Z.ltb_spec 0 (nl - b)); lia.
Qed.

Lemma ceil_div_spec a b : 0 < b -> (ceil_div a b - 1) * b < a <= ceil_div a b * b.
Proof.
  intros Hb. unfold ceil_div.
  pose proof (Z.div_mod (- a) b ltac:(lia)) as Hdm.
  pose proof (Z.mod_pos_bound (- a) b Hb) as Hmod.
  nia.
Qed.

Lemma fu_sizes payload avail :
  0 < avail -> avail < payload ->
  let np := ceil_div payload avail in
  let ps := payload / np in
  let nl := payload mod np in
  2 <= np <= payload /\ payload = np * ps + nl /\ 0 <= nl < np /\
  1 <= ps /\ ps + (if 0 <? nl then 1 else 0) <= avail.
Proof.
  intros Ha Hp np. pose proof (ceil_div_spec payload avail Ha) as Hceil. fold np in Hceil.
  assert (Hnp : 2 <= np <= payload) by nia. intros ps nl.
  pose proof (Z.div_mod payload np ltac:(lia)) as Hdm. pose proof (Z.mod_pos_bound payload np ltac:(lia)) as Hnl.
  fold ps nl in Hdm, Hnl. repeat split; try lia; destruct (Z.ltb_spec 0 nl); nia.
Qed.

(* what "an FU-A fragment of the NAL unit with header byte h0" means on the wire *)
Definition is_fu_frag (h0 : Z) (s e : bool) (payload pkt : bytes) : Prop :=
  exists ind fh,
    pkt = ind :: fh :: payload /\ 0 <= ind < 256 /\ 0 <= fh < 256 /\
    Z.land ind 31 = h264_NAL_TYPE_FU_A /\         (* type 28 *)
    Z.land ind 224 = Z.land h0 224 /\              (* F and NRI of the original header *)
    Z.land fh 31 = Z.land h0 31 /\                 (* original NAL type *)
    Z.land fh 128 = (if s then 128 else 0) /\      (* S bit *)
    Z.land fh 64 = (if e then 64 else 0) /\        (* E bit *)
    Z.land fh 32 = 0.                              (* R bit *)

(* frags is a correct fragmentation of NAL unit n: one S fragment first, one E
   fragment last, only unmarked fragments between, all non-empty and within
   the size limit, payloads concatenating to the NAL unit body *)
Definition fu_fragments (n : bytes) (frags : list bytes) : Prop :=
  exists h0 p0 mids pl f0 fmids fl,
    n = h0 :: p0 ++ concat mids ++ pl /\
    frags = f0 :: fmids ++ [fl] /\
    is_fu_frag h0 true false p0 f0 /\
    Forall2 (is_fu_frag h0 false false) mids fmids /\
    is_fu_frag h0 false true pl fl /\
    Forall (fun p => 1 <= len p) (p0 :: mids ++ [pl]) /\
    Forall (fun f => len f <= h264_PACKET_MAX) frags.

(* the indicator byte keeps F and NRI and gets type 28; the header byte keeps
   the type and gets the marker bits m, which lie above bit 5 *)
Lemma fu_frag_intro h0 m (s e : bool) payload :
  0 <= h0 < 256 -> 0 <= m < 256 -> Z.land m 31 = 0 ->
  Z.land m 128 = (if s then 128 else 0) -> Z.land m 64 = (if e then 64 else 0) -> Z.land m 32 = 0 ->
  is_fu_frag h0 s e payload
    (Z.lor (Z.land h0 224) h264_NAL_TYPE_FU_A :: Z.lor (Z.land h0 31) m :: payload).
Proof.
  intros Hh0 Hm H31 H128 H64 H32. eexists _, _. split; [reflexivity|].
  split. { apply (lor_range 8); [lia | apply (land_range 8); lia | rewrite type_fu_a; lia]. }
  split. { apply (lor_range 8); [lia | apply (land_range 8); lia | exact Hm]. }
  split. { rewrite land_lor_other by reflexivity. reflexivity. }
  split. { apply land_lor_own. reflexivity. }
  split. { apply land_lor_own. exact H31. }
  split. { rewrite land_lor_other by reflexivity. exact H128. }
  split. { rewrite land_lor_other by reflexivity. exact H64. }
  rewrite land_lor_other by reflexivity. exact H32.
Qed.

Lemma attach_fu_fragments h0 payloads :
  0 <= h0 < 256 -> (2 <= length payloads)%nat ->
  Forall (fun p => 1 <= len p <= h264_PACKET_MAX - 2) payloads ->
  let ind := Z.lor (Z.land h0 224) h264_NAL_TYPE_FU_A in
  let nal := Z.land h0 31 in
  fu_fragments (h0 :: concat payloads)
    (attach [ind; Z.lor nal 128] [ind; nal] [ind; Z.lor nal 64] payloads).
Proof.
  intros Hh0 Hlen Hall ind nal.
  assert (Hsz : Forall (fun f => len f <= h264_PACKET_MAX)
                  (attach [ind; Z.lor nal 128] [ind; nal] [ind; Z.lor nal 64] payloads)).
  { apply attach_len; try reflexivity. eapply Forall_impl; [|exact Hall]. cbn beta. lia. }
  destruct payloads as [|p0 [|p1 tl]]; cbn [length] in Hlen; try lia.
  destruct (exists_last (l := p1 :: tl) ltac:(discriminate)) as [mids [pl Htl]].
  rewrite Htl, attach_shape in *.
  exists h0, p0, mids, pl. eexists _, _, _.
  split. { cbn [concat]. rewrite concat_app. cbn [concat]. now rewrite app_nil_r. }
  split; [reflexivity|].
  split. { apply (fu_frag_intro h0 128 true false); (lia || reflexivity). }
  split. { apply Forall2_map_r. intros p. unfold nal. rewrite <- (Z.lor_0_r (Z.land h0 31)).
           apply (fu_frag_intro h0 0 false false); (lia || reflexivity). }
  split. { apply (fu_frag_intro h0 64 false true); (lia || reflexivity). }
  split; [|exact Hsz].
  eapply Forall_impl; [|exact Hall]. cbn beta. lia.
Qed.

Theorem packetize_fu_a_spec : forall data,
  bytes_ok data -> h264_PACKET_MAX < len data ->
  exists frags, packetize_fu_a data = Ok frags /\ fu_fragments data frags.
Proof.
  intros data Hok Hbig.
  destruct consts_ok as (Hnal & _ & Hfu2 & Hfulo & _ & _ & _ & _ & _).
  destruct data as [|d0 body]; [unfold len in Hbig; cbn in Hbig; lia|].
  apply bytes_ok_cons in Hok. destruct Hok as [Hd0 _]. unfold byte_ok in Hd0.
  unfold packetize_fu_a.
  set (avail := h264_PACKET_MAX - h264_FU_A_HEADER_SIZE).
  set (payload := len (d0 :: body) - h264_NAL_HEADER_SIZE).
  assert (Hpl : payload = len body) by (unfold payload; rewrite len_cons; lia).
  destruct (fu_sizes payload avail) as (Hnp & Hdm & Hnl & Hps);
    [unfold avail; lia | unfold avail; rewrite Hpl; rewrite len_cons in Hbig; lia |].
  set (np := ceil_div payload avail) in *. set (ps := payload / np) in *. set (nl := payload mod np) in *.
  rewrite (proj2 (Z.eqb_neq avail 0)), (proj2 (Z.eqb_neq np 0)) by (unfold avail; lia).
  cbn [u8 nth_error]. rewrite Hnal.
  destruct (fu_loop_spec (Z.to_nat np) (length (d0 :: body)) (d0 :: body) 1 nl ps
              [Z.lor (Z.land d0 224) h264_NAL_TYPE_FU_A; Z.lor (Z.land d0 31) 128]
              [Z.lor (Z.land d0 224) h264_NAL_TYPE_FU_A; Z.land d0 31]
              [Z.lor (Z.land d0 224) h264_NAL_TYPE_FU_A; Z.lor (Z.land d0 31) 64])
    as [payloads [Hrun [Hcnt [Hcat Hall]]]]; try lia.
  { unfold len in Hpl. cbn [length]. lia. }
  rewrite Hrun. eexists. split; [reflexivity|].
  change (skipn (Z.to_nat 1) (d0 :: body)) with body in Hcat. rewrite <- Hcat.
  apply (attach_fu_fragments d0 payloads Hd0); [lia|].
  eapply Forall_impl; [|exact Hall]. cbn beta. unfold avail in Hps. lia.
Qed.

Lemma parse_fu_a ind fh payload :
  Z.land ind 31 = h264_NAL_TYPE_FU_A ->
  parse (ind :: fh :: payload) =
  Ok (negb (Z.land fh 128 =? 0),
      (if negb (Z.land fh 128 =? 0) then START_CODE ++ [Z.lor (Z.land ind 224) (Z.land fh 31)] else [])
      ++ payload).
Proof.
  intros Hty. unfold parse.
  rewrite (proj2 (Z.ltb_ge _ 2)) by (rewrite !len_cons; pose proof (len_nonneg payload); lia).
  cbn [u8 nth_error]. rewrite Hty.
  change ((1 <=? h264_NAL_TYPE_FU_A) && (h264_NAL_TYPE_FU_A <? 24)) with false.
  rewrite Z.eqb_refl. cbv iota.
  rewrite pyfrom_nonneg by (rewrite nal_header_size; lia). reflexivity.
Qed.

Lemma parse_fu_frag h0 s e payload pkt :
  0 <= h0 < 256 -> is_fu_frag h0 s e payload pkt ->
  parse pkt = Ok (s, (if s then START_CODE ++ [h0] else []) ++ payload).
Proof.
  intros Hh0 (ind & fh & -> & _ & _ & Hi1 & Hi2 & Hf1 & Hf2 & _ & _).
  rewrite (parse_fu_a _ _ _ Hi1), Hf2, Hi2, Hf1, (header_split h0 Hh0).
  destruct s; reflexivity.
Qed.
