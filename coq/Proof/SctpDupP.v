(* C01 / C05: a TSN is accepted at most once and the reassembly assertion is unreachable,
   for every list of DATA and FORWARD-TSN chunks whose TSNs lie within a window of fewer than
   2^31 TSNs after the initial cumulative TSN (anywhere in the 32-bit space, wrap included). *)
From Coq Require Import ZArith List Bool Lia ZifyBool.
From AV Require Import Lib.Bytes Gen.Utils Gen.SctpConst Model.SctpRecv Proof.SctpRecvP Proof.SctpC01P.
Import ListNotations.
Local Open Scope Z_scope.

Ltac Zify.zify_post_hook ::= Z.to_euclidean_division_equations.

Definition M32 : Z := 4294967296.
Definition r32 (t : Z) : Prop := 0 <= t < M32.
Definition off (base t : Z) : Z := (t - base) mod M32.

Lemma in_insert_by b t l x : In x (insert_by b t l) <-> x = t \/ In x l.
Proof.
  induction l as [|y l IH]; cbn [insert_by In]; [split; intros [H|H]; auto|].
  destruct (_ <=? _); cbn [In]; [split; intros [H|H]; auto|]. split.
  - intros [H|H]; [auto|]. apply IH in H as [H|H]; auto.
  - intros [H|[H|H]]; [right; apply IH; now left|now left|right; apply IH; now right].
Qed.

Lemma in_sorted b l x : In x (sorted_misordered b l) <-> In x l.
Proof.
  unfold sorted_misordered. induction l as [|y l IH]; cbn [fold_right In]; [tauto|].
  rewrite in_insert_by, IH. intuition.
Qed.

Lemma zmem_In x l : zmem x l = true <-> In x l.
Proof.
  unfold zmem. rewrite existsb_exists. split.
  - intros (y & Hy & E). apply Z.eqb_eq in E. now subst.
  - intros H. exists x. split; [exact H|apply Z.eqb_refl].
Qed.

Lemma add_scan_no_assert c : forall l, ~ In (tsn c) (map tsn l) -> add_scan l c <> AddAssert.
Proof.
  induction l as [|r l IH]; cbn [add_scan map In]; intros Hn; [discriminate|].
  destruct (Z.eqb_spec (tsn r) (tsn c)) as [E|_]; [exfalso; apply Hn; now left|].
  destruct (uint32_gt _ _); [discriminate|].
  destruct (add_scan l c) eqn:E2; [discriminate|]. exfalso. apply IH; auto.
Qed.

Lemma add_chunk_no_assert l c : ~ In (tsn c) (map tsn l) -> add_chunk l c <> AddAssert.
Proof.
  unfold add_chunk. destruct l as [|a l0]; [discriminate|].
  destruct (uint32_gt _ _); [discriminate|]. apply add_scan_no_assert.
Qed.

Section Window.
Variable base : Z.
Variable N : Z.
Hypothesis Hbase : r32 base.
Hypothesis HN : 0 <= N < 2147483648.

Definition inw (t : Z) : Prop := r32 t /\ off base t <= N.

Lemma gt_off a b : inw a -> inw b -> uint32_gt a b = true <-> off base b < off base a.
Proof. unfold inw, r32, off, M32, uint32_gt in *. intros [Ha Ha'] [Hb Hb']. lia. Qed.

Lemma gte_off a b : inw a -> inw b -> uint32_gte a b = true <-> off base b <= off base a.
Proof.
  intros Ha Hb. unfold uint32_gte. rewrite orb_true_iff, gt_off by assumption.
  unfold inw, r32, off, M32 in *. lia.
Qed.

(* one TSN further is one offset further, anywhere short of a whole turn *)
Lemma off_plus_one c : r32 c -> off base c + 1 < M32 -> r32 (tsn_plus_one c) /\ off base (tsn_plus_one c) = off base c + 1.
Proof. unfold r32, off, M32, tsn_plus_one, SCTP_TSN_MODULO in *. intros Hc Hlt. lia. Qed.

Lemma plus_one_off c : inw c -> off base c < N -> inw (tsn_plus_one c) /\ off base (tsn_plus_one c) = off base c + 1.
Proof. intros [Hc Hc'] Hlt. destruct (off_plus_one c Hc) as [H1 H2]; [unfold M32; lia|]. split; [split; [exact H1|lia]|exact H2]. Qed.

Lemma plus_one_off_inv c t : inw c -> inw t -> t = tsn_plus_one c -> off base t = off base c + 1.
Proof. intros [Hc Hc'] _ ->. apply off_plus_one; [exact Hc|unfold M32; lia]. Qed.

Lemma off_inj a b : inw a -> inw b -> off base a = off base b -> a = b.
Proof. unfold inw, r32, off, M32 in *. intros [Ha _] [Hb _]. lia. Qed.

Lemma consolidate_spec : forall l cum, inw cum -> Forall inw l ->
  inw (consolidate cum l) /\ off base cum <= off base (consolidate cum l).
Proof.
  induction l as [|t l IH]; intros cum Hc Hl; cbn [consolidate]; [split; [exact Hc|lia]|].
  inversion Hl as [|? ? Ht Hl']; subst.
  destruct (Z.eqb_spec t (tsn_plus_one cum)) as [E|_]; [|split; [exact Hc|lia]].
  destruct (IH t Ht Hl') as (H1 & H2). split; [exact H1|]. pose proof (plus_one_off_inv cum t Hc Ht E). lia.
Qed.

(* the cumulative TSN moves on from c0 over the out-of-order TSNs that follow it without a gap; those
   beyond where it comes to rest stay out of order *)
Lemma advance c0 mis : inw c0 -> Forall inw mis ->
  let cum := consolidate c0 (sorted_misordered c0 mis) in
  inw cum /\ off base c0 <= off base cum /\
  Forall (fun m => inw m /\ off base cum < off base m) (filter (is_obsolete cum) mis) /\
  (forall a, inw a -> In a mis -> off base a <= off base cum \/ In a (filter (is_obsolete cum) mis)).
Proof.
  intros Hc Hmis cum.
  assert (Hsorted : Forall inw (sorted_misordered c0 mis)).
  { rewrite Forall_forall in *. intros x Hx. apply in_sorted in Hx. now apply Hmis. }
  destruct (consolidate_spec _ _ Hc Hsorted) as (Hc1 & Hc2). fold cum in Hc1, Hc2.
  split; [exact Hc1|]. split; [exact Hc2|]. split.
  - rewrite Forall_forall in *. intros m Hin. apply filter_In in Hin as [Hin Hob].
    split; [now apply Hmis|]. unfold is_obsolete in Hob. apply gt_off in Hob; auto.
  - intros a Ha Hin. destruct (Z_le_gt_dec (off base a) (off base cum)) as [Hle|Hgt]; [now left|right].
    apply filter_In. split; [exact Hin|]. unfold is_obsolete. apply gt_off; auto. lia.
Qed.

Definition acc (s : rstate) (t : Z) : Prop :=
  off base t <= off base (last_rx s) \/ In t (misordered s).

Definition all_reasm (s : rstate) : list chunk := concat (map (fun kv => reasm (snd kv)) (streams s)).

Definition inv (s : rstate) : Prop :=
  inw (last_rx s) /\
  Forall (fun m => inw m /\ off base (last_rx s) < off base m) (misordered s) /\
  Forall (fun c => inw (tsn c) /\ acc s (tsn c)) (all_reasm s).

(* the duplicate test of _mark_received decides acc *)
Lemma dup_test s t : inv s -> inw t ->
  (uint32_gte (last_rx s) t || zmem t (misordered s)) = true <-> acc s t.
Proof.
  intros (Hl & _) Ht. unfold acc. rewrite orb_true_iff, gte_off, zmem_In by assumption. tauto.
Qed.

Lemma mark_received_inv s t : inv s -> inw t ->
  let '(s', dup) := mark_received s t in
  streams s' = streams s /\
  (dup = true -> acc s t /\ last_rx s' = last_rx s /\ misordered s' = misordered s) /\
  (dup = false -> ~ acc s t /\ inw (last_rx s') /\
      Forall (fun m => inw m /\ off base (last_rx s') < off base m) (misordered s') /\
      (forall a, inw a -> (acc s a \/ a = t) -> acc s' a)).
Proof.
  intros Hinv Ht. unfold mark_received.
  destruct (uint32_gte (last_rx s) t || zmem t (misordered s)) eqn:E.
  - cbn [streams last_rx misordered]. split; [reflexivity|]. split; [|discriminate].
    intros _. split; [now apply dup_test|auto].
  - cbn [streams last_rx misordered]. split; [reflexivity|]. split; [discriminate|]. intros _.
    assert (Hna : ~ acc s t). { intros H. apply (dup_test s t Hinv Ht) in H. congruence. }
    destruct Hinv as (Hl & Hm & _).
    assert (Hmis : Forall inw (t :: misordered s)).
    { constructor; [exact Ht|]. eapply Forall_impl; [|exact Hm]. intros m [H _]. exact H. }
    destruct (advance (last_rx s) _ Hl Hmis) as (H1 & H2 & H3 & H4). cbn zeta in *.
    split; [exact Hna|]. split; [exact H1|]. split; [exact H3|].
    intros a Ha Hacc. unfold acc. cbn [last_rx misordered].
    destruct Hacc as [[Hle|Hin]| ->]; [left; lia|apply H4; [exact Ha|now right]|apply H4; [exact Ha|now left]].
Qed.

Lemma inv_weaken s s' :
  inw (last_rx s') ->
  Forall (fun m => inw m /\ off base (last_rx s') < off base m) (misordered s') ->
  (forall a, inw a -> acc s a -> acc s' a) ->
  Forall (fun c => inw (tsn c) /\ acc s (tsn c)) (all_reasm s') -> inv s'.
Proof.
  intros H1 H2 H3 H4. split; [exact H1|]. split; [exact H2|].
  eapply Forall_impl; [|exact H4]. intros c [Hc Ha]. split; [exact Hc|]. now apply H3.
Qed.

(* did this event insert its chunk into a reassembly queue? *)
Definition accepts (s : rstate) (e : revent) : option Z :=
  match e with
  | EvData c =>
      let s0 := mkR (last_rx s) (misordered s) (duplicates s) (streams s) (rwnd s) true in
      if far_ahead s0 (tsn c) then None
      else if snd (mark_received s0 (tsn c)) then None else Some (tsn c)
  | EvFwd _ _ => None
  end.

(* one DATA chunk: the invariant holds afterwards, what was accepted stays accepted, and a TSN is
   accepted only if it was not before *)
Lemma receive_data_inv s c : inv s -> inw (tsn c) ->
  exists s' d, receive_data s c = ROk s' d /\ inv s' /\ (forall a, inw a -> acc s a -> acc s' a) /\
    (forall t, accepts s (EvData c) = Some t -> ~ acc s t /\ acc s' t).
Proof.
  intros Hinv Hc. pose proof (receive_data_queued s c) as Hq. revert Hq. unfold receive_data. cbn [accepts].
  set (s0 := mkR (last_rx s) (misordered s) (duplicates s) (streams s) (rwnd s) true).
  assert (H0 : inv s0) by exact Hinv.
  destruct (far_ahead s0 (tsn c)).
  { intros _. eexists _, _. split; [reflexivity|]. split; [exact H0|]. split; [intros a _ Ha; exact Ha|discriminate]. }
  pose proof (mark_received_inv s0 (tsn c) H0 Hc) as Hm.
  destruct (mark_received s0 (tsn c)) as [s1 dup]. destruct Hm as (Hs & Hd1 & Hd2). cbn [snd]. destruct dup.
  - intros _. destruct (Hd1 eq_refl) as (_ & El & Em). eexists _, _. split; [reflexivity|]. split.
    + destruct H0 as (A & B & C). split; [rewrite El; exact A|]. split; [rewrite El, Em; exact B|].
      unfold all_reasm. rewrite Hs. unfold acc. rewrite El, Em. exact C.
    + split; [|discriminate]. intros a _ Ha. unfold acc in *. rewrite El, Em. exact Ha.
  - destruct (Hd2 eq_refl) as (Hna & H1 & H2 & H3).
    destruct H0 as (A & B & C). rewrite Forall_forall in C. rewrite Hs.
    destruct (add_chunk (reasm (get_stream (streams s0) (sid c))) c) as [l|] eqn:Ea.
    2:{ exfalso. revert Ea. apply add_chunk_no_assert. intros Hin. apply in_map_iff in Hin as (x & Ex & Hx).
        apply get_stream_allr, C in Hx as [_ Hx]. rewrite Ex in Hx. contradiction. }
    destruct (pop_messages l (sseq_expected (get_stream (streams s0) (sid c)))) as [[l2 seq2] out] eqn:Ep.
    intros Hq. specialize (Hq _ _ eq_refl). eexists _, _. split; [reflexivity|].
    (* acc reads the cumulative TSN and the out-of-order set only *)
    assert (Hacc : forall a, inw a -> acc s0 a \/ a = tsn c -> acc (mkR (last_rx s1) (misordered s1) (duplicates s1)
              (set_stream (streams s0) (sid c) (mkStream l2 seq2)) (rwnd s1 - len (udata c) + msgs_len out) true) a) by exact H3.
    split; [|split; [intros a Ha Ha'; apply Hacc; auto|intros t [= <-]; split; [exact Hna|apply Hacc; auto]]].
    split; [exact H1|]. split; [exact H2|].
    apply Forall_forall. intros x Hx. apply Hq in Hx as [<-|Hx]; [split; [exact Hc|apply Hacc; auto]|].
    destruct (C x Hx) as [Hi Ha]. split; [exact Hi|apply Hacc; auto].
Qed.

(* one FORWARD-TSN chunk: the cumulative TSN moves on, so what was accepted stays accepted; the
   queues only lose chunks *)
Lemma fwd_inv s cum strs : inv s -> inw cum ->
  inv (fst (receive_forward_tsn s cum strs)) /\
  (forall a, inw a -> acc s a -> acc (fst (receive_forward_tsn s cum strs)) a).
Proof.
  intros Hinv Hc. pose proof (receive_forward_tsn_queued s cum strs) as Hincl. revert Hincl.
  unfold receive_forward_tsn. cbn [last_rx misordered duplicates streams rwnd sack_needed].
  destruct Hinv as (Hl & Hm & Hr).
  destruct (uint32_gte (last_rx s) cum) eqn:G.
  { cbn [fst]. intros _. split; [split; [exact Hl|split; [exact Hm|exact Hr]]|auto]. }
  assert (Hlt : off base (last_rx s) < off base cum).
  { destruct (Z_lt_le_dec (off base (last_rx s)) (off base cum)) as [H|H]; [exact H|].
    apply (gte_off _ _ Hl Hc) in H. congruence. }
  set (mis1 := filter (is_obsolete cum) (misordered s)).
  assert (Hmis1 : Forall inw mis1).
  { apply Forall_forall. intros m Hin. apply filter_In in Hin as [Hin _]. rewrite Forall_forall in Hm. now destruct (Hm m Hin). }
  destruct (advance cum mis1 Hc Hmis1) as (Hc1 & Hc2 & Hm2 & Hin2).
  set (cum2 := consolidate cum (sorted_misordered cum mis1)) in *.
  destruct (fwd_streams (streams s) strs) as [strs2 ms]. destruct (prune_all strs2 cum) as [strs3 pruned].
  destruct (repop_streams strs3 strs) as [strs4 ms']. cbn [fst streams]. intros Hincl.
  assert (Hacc : forall a, inw a -> acc s a ->
            acc (mkR cum2 (filter (is_obsolete cum2) mis1) (filter (is_obsolete cum2) (duplicates s)) strs4
                     (rwnd s + msgs_len ms + pruned + msgs_len ms') true) a).
  { intros a Ha [Hle|Hin]; unfold acc; cbn [last_rx misordered]; [left; lia|].
    destruct (Z_le_gt_dec (off base a) (off base cum)) as [H|H]; [left; lia|].
    apply Hin2; [exact Ha|]. apply filter_In. split; [exact Hin|]. unfold is_obsolete. apply gt_off; auto. lia. }
  split; [|exact Hacc].
  apply (inv_weaken s); cbn [last_rx misordered]; [exact Hc1|exact Hm2|exact Hacc|].
  apply Forall_forall. intros r Hin. rewrite Forall_forall in Hr. apply Hr. apply Hincl. exact Hin.
Qed.

Definition data_ev (e : revent) : Prop :=
  match e with EvData c => inw (tsn c) | EvFwd _ _ => False end.

(* DATA and FORWARD-TSN chunks inside the window *)
Definition ev_inw (e : revent) : Prop :=
  match e with EvData c => inw (tsn c) | EvFwd cum _ => inw cum end.

Lemma data_ev_inw es : Forall data_ev es -> Forall ev_inw es.
Proof. apply Forall_impl. intros [c|cum strs] H; [exact H|destruct H]. Qed.

Fixpoint accepted (s : rstate) (es : list revent) : list Z :=
  match es with
  | [] => []
  | e :: es' => match accepts s e with Some t => [t] | None => [] end ++ accepted (fst (rstep s e)) es'
  end.

Lemma rstep_inv s e : inv s -> ev_inw e ->
  inv (fst (rstep s e)) /\ snd (rstep s e) <> OutAssert /\
  (forall a, inw a -> acc s a -> acc (fst (rstep s e)) a) /\
  (forall t, accepts s e = Some t -> ~ acc s t /\ acc (fst (rstep s e)) t).
Proof.
  intros Hinv He. destruct e as [c|cum strs]; cbn [rstep].
  - destruct (receive_data_inv s c Hinv He) as (s' & d & E & R).
    rewrite E. unfold make_sack. cbn [fst snd]. split; [exact (proj1 R)|]. split; [discriminate|exact (proj2 R)].
  - destruct (fwd_inv s cum strs Hinv He) as [H1 H2]. cbn [accepts].
    destruct (receive_forward_tsn s cum strs) as [s1 ms]. cbn [fst] in *. unfold make_sack. cbn [fst snd].
    split; [exact H1|]. split; [discriminate|]. split; [exact H2|discriminate].
Qed.

Lemma rstep_data_inv s c : inv s -> inw (tsn c) ->
  inv (fst (rstep s (EvData c))) /\ snd (rstep s (EvData c)) <> OutAssert /\
  (forall a, inw a -> acc s a -> acc (fst (rstep s (EvData c))) a) /\
  (forall t, accepts s (EvData c) = Some t -> ~ acc s t /\ acc (fst (rstep s (EvData c))) t).
Proof. exact (rstep_inv s (EvData c)). Qed.

Lemma accepts_data s e t : accepts s e = Some t -> exists c, e = EvData c /\ t = tsn c.
Proof.
  destruct e as [c|]; [|discriminate]. cbn [accepts]. destruct (far_ahead _ _); [discriminate|].
  destruct (snd _); [discriminate|]. intros [= <-]. now exists c.
Qed.

(* a TSN is accepted at most once, also across FORWARD-TSN: what is accepted later was not acceptable before *)
Theorem accepted_nodup_all : forall es s, inv s -> Forall ev_inw es ->
  NoDup (accepted s es) /\ forall t, In t (accepted s es) -> inw t /\ ~ acc s t.
Proof.
  induction es as [|e es IH]; intros s Hinv Hes; cbn [accepted]; [split; [constructor|intros t []]|].
  inversion Hes as [|? ? He Hrest]; subst.
  destruct (rstep_inv s e Hinv He) as (H1 & _ & H3 & H4). destruct (IH _ H1 Hrest) as [Hnd Hfresh].
  assert (Hlater : forall t, In t (accepted (fst (rstep s e)) es) -> inw t /\ ~ acc s t).
  { intros t Hin. destruct (Hfresh t Hin) as [Hi Hn]. split; [exact Hi|]. intros Ha. apply Hn. now apply H3. }
  destruct (accepts s e) as [t|] eqn:Ea; cbn [app]; [|split; assumption].
  destruct (H4 t eq_refl) as [Hna Ha]. split.
  - constructor; [|exact Hnd]. intros Hin. now destruct (Hfresh t Hin).
  - intros t' [<-|Hin]; [|now apply Hlater]. destruct (accepts_data _ _ _ Ea) as (c & -> & ->). split; [exact He|exact Hna].
Qed.

Theorem accepted_nodup es s : inv s -> Forall data_ev es -> NoDup (accepted s es).
Proof. intros Hinv Hes. exact (proj1 (accepted_nodup_all es s Hinv (data_ev_inw es Hes))). Qed.

(* the reassembly assertion is unreachable for DATA and FORWARD-TSN events alike *)
Theorem no_assert_all : forall es s, inv s -> Forall ev_inw es -> Forall (fun o => o <> OutAssert) (snd (rrun s es)).
Proof.
  induction es as [|e es IH]; intros s Hinv Hes; [constructor|].
  rewrite rrun_cons. cbn [snd]. inversion Hes as [|? ? He Hrest]; subst.
  destruct (rstep_inv s e Hinv He) as (H1 & H2 & _ & _). constructor; [exact H2|now apply IH].
Qed.

Theorem no_assert es s : inv s -> Forall data_ev es -> Forall (fun o => o <> OutAssert) (snd (rrun s es)).
Proof. intros Hinv Hes. exact (no_assert_all es s Hinv (data_ev_inw es Hes)). Qed.

Lemma inv_rinit : inv (rinit base).
Proof.
  unfold inv, rinit, all_reasm. cbn. split; [|split; constructor].
  unfold inw, off, r32, M32 in *. split; [exact Hbase|]. lia.
Qed.

End Window.
