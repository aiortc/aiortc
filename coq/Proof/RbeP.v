(* Proofs about Model/Rbe.v (property C15): while the clock never goes back
   RemoteBitrateEstimator.add behaves like the same code over the list of
   samples its rate counter stands for (`view_add`), and every estimate it
   returns respects the bounds. *)
From Coq Require Import ZArith List Bool Lia.
From AV Require Import Lib.Sx Lib.Bytes Model.RateCounter Model.Aimd Model.Rbe Proof.RateCounterP Proof.AimdP.
Import ListNotations.
Local Open Scope Z_scope.

(* first-seen order *)
Definition note (seen : list Z) (k : Z) : list Z :=
  if existsb (Z.eqb k) seen then seen else seen ++ [k].

Lemma keys_dict_set d k v : keys (dict_set d k v) = note (keys d) k.
Proof.
  unfold note, keys. induction d as [|[k' v'] d IH]; cbn [dict_set map existsb fst app]; [reflexivity|].
  destruct (Z.eqb_spec k k') as [->|Hne]; cbn [orb map fst]; [reflexivity|].
  rewrite IH. destruct (existsb (Z.eqb k) (map fst d)); reflexivity.
Qed.

Definition values_nonneg (smp : list sample) : Prop := forall t v, In (t, v) smp -> 0 <= v.

Definition vsum_all (smp : list sample) : Z := vsum (fun _ => true) smp.

Lemma round_div_bounds a b : 0 <= a -> 0 < b -> 0 <= round_div a b <= a.
Proof.
  intros Ha Hb. unfold round_div.
  pose proof (Z.div_mod a b ltac:(lia)) as D. pose proof (Z.mod_pos_bound a b Hb) as M.
  pose proof (Z.div_pos a b Ha Hb) as Hq.
  destruct (Z.ltb_spec (a mod b * 2) b); [nia|].
  destruct (Z.ltb_spec b (a mod b * 2)); [nia|]. destruct (Z.even _); nia.
Qed.

Lemma rate_spec_some w sc smp now x :
  rate_spec w sc smp now = Some x ->
  exists f active, oldest smp = Some f /\ f < now /\ 2 <= active <= w /\
                   x = round_div (sc * vsum (in_window w now) smp) active.
Proof.
  unfold rate_spec. destruct (oldest smp) as [f|]; [|discriminate].
  destruct (0 <? cnt _ smp); cbn [andb]; [|discriminate].
  destruct (Z.ltb_spec 1 (now - Z.max f (now - w + 1) + 1)); [|discriminate].
  intros [= <-]. eexists; eexists. split; [reflexivity|]. split; [|split; [|reflexivity]]; lia.
Qed.

Lemma rate_spec_bounds w sc smp now x :
  0 <= sc -> values_nonneg smp -> rate_spec w sc smp now = Some x -> 0 <= x <= sc * vsum_all smp.
Proof.
  intros Hsc Hv Hx. destruct (rate_spec_some _ _ _ _ _ Hx) as (f & active & _ & _ & Ha & ->).
  pose proof (vsum_bounds (in_window w now) smp Hv) as Hb. fold (vsum_all smp) in Hb.
  pose proof (round_div_bounds (sc * vsum (in_window w now) smp) active). nia.
Qed.

Lemma rate_spec_none_empty w sc smp now f :
  oldest smp = Some f -> f < now -> 1 < w -> rate_spec w sc smp now = None ->
  forall t v, In (t, v) smp -> in_window w now t = false.
Proof.
  intros Hf Hlt Hw. unfold rate_spec. rewrite Hf.
  destruct (Z.ltb_spec 0 (cnt (in_window w now) smp)) as [Hc|Hc]; cbn [andb].
  - destruct (Z.ltb_spec 1 (now - Z.max f (now - w + 1) + 1)); [discriminate|lia].
  - intros _. apply cnt_zero_all. pose proof (cnt_nonneg (in_window w now) smp). lia.
Qed.

(* The state with the rate counter replaced by what it stands for: the samples
   since its last reset (newest first) and the time of the latest call. *)
Record view := mkView {
  v_smp : list sample;
  v_last : option Z;
  v_init : bool;                  (* incoming_bitrate_initialized *)
  v_control : aimd;
  v_last_update : option Z;
  v_ssrcs : dict
}.

Definition view_init : view := mkView [] None true aimd_init None [].

(* the samples after the call, and the new incoming_bitrate_initialized: the
   counter is reset when rate() is None although a rate has been measured before *)
Definition window_step (v : view) (a : arrival) : list sample * bool :=
  match rate_spec 1000 8000 (v_smp v) (a_time a) with
  | Some _ => ((a_time a, a_size a) :: v_smp v, true)
  | None => if v_init v then ([(a_time a, a_size a)], false) else ((a_time a, a_size a) :: v_smp v, false)
  end.

Definition est_out (ss : dict) (r : option Z) : option (Z * list Z) :=
  match r with Some e => Some (e, lastn 255 (keys ss)) | None => None end.

(* rbe_add with rate() read off the samples *)
Definition view_add (v : view) (a : arrival) : result (view * option (Z * list Z)) :=
  let now := a_time a in
  let '(smp, ii) := window_step v a in
  let ss := dict_set (v_ssrcs v) (a_ssrc a) now in
  let update_estimate :=
    match v_last_update v with
    | None => true
    | Some lu => (feedback_interval <? now - lu) || is_over (a_verdict a)
    end in
  if update_estimate then
    match update (v_control v) (a_verdict a) (rate_spec 1000 8000 smp now) now (a_fl a) with
    | Ok (c', r) =>
        Ok (mkView smp (Some now) ii c' (match r with Some _ => Some now | None => v_last_update v end) ss,
            est_out ss r)
    | ValueErr => ValueErr | Crash => Crash | OutOfFuel => OutOfFuel
    end
  else Ok (mkView smp (Some now) ii (v_control v) (v_last_update v) ss, None).

Definition views (s : rbe) (v : view) : Prop :=
  Inv 1000 8000 (incoming s) (v_smp v) (v_last v) /\ incoming_init s = v_init v /\
  control s = v_control v /\ last_update s = v_last_update v /\ ssrcs s = v_ssrcs v.

Lemma views_init : views rbe_init view_init.
Proof. split; [apply Inv_init; lia|]. repeat split. Qed.

Lemma views_counter s v : views s v -> Inv 1000 8000 (incoming s) (v_smp v) (v_last v).
Proof. intros H. apply H. Qed.

Lemma views_control s v : views s v -> control s = v_control v.
Proof. intros H. apply H. Qed.

(* rate() on the counter returns rate_spec of the samples the counter stands for, so
   rbe_add and view_add take the same branches *)
Lemma rbe_add_view s v a :
  views s v -> AInv0 (v_control v) -> le_opt (v_last v) (a_time a) ->
  exists s' v' o, rbe_add s a = Ok (s', o) /\ view_add v a = Ok (v', o) /\ views s' v'.
Proof.
  intros (HI & Ei & Ec & El & Es) HA Hle. unfold rbe_add, view_add. rewrite Ei, Ec, El, Es.
  destruct (rate_ok 1000 8000 _ _ _ (a_time a) HI Hle) as (r1 & -> & I1).
  assert (H2 : exists r2 smp2,
            match rate_spec 1000 8000 (v_smp v) (a_time a) with
            | Some _ => (r1, true)
            | None => if v_init v then (reset r1, false) else (r1, v_init v)
            end = (r2, snd (window_step v a)) /\
            fst (window_step v a) = (a_time a, a_size a) :: smp2 /\ Inv 1000 8000 r2 smp2 (Some (a_time a))).
  { unfold window_step. destruct (rate_spec 1000 8000 (v_smp v) (a_time a)); [|destruct (v_init v)];
      cbn [fst snd]; eauto 6 using Inv_reset. }
  destruct H2 as (r2 & smp2 & -> & E2 & I2). destruct (window_step v a) as [smp ii]. cbn [fst snd] in *. subst smp.
  destruct (add_ok 1000 8000 r2 smp2 _ (a_size a) (a_time a) I2 (Z.le_refl _)) as (r3 & -> & I3).
  destruct (match v_last_update v with
            | Some lu => (feedback_interval <? a_time a - lu) || is_over (a_verdict a)
            | None => true
            end).
  - destruct (rate_ok 1000 8000 r3 _ _ (a_time a) I3 (Z.le_refl _)) as (r4 & -> & I4).
    destruct (update_spec (v_control v) (a_verdict a) (rate_spec 1000 8000 ((a_time a, a_size a) :: smp2) (a_time a))
                (a_time a) (a_fl a) HA) as (c' & r & -> & _).
    destruct r; do 3 eexists; (split; [reflexivity|]); (split; [reflexivity|]); repeat split; assumption.
  - do 3 eexists. split; [reflexivity|]. split; [reflexivity|]. repeat split; assumption.
Qed.

Lemma view_add_inv v a v' o :
  AInv0 (v_control v) -> view_add v a = Ok (v', o) ->
  v_last v' = Some (a_time a) /\ (v_smp v', v_init v') = window_step v a /\
  keys (v_ssrcs v') = note (keys (v_ssrcs v)) (a_ssrc a) /\ AInv0 (v_control v') /\
  (v_control v' = v_control v /\ o = None \/
   exists r, o = est_out (v_ssrcs v') r /\
     let et := rate_spec 1000 8000 (v_smp v') (a_time a) in
     update (v_control v) (a_verdict a) et (a_time a) (a_fl a) = Ok (v_control v', r) /\
     update_post (v_control v) (a_verdict a) et (a_fl a) (v_control v') r).
Proof.
  intros HA. unfold view_add. destruct (window_step v a) as [smp ii].
  destruct (match v_last_update v with
            | Some lu => (feedback_interval <? a_time a - lu) || is_over (a_verdict a)
            | None => true
            end).
  - destruct (update_spec (v_control v) (a_verdict a) (rate_spec 1000 8000 smp (a_time a)) (a_time a) (a_fl a) HA)
      as (c' & r & Eu & HA' & Hspec). rewrite Eu. intros [= <- <-].
    split; [reflexivity|]. split; [reflexivity|]. split; [apply keys_dict_set|]. split; [exact HA'|]. right. eauto.
  - intros [= <- <-]. split; [reflexivity|]. split; [reflexivity|]. split; [apply keys_dict_set|]. auto.
Qed.

Lemma window_step_cases v a :
  let new := (a_time a, a_size a) in
  (exists ii, window_step v a = (new :: v_smp v, ii) /\
              (ii = true -> rate_spec 1000 8000 (v_smp v) (a_time a) <> None)) \/
  (window_step v a = ([new], false) /\ v_init v = true /\ rate_spec 1000 8000 (v_smp v) (a_time a) = None).
Proof.
  unfold window_step. destruct (rate_spec 1000 8000 (v_smp v) (a_time a)).
  - left. eexists. split; [reflexivity|discriminate].
  - destruct (v_init v); [now right|left]. eexists. split; [reflexivity|discriminate].
Qed.

(* once a rate has been measured the first sample is older than the clock *)
Definition VInv (v : view) : Prop :=
  AInv0 (v_control v) /\
  (v_init v = true -> forall f, oldest (v_smp v) = Some f -> exists l, v_last v = Some l /\ f < l).

Lemma VInv_init : VInv view_init.
Proof. split; [apply AInv0_init|]. intros _ f [=]. Qed.

Lemma rbe_add_ok s v a :
  views s v -> VInv v -> le_opt (v_last v) (a_time a) ->
  exists s' v' o, rbe_add s a = Ok (s', o) /\ view_add v a = Ok (v', o) /\ views s' v' /\ VInv v' /\
                  v_last v' = Some (a_time a).
Proof.
  intros Hs (HA & HF) Hle. destruct (rbe_add_view s v a Hs HA Hle) as (s' & v' & o & E & Ev & Hs').
  destruct (view_add_inv v a v' o HA Ev) as (Hl & Hw & _ & HA' & _).
  exists s', v', o. split; [exact E|]. split; [exact Ev|]. split; [exact Hs'|]. split; [|exact Hl].
  split; [exact HA'|]. intros Hi f Hf. exists (a_time a). split; [exact Hl|].
  destruct (window_step_cases v a) as [(ii & Ew & Hx)|[Ew _]]; rewrite Ew in Hw; injection Hw as Es Ei; [|congruence].
  destruct (rate_spec 1000 8000 (v_smp v) (a_time a)) as [x|] eqn:Ex; [|now destruct Hx; congruence].
  destruct (rate_spec_some _ _ _ _ _ Ex) as (f0 & _ & Hf0 & Hlt & _).
  rewrite Es, oldest_cons, Hf0 in Hf. congruence.
Qed.

Fixpoint view_run (v : view) (l : list arrival) : list (view * option (Z * list Z)) :=
  match l with
  | [] => []
  | a :: l' => match view_add v a with
               | Ok (v', o) => (v', o) :: view_run v' l'
               | _ => []
               end
  end.

(* the float-rounded inputs of a call that produced an estimate are admissible
   for the throughput T = latest_estimated_throughput the call ended with *)
Fixpoint fl_admissible (s : rbe) (l : list arrival) : Prop :=
  match l with
  | [] => True
  | a :: l' =>
      match rbe_add s a with
      | Ok (s', o) =>
          (o <> None ->
           fl_in_range (a_fl a) (latest (control s'))) /\
          fl_admissible s' l'
      | _ => True
      end
  end.

Lemma run_view l : forall s v,
  views s v -> VInv v -> nondecreasing (ocons (v_last v) (map a_time l)) ->
  map fst (snd (fst (Rbe.run s l))) = map snd (view_run v l) /\
  (Forall2 (fun a vo => snd vo <> None -> fl_in_range (a_fl a) (latest (v_control (fst vo)))) l (view_run v l) ->
   fl_admissible s l).
Proof.
  induction l as [|a l IH]; intros s v Hs HV Hm; cbn [Rbe.run view_run fl_admissible]; [now split|].
  destruct (nondecreasing_ocons _ _ _ Hm) as [Hle Hm'].
  destruct (rbe_add_ok s v a Hs HV Hle) as (s' & v' & o & -> & -> & Hs' & HV' & Hl').
  rewrite <- Hl' in Hm'. destruct (IH s' v' Hs' HV' Hm') as [IHo IHf]. split.
  - destruct (Rbe.run s' l) as [[s2 xs] e]. cbn [fst snd map] in *. now rewrite IHo.
  - intros HF. inversion HF as [|? ? ? ? H1 H2]; subst. rewrite (views_control _ _ Hs'). auto.
Qed.

(* every estimate along the run: non-negative; if it exceeds the previous one
   it is at most 1.5 T + 10000 (up to the rounding of int(1.5 T)); with an
   OVERUSING verdict at most 0.85 T (up to rounding); listed SSRCs = the (at
   most 255 newest) SSRCs seen so far in first-seen order.  False on any raise. *)
Fixpoint bounds_ok (s : rbe) (prev : Z) (seen : list Z) (l : list arrival) : Prop :=
  match l with
  | [] => True
  | a :: l' =>
      match rbe_add s a with
      | Ok (s', o) =>
          let seen' := note seen (a_ssrc a) in
          match o with
          | None => bounds_ok s' prev seen' l'
          | Some (e, ss) =>
              let T := latest (control s') in
              0 <= e /\
              (prev < e -> e * 2 <= T * 3 + 20002 /\ e <= f_c15 (a_fl a) + 10000) /\
              (a_verdict a = Overusing -> e * 100 <= T * 85 + 51 /\ e <= f_d85 (a_fl a)) /\
              ss = lastn 255 seen' /\
              bounds_ok s' e seen' l'
          end
      | _ => False
      end
  end.

(* payload sizes, and with them every measured rate and the controller's
   bitrates, are not negative *)
Definition BInv (v : view) : Prop :=
  values_nonneg (v_smp v) /\ 0 <= cb (v_control v) /\ 0 <= latest (v_control v).

Lemma BInv_init : BInv view_init.
Proof. split; [intros t v []|]. cbn. lia. Qed.

Lemma view_add_latest v a v' o :
  VInv v -> view_add v a = Ok (v', o) ->
  latest (v_control v') = latest (v_control v) \/
  rate_spec 1000 8000 (v_smp v') (a_time a) = Some (latest (v_control v')).
Proof.
  intros [HA _] Ev. destruct (view_add_inv v a v' o HA Ev) as (_ & _ & _ & _ & [[-> _]|(r & _ & Eu & _)]); [now left|].
  exact (update_latest _ _ _ _ _ _ _ Eu).
Qed.

Lemma view_add_bounds v a v' o :
  VInv v -> BInv v -> 0 <= a_size a -> view_add v a = Ok (v', o) ->
  (o <> None -> fl_in_range (a_fl a) (latest (v_control v'))) ->
  BInv v' /\ vsum_all (v_smp v') <= vsum_all (v_smp v) + a_size a /\
  (latest (v_control v') = latest (v_control v) \/ latest (v_control v') <= 8000 * vsum_all (v_smp v')) /\
  match o with
  | None => cb (v_control v') = cb (v_control v)
  | Some (e, ss) => cb (v_control v') = e /\ ss = lastn 255 (keys (v_ssrcs v')) /\
                    estimate_spec (v_control v) (a_verdict a) (a_fl a) e
  end.
Proof.
  intros HV (Hv & Hcb & Hlat) Hsz Ev Hfl. unfold BInv.
  destruct (view_add_inv v a v' o (proj1 HV) Ev) as (_ & Hw & _ & _ & Hc).
  assert (Hv' : values_nonneg (v_smp v') /\ vsum_all (v_smp v') <= vsum_all (v_smp v) + a_size a).
  { pose proof (vsum_bounds (fun _ => true) (v_smp v) Hv) as H0. fold (vsum_all (v_smp v)) in H0.
    destruct (window_step_cases v a) as [(ii & Ew & _)|[Ew _]]; rewrite Ew in Hw; injection Hw as -> _;
      unfold vsum_all in *; cbn [vsum fst snd]; (split; [|lia]).
    - intros t x [[= <- <-]|Hin]; [exact Hsz|exact (Hv t x Hin)].
    - intros t x [[= <- <-]|[]]. exact Hsz. }
  destruct Hv' as [Hv' Hvs].
  assert (HT : latest (v_control v') = latest (v_control v) \/
               0 <= latest (v_control v') <= 8000 * vsum_all (v_smp v')).
  { destruct (view_add_latest v a v' o HV Ev) as [El|El]; [now left|right].
    exact (rate_spec_bounds 1000 8000 _ _ _ ltac:(lia) Hv' El). }
  destruct Hc as [[Ec ->]|(r & -> & _ & Hr)]; [rewrite Ec; auto 6|].
  destruct r as [e|]; cbn [est_out].
  - destruct Hr as (Ecb & Elat & Hest). rewrite <- Elat in Hest.
    specialize (Hest Hcb ltac:(lia) (Hfl ltac:(discriminate))).
    split; [split; [exact Hv'|]; split; [rewrite Ecb; apply Hest|lia]|].
    split; [exact Hvs|]. split; [lia|]. auto.
  - destruct Hr as (Ecb & _). split; [repeat split; (assumption || lia)|].
    split; [exact Hvs|]. split; [lia|exact Ecb].
Qed.

Lemma bounds_run l : forall s v,
  views s v -> VInv v -> BInv v -> nondecreasing (ocons (v_last v) (map a_time l)) ->
  Forall (fun a => 0 <= a_size a) l -> fl_admissible s l ->
  bounds_ok s (cb (v_control v)) (keys (v_ssrcs v)) l.
Proof.
  induction l as [|a l IH]; intros s v Hs HV HB Hm Hsz Hfl; cbn [bounds_ok]; [exact I|].
  destruct (nondecreasing_ocons _ _ _ Hm) as [Hle Hm'].
  apply Forall_cons_iff in Hsz. destruct Hsz as [Hs0 Hsz'].
  destruct (rbe_add_ok s v a Hs HV Hle) as (s' & v' & o & E & Ev & Hs' & HV' & Hl').
  cbn [fl_admissible] in Hfl. rewrite E in *. destruct Hfl as [Hfl1 Hfl].
  rewrite (views_control _ _ Hs') in *.
  destruct (view_add_bounds v a v' o HV HB Hs0 Ev Hfl1) as (HB' & _ & _ & Ho).
  rewrite <- Hl' in Hm'. specialize (IH s' v' Hs' HV' HB' Hm' Hsz' Hfl).
  destruct (view_add_inv v a v' o (proj1 HV) Ev) as (_ & _ & <- & _).
  destruct o as [[e ss]|]; [|rewrite <- Ho; exact IH].
  destruct Ho as (<- & -> & He0 & Hrise & Hover). destruct (Hfl1 ltac:(discriminate)) as (Fc & Fd & _).
  split; [exact He0|]. split; [intros Hpe; specialize (Hrise Hpe); lia|].
  split; [intros Hov; specialize (Hover Hov); lia|]. split; [reflexivity|exact IH].
Qed.

Theorem rbe_bounds : forall l,
  nondecreasing (map a_time l) -> Forall (fun a => 0 <= a_size a) l -> fl_admissible rbe_init l ->
  bounds_ok rbe_init 30000000 [] l.
Proof.
  intros l Hm Hs Hf. exact (bounds_run l rbe_init view_init views_init VInv_init BInv_init Hm Hs Hf).
Qed.
