(* Proofs about Model/Close.v (property C19), part 4: the code BEFORE the repairs (fx = false)
   violates the property; witnesses computed in the model. *)
From Coq Require Import ZArith List Bool Arith Lia.
From AV Require Import Lib.Sx Model.Close Proof.CloseP.
Import ListNotations.

(* one transceiver on one transport, no SCTP *)
Definition c0 : cfg := init [0] 1 None.

(* connect, start the receiver, its _run_rtcp fails with an unexpected exception
   (exited event not set), then close(): receiver.stop() has cancelled the (finished) task and
   waits for __rtcp_exited *)
Definition hang_prefix : list ev :=
  [EIceStart 0; EIceStartRet 0 true; EDtlsStart 0; EDtlsStartRet 0 true; EReceive 0;
   ETaskBegin KRRtcp 0; ETaskEnd KRRtcp 0 false;
   ECloseCall 0; EStopCall (ORecvStop 0); ECancel KRRtcp 0].

Definition stuck (c : cfg) : Prop :=
  c_closed c = FPending /\
  (exists id todo, c_main c = Some (id, ORecvStop 0 :: todo, SWaitExited)) /\
  exists x, nth_error (c_trx c) 0 = Some x /\ r_rtcp (t_r x) = TFailed /\ r_started (t_r x) = true.

Lemma hang_prefix_stuck : exists c, run false c0 hang_prefix = Some c /\ stuck c.
Proof.
  eexists. split; [vm_compute; reflexivity|].
  unfold stuck. cbn. split; [reflexivity|]. split; [eauto|]. eexists. split; [reflexivity|]. cbn. auto.
Qed.

Lemma stuck_set_trx c i x' :
  stuck c ->
  (forall x, nth_error (c_trx c) i = Some x -> r_rtcp (t_r x) = TFailed -> r_started (t_r x) = true ->
             r_rtcp (t_r x') = TFailed /\ r_started (t_r x') = true) ->
  stuck (set_trx c i x').
Proof.
  intros (Hc & Hm & x & Hx & Hr & Hs) Hi. split; [exact Hc|]. split; [exact Hm|].
  cbn [c_trx set_trx]. destruct i as [|i].
  - exists x'. rewrite (nth_error_upd_same _ _ _ _ Hx). split; [reflexivity|]. apply (Hi x); assumption.
  - exists x. rewrite nth_error_upd_other by discriminate. auto.
Qed.

Lemma trx_step_failed fx e x x' :
  trx_step fx e x = Some x' -> r_rtcp (t_r x) = TFailed ->
  r_rtcp (t_r x') = TFailed /\ r_started (t_r x') = r_started (t_r x).
Proof.
  intros H Hr. destruct e; try discriminate; cbn [trx_step] in H.
  - destruct k; cbn [task_of] in H; rewrite ?Hr in H; some_cases H; auto.
  - destruct (task_end _ _ _ _) as [b|] eqn:Et; try discriminate. injection H as <-.
    destruct k; auto. apply task_end_done in Et. cbn [task_of] in Et. destruct Et as [[E|E] _]; congruence.
  - injection H as <-. unfold stop_decoder. destruct (r_dec (t_r x)); auto.
Qed.

Lemma stuck_step c e c' : stuck c -> step false c e = Some c' -> stuck c'.
Proof.
  intros HS HE. pose proof HS as (Hc & (id0 & todo0 & Hm0) & x0 & Hx0 & Hr0 & Hst0).
  apply step_cases in HE. destruct HE; try exact HS; try congruence.
  - split; [exact Hc|]. split; [exists id0, todo0; exact Hm0|]. exists (disconnect t x0).
    cbn [c_trx map_trx set_tp]. rewrite nth_error_map, Hx0. split; [reflexivity|].
    unfold disconnect, stop_decoder. destruct (t_tp x0 =? t), (r_dec (t_r x0)); auto.
  - apply stuck_set_trx; [exact HS|]. intros y Hy Hr Hst. rewrite Hx in Hy. injection Hy as <-.
    destruct (trx_step_failed _ _ _ _ Hs Hr). split; congruence.
  - apply stuck_set_trx; [exact HS|]. intros y Hy. rewrite Hx in Hy. injection Hy as <-. auto.
  - apply stuck_set_trx; [exact HS|]. intros y Hy. rewrite Hx in Hy. injection Hy as <-. congruence.
  - rewrite Hm0 in Hm. injection Hm as <- <- <- <-. cbn [stop_ret] in Hr. rewrite Hx0, Hr0 in Hr. discriminate.
Qed.

(* design item 19: with the unrepaired code close() can wait forever *)
Lemma failed_task_hangs :
  exists c, run false c0 hang_prefix = Some c /\ c_main c <> None /\
      forall evs c', run false c evs = Some c' -> c_closed c' <> FDone.
Proof.
  destruct hang_prefix_stuck as (c & HR & HS). exists c. split; [exact HR|]. split.
  - destruct HS as (_ & (id & todo & Hm) & _). congruence.
  - intros evs c' HR'. destruct (run_inv false stuck stuck_step _ _ _ HS HR') as (Hc & _). congruence.
Qed.

(* the repaired model does not accept that history: the failing task sets the event *)
Lemma hang_prefix_rejected : run true c0 hang_prefix = None.
Proof. vm_compute. reflexivity. Qed.

(* ... and with the event set, the same close() completes *)
Definition hang_prefix_fixed : list ev :=
  [EIceStart 0; EIceStartRet 0 true; EDtlsStart 0; EDtlsStartRet 0 true; EReceive 0;
   ETaskBegin KRRtcp 0; ETaskEnd KRRtcp 0 true;
   ECloseCall 0; EStopCall (ORecvStop 0); ECancel KRRtcp 0; EStopRet (ORecvStop 0);
   EStopCall (OSendStop 0); EStopRet (OSendStop 0);
   EStopCall (ODtlsStop 0); ECancel KPump 0; EStopRet (ODtlsStop 0);
   EStopCall (OIceStop 0); EIceConnClosed 0; EMonEnd 0; EStopRet (OIceStop 0); ECloseRet 0].

Lemma failed_task_fixed :
  exists c, run true c0 hang_prefix_fixed = Some c /\ c_closed c = FDone.
Proof. eexists. split; vm_compute; reflexivity. Qed.

(* __connect racing with close(): close() has gone past transceiver.stop() while the DTLS
   handshake was still in progress; the handshake completes, __connect starts the sender and the
   receiver.  close() returns and their RTCP tasks run on (decoder thread alive). *)
Definition race_trace : list ev :=
  [EIceStart 0; EIceStartRet 0 true; EDtlsStart 0;
   ECloseCall 0; EStopCall (ORecvStop 0); EStopRet (ORecvStop 0);
   EStopCall (OSendStop 0); EStopRet (OSendStop 0);
   EDtlsStartRet 0 true; ESend 0; EReceive 0;
   ETaskBegin KSRtp 0; ETaskBegin KSRtcp 0; ETaskBegin KRRtcp 0;
   EStopCall (ODtlsStop 0); ECancel KPump 0; EStopRet (ODtlsStop 0);
   EStopCall (OIceStop 0); EIceConnClosed 0; EMonEnd 0; EStopRet (OIceStop 0); ECloseRet 0;
   EPumpEnd 0 0; ETaskEnd KSRtp 0 true].

Lemma connect_race_leaks :
  exists c x, run false c0 race_trace = Some c /\ c_closed c = FDone /\
      nth_error (c_trx c) 0 = Some x /\
      s_rtcp (t_s x) = TRunning /\ r_rtcp (t_r x) = TRunning /\ r_dec (t_r x) = true.
Proof. do 2 eexists. split; [vm_compute; reflexivity|]. cbn. auto. Qed.

Lemma connect_race_rejected : run true c0 race_trace = None.
Proof. vm_compute. reflexivity. Qed.

(* a negotiation call overtaken by close() re-opens the signalling state *)
Definition close_all : list ev :=
  [ECloseCall 0; EStopCall (ORecvStop 0); EStopRet (ORecvStop 0);
   EStopCall (OSendStop 0); EStopRet (OSendStop 0);
   EStopCall (ODtlsStop 0); EStopRet (ODtlsStop 0);
   EStopCall (OIceStop 0); EIceConnClosed 0; EStopRet (OIceStop 0); ECloseRet 0].

Lemma nego_race_reopens :
  exists c, run false c0 (close_all ++ [ENegoSig]) = Some c /\ c_closed c = FDone /\ c_sig_closed c = false.
Proof. eexists. split; [vm_compute; reflexivity|]. cbn. auto. Qed.

Lemma nego_race_rejected : run true c0 (close_all ++ [ENegoSig]) = None.
Proof. vm_compute. reflexivity. Qed.

(* the track of a receiver that never started is not told that it has ended *)
Lemma unstarted_track_not_ended :
  exists c x, run false c0 close_all = Some c /\ c_closed c = FDone /\
      nth_error (c_trx c) 0 = Some x /\ r_eos (t_r x) = false.
Proof. do 2 eexists. split; [vm_compute; reflexivity|]. cbn. auto. Qed.

Lemma unstarted_track_ended_fixed :
  exists c x, run true c0 close_all = Some c /\ c_closed c = FDone /\
      nth_error (c_trx c) 0 = Some x /\ r_eos (t_r x) = true.
Proof. do 2 eexists. split; [vm_compute; reflexivity|]. cbn. auto. Qed.

(* ICE: start() finishing after stop() leaves the transport "completed" with aioice's consent
   task running; and a start() waiting for more remote candidates never returns *)
Definition ice_race : list ev :=
  [EIceStart 0; ECloseCall 0; EStopCall (ORecvStop 0); EStopRet (ORecvStop 0);
   EStopCall (OSendStop 0); EStopRet (OSendStop 0);
   EStopCall (ODtlsStop 0); EStopRet (ODtlsStop 0);
   EStopCall (OIceStop 0); EIceConnClosed 0; EMonEnd 0; EStopRet (OIceStop 0); ECloseRet 0].

Lemma ice_start_race_leaks :
  exists c tp, run false c0 (ice_race ++ [EIceStartRet 0 true]) = Some c /\ c_closed c = FDone /\
      nth_error (c_tps c) 0 = Some tp /\ i_consent tp = true /\ i_state tp = ICompleted.
Proof. do 2 eexists. split; [vm_compute; reflexivity|]. cbn. auto. Qed.

Lemma ice_start_race_fixed :
  exists c tp, run true c0 (ice_race ++ [EIceStartRet 0 true]) = Some c /\ c_closed c = FDone /\
      nth_error (c_tps c) 0 = Some tp /\ i_consent tp = false /\ i_state tp = IClosed.
Proof. do 2 eexists. split; [vm_compute; reflexivity|]. cbn. auto. Qed.

Lemma ice_start_never_returns :
  exists c tp, run false c0 ice_race = Some c /\ c_closed c = FDone /\
      nth_error (c_tps c) 0 = Some tp /\ i_starting tp = true /\
      step false c (EIceStartRet 0 false) = None.
Proof. do 2 eexists. split; [vm_compute; reflexivity|]. cbn. auto. Qed.

Lemma ice_start_returns_fixed :
  exists c c', run true c0 ice_race = Some c /\ step true c (EIceStartRet 0 false) = Some c'.
Proof. do 2 eexists. split; vm_compute; reflexivity. Qed.
