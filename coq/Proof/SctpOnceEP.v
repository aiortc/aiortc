(* C01: no sent message is delivered twice -- ordered or unordered channels, end to end. *)
From Coq Require Import ZArith List Bool Lia.
From AV Require Import Lib.Bytes Gen.Utils Gen.SctpConst Model.SctpRecv Model.SctpSend Proof.SctpRecvP Proof.SctpC01P
  Proof.SctpSendP Proof.SctpDupP Proof.SctpOrderP Proof.SctpOrderTP Proof.SctpOnceP.
Import ListNotations.
Local Open Scope Z_scope.

Lemma NoDup_app_r {A} (a b : list A) : NoDup (a ++ b) -> NoDup b.
Proof. induction a as [|x a IH]; cbn [app]; intros H; [exact H|]. inversion H; subst. now apply IH. Qed.

Lemma NoDup_concat_runs (D : list (list chunk)) : NoDup (concat D) -> Forall (fun f => f <> []) D -> NoDup D.
Proof.
  induction D as [|f D IH]; intros Hn Hne; [constructor|]. cbn [concat] in Hn. inversion Hne as [|? ? Hf Hne']; subst.
  constructor; [|exact (IH (NoDup_app_r _ _ Hn) Hne')].
  intros Hin. destruct f as [|c f']; [congruence|].
  cbn [app] in Hn. inversion Hn as [|? ? Hc _]; subst. apply Hc. apply in_or_app. right.
  apply in_concat. exists (c :: f'). split; [exact Hin|now left].
Qed.

Lemma complete_nonempty f : complete f -> f <> [].
Proof. intros (h & p & Hc & _). destruct (chain_hd _ _ _ Hc) as (f' & ->). discriminate. Qed.

Lemma hd_rev_last (f : list chunk) d : hd d (rev f) = List.last f d.
Proof.
  induction f as [|c f IH]; [reflexivity|]. cbn [rev]. destruct f as [|b f']; [reflexivity|].
  change (List.last (c :: b :: f') d) with (List.last (b :: f') d). rewrite <- IH.
  cbn [rev]. destruct (rev f' ++ [b]) eqn:E; [destruct (rev f'); discriminate|reflexivity].
Qed.

(* Complete runs D whose chunks are drawn, each at most once, from distinct chunks A that the
   sender produced: no run occurs twice, and each is the fragment list of a sent message. *)
Lemma runs_once_sent t0 msgs (A : list chunk) (D : list (list chunk)) :
  in32 t0 -> Forall (fun m => o_data m <> []) msgs -> Z.of_nat (total_frags msgs) <= SCTP_TSN_MODULO ->
  NoDup A -> incl A (concat (send_msgs (mkS t0 []) msgs)) ->
  Forall complete D -> (forall x, (cnt (concat D) x <= cnt A x)%nat) ->
  NoDup D /\ Forall (fun f => In f (send_msgs (mkS t0 []) msgs)) D.
Proof.
  intros Ht Hd Htot HnA HiA Hc Hn.
  set (sm := sent_of (mkS t0 []) msgs).
  assert (Hall : all_chunks sm = concat (send_msgs (mkS t0 []) msgs)) by (unfold all_chunks, sm; now rewrite sent_of_frags).
  pose proof (sent_of_ok (mkS t0 []) msgs Hd) as Hok. fold sm in Hok.
  pose proof (sent_of_tsn_inj (mkS t0 []) msgs Ht Htot) as Hinj. fold sm in Hinj.
  split.
  - apply NoDup_concat_runs; [|eapply Forall_impl; [|exact Hc]; intros f; apply complete_nonempty].
    apply (NoDup_count_occ chunk_eq_dec). intros x. pose proof (proj1 (NoDup_count_occ chunk_eq_dec A) HnA x). specialize (Hn x). lia.
  - apply Forall_forall. intros f Hf. rewrite Forall_forall in Hc.
    destruct (complete_is_sent sm f Hok Hinj (Hc f Hf)) as (m & Hm & ->).
    + intros x Hx. rewrite Hall. apply HiA. apply (count_occ_In chunk_eq_dec).
      assert (Hx' : In x (concat D)) by (apply in_concat; now exists f).
      apply (count_occ_In chunk_eq_dec) in Hx'. specialize (Hn x). lia.
    + rewrite <- (sent_of_frags (mkS t0 []) msgs). now apply in_map.
Qed.

Theorem at_most_once base N t0 msgs st es :
  r32 base -> 0 <= N < 2147483648 -> in32 t0 ->
  Forall (fun m => o_data m <> []) msgs -> Z.of_nat (total_frags msgs) <= SCTP_TSN_MODULO ->
  Forall (data_ev base N) es ->
  (forall c, In (EvData c) es -> sid c = st -> In c (concat (send_msgs (mkS t0 []) msgs))) ->
  exists D, msgs_on st (rinit base) es = map msgf D /\ NoDup D /\
            Forall (fun f => In f (send_msgs (mkS t0 []) msgs)) D.
Proof.
  intros Hb HN Ht Hd Htot Hes Hin. destruct (accepted_on_stream base N Hb HN st es Hes) as (Hnd & Hcs & E).
  destruct (srun_releases _ _ _ _ E) as (D & Em & Hc & Hn). exists D. split; [exact Em|].
  apply (runs_once_sent t0 msgs _ D Ht Hd Htot Hnd); [|exact Hc|exact Hn].
  intros c Hc0. destruct (Hcs c Hc0) as [H1 H2]. exact (Hin c H1 H2).
Qed.
