(* C05: the DCEP OPEN parser of _data_channel_receive cannot fail on a message of at least
   12 bytes, so recv_dcep never reports a parse crash (EvRaise 4) for any byte string. *)
From Coq Require Import ZArith List Bool Lia.
From AV Require Import Lib.Bytes Lib.BytesP Gen.SctpConst Model.Chan Proof.ChanP.
Import ListNotations.
Local Open Scope Z_scope.

Lemma dcep_parse_open_total data : 12 <= len data -> dcep_parse_open data <> None.
Proof.
  intros H. unfold dcep_parse_open. unfold len in H.
  destruct (u8_some data 1) as [a ->]; [lia|].
  destruct (u32_some data 4) as [b ->]; [lia|].
  destruct (u16_some data 8) as [c ->]; [lia|].
  destruct (u16_some data 10) as [d ->]; [lia|]. discriminate.
Qed.

Lemma flush_no_raise k s oracle : no_raise k (snd (flush s oracle)).
Proof.
  apply (walk_flush (fun _ evs _ => no_raise k evs)).
  - intros _. apply no_raise_nil.
  - intros _ e1 _ e2 _. apply no_raise_app.
  - intros s0 h pp data q' _. unfold flush_one, send_one, add_buffered, no_raise.
    destruct (assign_id _ h) as [s2 i]. destruct (pp =? WEBRTC_DCEP); [|destruct (_ && _)]; cbn; intuition discriminate.
Qed.

Theorem recv_dcep_never_crashes s sidv data ok oracle :
  ~ In (EvRaise 4) (snd (recv_dcep s sidv data ok oracle)).
Proof.
  apply (recv_dcep_cases (fun p => no_raise 4 (snd p))); [apply no_raise_nil|intros Hl Ep; now apply dcep_parse_open_total in Ep| |].
  - intros p _. set (c := mkChan _ _ _ _ _ _ _ _ _ _).
    pose proof (set_ready_no_raise _ _ _ 4 : no_raise 4 (snd (accept_open s sidv c))) as Na. destruct (accept_open s sidv c) as [s4 e1].
    pose proof (flush_no_raise 4 s4 oracle) as Nf. destruct (flush s4 oracle) as [s5 e2].
    apply no_raise_app; [exact Na|apply no_raise_app; [exact Nf|intros [X|[]]; discriminate X]].
  - intros h _. apply set_ready_no_raise.
Qed.
