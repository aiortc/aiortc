(* Well-formedness of a pair of peer connections along a session (C03, layer 2): the invariant `wf`,
   its relative form `wfs` (against a given list of m-sections), the loop invariant `rinv` that the loop of
   setRemoteDescription and the offerer's createOffer with setLocalDescription(offer) share, and the proof
   that the latter two succeed on a well-formed connection and that every later call of an exchange that
   returns Ok keeps `wfs`. *)
From Coq Require Import ZArith List Bool Lia.
From AV Require Import Model.Nego Proof.NegoP Proof.NegoExP.
Import ListNotations.
Local Open Scope Z_scope.

Lemma find_idx_first : forall T (f : T -> bool) l1 x l2, (forall y, In y l1 -> f y = false) -> f x = true ->
  find_idx f (l1 ++ x :: l2) = Some (length l1).
Proof.
  induction l1 as [|a l1 IH]; intros x l2 H Hx; cbn [app find_idx length].
  - rewrite Hx. reflexivity.
  - rewrite (H a (or_introl eq_refl)), IH; auto. intros y Hy. apply H. right. exact Hy.
Qed.

Lemma find_idx_In : forall T (f : T -> bool) l x, In x l -> f x = true -> exists k, find_idx f l = Some k.
Proof.
  intros T f l x Hin Hx. destruct (find_idx f l) as [k|] eqn:E; [exists k; reflexivity|].
  rewrite (find_idx_none _ _ _ E x Hin) in Hx. discriminate.
Qed.

Lemma upd_length : forall T (g : T -> T) l k, length (upd k g l) = length l.
Proof. induction l as [|a l IH]; intros k; destruct k; cbn [upd length]; auto. Qed.

Lemma map_upd_pres : forall A B (f : A -> B) (g : A -> A) l k, (forall x, f (g x) = f x) -> map f (upd k g l) = map f l.
Proof.
  induction l as [|a l IH]; intros k H; destruct k; cbn [upd map]; auto; [rewrite H | rewrite IH]; auto.
Qed.

Lemma In_nth_error_ex : forall T (l : list T) x, In x l -> exists k, nth_error l k = Some x.
Proof. intros. apply In_nth_error. assumption. Qed.

Lemma nth_error_snoc_cases : forall T (l : list T) x j y, nth_error (l ++ [x]) j = Some y ->
  ((j < length l)%nat /\ nth_error l j = Some y) \/ (j = length l /\ y = x).
Proof.
  intros T l x j y H. destruct (Nat.lt_ge_cases j (length l)) as [L|L].
  - left. rewrite nth_error_app1 in H by exact L. auto.
  - right. rewrite nth_error_app2 in H by exact L.
    destruct (j - length l)%nat as [|n] eqn:E; cbn in H; [inversion H; subst; split; [lia | reflexivity] | destruct n; discriminate].
Qed.

Lemma nth_error_replace : forall T (l1 : list T) a b l2 j y, nth_error (l1 ++ b :: l2) j = Some y ->
  (j = length l1 /\ y = b) \/ (j <> length l1 /\ nth_error (l1 ++ a :: l2) j = Some y).
Proof.
  intros T l1 a b l2 j y H. destruct (Nat.lt_trichotomy j (length l1)) as [L|[E|L]].
  - right. split; [lia|]. rewrite nth_error_app1 in * by exact L. exact H.
  - left. subst j. rewrite nth_error_split in H. inversion H. auto.
  - right. split; [lia|]. rewrite nth_error_app2 in * by lia.
    destruct (j - length l1)%nat as [|n] eqn:En; [lia|]. cbn [nth_error] in *. exact H.
Qed.

Definition at_pos {A} (l : list A) (i : nat) (part : list A) : Prop :=
  forall j x, nth_error part j = Some x -> nth_error l (i + j) = Some x.

Lemma at_pos_cons : forall A (l : list A) i x part, at_pos l i (x :: part) ->
  nth_error l i = Some x /\ at_pos l (Datatypes.S i) part.
Proof.
  intros A l i x part H. split.
  - specialize (H O x eq_refl). rewrite Nat.add_0_r in H. exact H.
  - intros j y Hj. specialize (H (Datatypes.S j) y Hj). rewrite Nat.add_succ_r in H. exact H.
Qed.

Lemma at_pos_app : forall A (pre part post : list A), at_pos (pre ++ part ++ post) (length pre) part.
Proof.
  intros A pre part post j x Hj. rewrite nth_error_app2 by lia. replace (length pre + j - length pre)%nat with j by lia.
  rewrite nth_error_app1; [exact Hj | apply nth_error_Some; congruence].
Qed.

Lemma at_pos_refl : forall A (l : list A), at_pos l 0 l.
Proof. intros A l j x H. exact H. Qed.

Lemma at_pos_below : forall A (l part : list A) j, at_pos l 0 part -> (j < length part)%nat -> nth_error l j = nth_error part j.
Proof.
  intros A l part j H Hj. destruct (nth_error part j) as [x|] eqn:E; [exact (H j x E) | apply nth_error_None in E; lia].
Qed.

Lemma at_pos_In : forall A (l : list A) i part x, at_pos l i part -> In x part -> In x l.
Proof. intros A l i part x H Hin. apply In_nth_error in Hin. destruct Hin as [j Hj]. eapply nth_error_In. apply H. exact Hj. Qed.

Definition secs_of (ms : list media) : list (Z * Z) := map (fun m => (m_kind m, m_mid m)) ms.

Lemma secs_of_mids : forall ms, map snd (secs_of ms) = map m_mid ms.
Proof. intro ms. unfold secs_of. rewrite map_map. reflexivity. Qed.

Lemma secs_of_app : forall a b, secs_of (a ++ b) = secs_of a ++ secs_of b.
Proof. intros. unfold secs_of. apply map_app. Qed.

Lemma secs_of_length : forall ms, length (secs_of ms) = length ms.
Proof. intro ms. apply map_length. Qed.

Lemma secs_nth_mid_inj : forall (ss : list (Z * Z)) i j k1 k2 mu, NoDup (map snd ss) ->
  nth_error ss i = Some (k1, mu) -> nth_error ss j = Some (k2, mu) -> i = j /\ k1 = k2.
Proof.
  intros ss i j k1 k2 mu Hnd Hi Hj.
  assert (E : i = j).
  { apply (proj1 (NoDup_nth_error (map snd ss)) Hnd); [apply nth_error_Some|]; rewrite !nth_error_map, Hi, ?Hj; [discriminate | reflexivity]. }
  subst j. split; [reflexivity | congruence].
Qed.

(* the transceivers of a connection agree with a list of (kind, mid) sections *)
Record aligned (trs : list transceiver) (ss : list (Z * Z)) : Prop := mkAligned {
  al_mid : forall t mu, In t trs -> t_mid t = Some mu ->
             exists j, t_mline t = Some j /\ nth_error ss j = Some (t_kind t, mu);
  al_none : forall t, In t trs -> t_mid t = None -> t_mline t = None;
  al_sec : forall j k mu, nth_error ss j = Some (k, mu) -> is_av k = true -> exists t, In t trs /\ t_mid t = Some mu;
  al_uniq : forall i1 i2 t1 t2 mu, nth_error trs i1 = Some t1 -> nth_error trs i2 = Some t2 ->
              t_mid t1 = Some mu -> t_mid t2 = Some mu -> i1 = i2;
  al_ord : forall i1 i2 t1 t2, (i1 < i2)%nat -> nth_error trs i1 = Some t1 -> nth_error trs i2 = Some t2 ->
             t_kind t1 = t_kind t2 -> t_mid t1 = None -> t_mid t2 = None;
  al_kind : forall t, In t trs -> is_av (t_kind t) = true
}.

(* The same agreement with the sections `live` selects (by index and content): inside the loops of
   setRemoteDescription and setLocalDescription only the sections handled so far, and those the
   connection knew before, have their transceiver. *)
Record ali (live : nat -> Z * Z -> Prop) (trs : list transceiver) : Prop := mkAli {
  li_mid : forall t mu, In t trs -> t_mid t = Some mu -> exists j, t_mline t = Some j /\ live j (t_kind t, mu);
  li_none : forall t, In t trs -> t_mid t = None -> t_mline t = None;
  li_sec : forall j k mu, live j (k, mu) -> is_av k = true -> exists t, In t trs /\ t_mid t = Some mu;
  li_uniq : forall i1 i2 t1 t2 mu, nth_error trs i1 = Some t1 -> nth_error trs i2 = Some t2 ->
              t_mid t1 = Some mu -> t_mid t2 = Some mu -> i1 = i2;
  li_ord : forall i1 i2 t1 t2, (i1 < i2)%nat -> nth_error trs i1 = Some t1 -> nth_error trs i2 = Some t2 ->
             t_kind t1 = t_kind t2 -> t_mid t1 = None -> t_mid t2 = None;
  li_kind : forall t, In t trs -> is_av (t_kind t) = true
}.

Lemma aligned_ali : forall trs ss, aligned trs ss <-> ali (fun j s => nth_error ss j = Some s) trs.
Proof. intros trs ss. split; intros [A1 A2 A3 A4 A5 A6]; constructor; assumption. Qed.

Lemma ali_ext : forall (live live' : nat -> Z * Z -> Prop) trs,
  (forall j k mu, is_av k = true -> (live j (k, mu) <-> live' j (k, mu))) -> ali live trs -> ali live' trs.
Proof.
  intros live live' trs H [A1 A2 A3 A4 A5 A6]. constructor; auto.
  - intros t mu Hin Hm. destruct (A1 t mu Hin Hm) as [j [E1 E2]]. exists j. split; [exact E1|]. apply H; auto.
  - intros j k mu Hj Hav. apply (A3 j k mu); [apply H; assumption | exact Hav].
Qed.

(* alignment only looks at kind, mid and m-line index *)
Definition akey (t : transceiver) := (t_kind t, t_mid t, t_mline t).

Lemma akey_fields : forall t t', akey t = akey t' -> t_kind t = t_kind t' /\ t_mid t = t_mid t' /\ t_mline t = t_mline t'.
Proof. intros t t' H. unfold akey in H. inversion H. auto. Qed.

Lemma map_akey_nth : forall trs trs' i t', map akey trs = map akey trs' -> nth_error trs' i = Some t' ->
  exists t, nth_error trs i = Some t /\ akey t = akey t'.
Proof.
  intros trs trs' i t' H Hi.
  assert (E : nth_error (map akey trs) i = Some (akey t')) by (rewrite H, nth_error_map, Hi; reflexivity).
  rewrite nth_error_map in E. destruct (nth_error trs i) as [t|]; [|discriminate].
  exists t. split; [reflexivity|]. cbn in E. congruence.
Qed.

Lemma map_akey_In : forall trs trs' t', map akey trs = map akey trs' -> In t' trs' -> exists t, In t trs /\ akey t = akey t'.
Proof.
  intros trs trs' t' H Hin. apply In_nth_error in Hin. destruct Hin as [i Hi].
  destruct (map_akey_nth _ _ _ _ H Hi) as [t [Ht E]]. exists t. split; [eapply nth_error_In; eauto | exact E].
Qed.

Lemma ali_keys : forall live trs trs', map akey trs = map akey trs' -> ali live trs -> ali live trs'.
Proof.
  intros live trs trs' H [A1 A2 A3 A4 A5 A6]. constructor.
  - intros t' mu Hin Hm. destruct (map_akey_In _ _ _ H Hin) as [t [Ht E]]. apply akey_fields in E.
    destruct E as [E1 [E2 E3]]. rewrite <- E1, <- E3. apply A1; [exact Ht | congruence].
  - intros t' Hin Hm. destruct (map_akey_In _ _ _ H Hin) as [t [Ht E]]. apply akey_fields in E.
    destruct E as [E1 [E2 E3]]. rewrite <- E3. apply A2; [exact Ht | congruence].
  - intros j k mu Hj Hav. destruct (A3 j k mu Hj Hav) as [t [Ht Hm]].
    symmetry in H. destruct (map_akey_In _ _ _ H Ht) as [t' [Ht' E]]. apply akey_fields in E.
    exists t'. split; [exact Ht' | destruct E as [_ [E _]]; congruence].
  - intros i1 i2 t1' t2' mu H1 H2 M1 M2.
    destruct (map_akey_nth _ _ _ _ H H1) as [t1 [G1 E1]]. destruct (map_akey_nth _ _ _ _ H H2) as [t2 [G2 E2]].
    apply akey_fields in E1. apply akey_fields in E2. apply (A4 i1 i2 t1 t2 mu); auto; [destruct E1 as [_ [E _]] | destruct E2 as [_ [E _]]]; congruence.
  - intros i1 i2 t1' t2' Hlt H1 H2 Hk Hm.
    destruct (map_akey_nth _ _ _ _ H H1) as [t1 [G1 E1]]. destruct (map_akey_nth _ _ _ _ H H2) as [t2 [G2 E2]].
    apply akey_fields in E1. apply akey_fields in E2. destruct E1 as [K1 [M1 _]]. destruct E2 as [K2 [M2 _]].
    rewrite <- M2. apply (A5 i1 i2 t1 t2); auto; congruence.
  - intros t' Hin. destruct (map_akey_In _ _ _ H Hin) as [t [Ht E]]. apply akey_fields in E.
    destruct E as [E _]. rewrite <- E. apply A6. exact Ht.
Qed.

Lemma ali_snoc : forall live trs t, ali live trs -> t_mid t = None -> t_mline t = None -> is_av (t_kind t) = true ->
  ali live (trs ++ [t]).
Proof.
  intros live trs t [A1 A2 A3 A4 A5 A6] Hm Hl Hk. constructor.
  - intros x mu Hin Hx. apply in_app_or in Hin. destruct Hin as [Hin|[<-|[]]]; [apply A1; auto | congruence].
  - intros x Hin Hx. apply in_app_or in Hin. destruct Hin as [Hin|[<-|[]]]; [apply A2; auto | exact Hl].
  - intros j k mu Hj Hav. destruct (A3 j k mu Hj Hav) as [x [Hx Hxm]]. exists x. split; [apply in_or_app; left; exact Hx | exact Hxm].
  - intros i1 i2 t1 t2 mu H1 H2 M1 M2.
    destruct (nth_error_snoc_cases _ _ _ _ _ H1) as [[L1 G1]|[_ ->]]; [|congruence].
    destruct (nth_error_snoc_cases _ _ _ _ _ H2) as [[L2 G2]|[_ ->]]; [|congruence].
    exact (A4 i1 i2 t1 t2 mu G1 G2 M1 M2).
  - intros i1 i2 t1 t2 Hlt H1 H2 Hk12 M1.
    destruct (nth_error_snoc_cases _ _ _ _ _ H2) as [[L2 G2]|[_ ->]]; [|exact Hm].
    destruct (nth_error_snoc_cases _ _ _ _ _ H1) as [[L1 G1]|[E _]]; [|lia].
    exact (A5 i1 i2 t1 t2 Hlt G1 G2 Hk12 M1).
  - intros x Hin. apply in_app_or in Hin. destruct Hin as [Hin|[<-|[]]]; [apply A6; exact Hin | exact Hk].
Qed.

Lemma aligned_keys : forall trs trs' ss, map akey trs = map akey trs' -> aligned trs ss -> aligned trs' ss.
Proof. intros trs trs' ss H A. apply aligned_ali. apply (ali_keys _ trs); [exact H | apply aligned_ali; exact A]. Qed.

Lemma aligned_same_mid : forall trs ss t1 t2 mu, aligned trs ss -> In t1 trs -> In t2 trs ->
  t_mid t1 = Some mu -> t_mid t2 = Some mu -> t1 = t2.
Proof.
  intros trs ss t1 t2 mu A H1 H2 M1 M2. apply In_nth_error in H1. apply In_nth_error in H2.
  destruct H1 as [i1 E1]. destruct H2 as [i2 E2]. pose proof (al_uniq _ _ A i1 i2 t1 t2 mu E1 E2 M1 M2) as E. subst i2. congruence.
Qed.

Lemma find_mid_some : forall trs t mu, In t trs -> t_mid t = Some mu ->
  exists t', find (mid_is mu) trs = Some t' /\ In t' trs /\ t_mid t' = Some mu.
Proof.
  intros trs t mu Hin Hm. destruct (find (mid_is mu) trs) as [t'|] eqn:Ef.
  - exists t'. apply find_some in Ef. destruct Ef as [Hin' Hm']. apply mid_is_true in Hm'. auto.
  - pose proof (find_none _ _ Ef t Hin) as E. unfold mid_is in E. rewrite Hm in E. cbn in E. rewrite Z.eqb_refl in E. discriminate.
Qed.

Lemma find_mid_unique : forall trs ss t mu, aligned trs ss -> In t trs -> t_mid t = Some mu -> find (mid_is mu) trs = Some t.
Proof.
  intros trs ss t mu A Hin Hm. destruct (find_mid_some _ _ _ Hin Hm) as [t' [E [Hin' Hm']]]. rewrite E. f_equal.
  exact (aligned_same_mid _ _ _ _ _ A Hin' Hin Hm' Hm).
Qed.

Lemma aligned_mline_mid : forall trs ss i k mu t, aligned trs ss -> nth_error ss i = Some (k, mu) ->
  In t trs -> t_mline t = Some i -> t_mid t = Some mu /\ t_kind t = k.
Proof.
  intros trs ss i k mu t A Hi Hin Hl. destruct (t_mid t) as [x|] eqn:Em.
  - destruct (al_mid _ _ A t x Hin Em) as [j [E1 E2]]. rewrite Hl in E1. inversion E1; subst j.
    rewrite Hi in E2. inversion E2; subst. auto.
  - pose proof (al_none _ _ A t Hin Em) as E. congruence.
Qed.

Lemma aligned_sec_mline : forall trs ss j k mu, aligned trs ss -> NoDup (map snd ss) -> nth_error ss j = Some (k, mu) ->
  is_av k = true -> exists t, In t trs /\ t_mid t = Some mu /\ t_mline t = Some j /\ t_kind t = k.
Proof.
  intros trs ss j k mu A Hnd Hj Hav. destruct (al_sec _ _ A j k mu Hj Hav) as [t [Hin Hm]].
  destruct (al_mid _ _ A t mu Hin Hm) as [j' [E1 E2]]. destruct (secs_nth_mid_inj _ _ _ _ _ _ Hnd E2 Hj) as [-> Ek].
  exists t. auto.
Qed.

(* round i of a loop over ss: the sections below i have been handled, those of s0 were there before *)
Definition live_at (ss : list (Z * Z)) (i : nat) (s0 : list (Z * Z)) (j : nat) (s : Z * Z) : Prop :=
  nth_error ss j = Some s /\ ((j < i)%nat \/ In s s0).

Lemma live_start : forall s0 ss j s, at_pos ss 0 s0 -> NoDup (map snd ss) ->
  (live_at ss 0 s0 j s <-> nth_error s0 j = Some s).
Proof.
  intros s0 ss j [k mu] Hext Hnd. unfold live_at. split.
  - intros [Hj [Hlt|Hin]]; [lia|]. apply In_nth_error in Hin. destruct Hin as [j' Hj']. pose proof (Hext _ _ Hj') as Hj''.
    destruct (secs_nth_mid_inj _ _ _ _ _ _ Hnd Hj Hj'') as [-> _]. exact Hj'.
  - intro Hj. split; [apply (Hext j _ Hj) | right; eapply nth_error_In; eauto].
Qed.

Lemma live_below : forall s0 ss j s, at_pos ss 0 s0 -> (live_at ss (length s0) [] j s <-> nth_error s0 j = Some s).
Proof.
  intros s0 ss j s Hext. unfold live_at. split.
  - intros [Hj [Hlt|[]]]. rewrite <- (at_pos_below _ _ _ _ Hext Hlt). exact Hj.
  - intro Hj. split; [apply (Hext j _ Hj) | left; apply nth_error_Some; congruence].
Qed.

Lemma ali_end : forall i s0 trs ss, (forall j s, nth_error ss j = Some s -> (j < i)%nat \/ In s s0) ->
  ali (live_at ss i s0) trs -> aligned trs ss.
Proof.
  intros i s0 trs ss Hfull A. apply aligned_ali. eapply ali_ext; [|exact A]. intros j k mu _. unfold live_at.
  split; [tauto | auto].
Qed.

Lemma live_at_S : forall ss i s0 j s, live_at ss i s0 j s -> live_at ss (Datatypes.S i) s0 j s.
Proof. intros ss i s0 j s [H [L|I]]; split; auto. Qed.

Lemma live_at_S_inv : forall ss i s0 j s s', live_at ss (Datatypes.S i) s0 j s -> nth_error ss i = Some s' ->
  live_at ss i s0 j s \/ (j = i /\ s = s').
Proof.
  intros ss i s0 j s s' [Hj [Hlt|Hin]] Hi; [|left; split; auto].
  destruct (Nat.eq_dec j i) as [->|Hne]; [right; split; congruence | left; split; [exact Hj | left; lia]].
Qed.

Lemma ali_skip : forall i s0 trs ss k mu, ali (live_at ss i s0) trs -> nth_error ss i = Some (k, mu) -> is_av k = false ->
  ali (live_at ss (Datatypes.S i) s0) trs.
Proof.
  intros i s0 trs ss k mu A Hi Hk. eapply ali_ext; [|exact A]. intros j k' m Hav. split; [apply live_at_S|]. intro Hl.
  destruct (live_at_S_inv _ _ _ _ _ _ Hl Hi) as [Hl'|[_ E]]; [exact Hl'|]. inversion E; subst. congruence.
Qed.

(* The step both sides take for an audio/video section. In setRemoteDescription t0 is the transceiver media_match
   locates, in createOffer with setLocalDescription(offer) the next transceiver without mid; t3 takes its place. *)
Lemma ali_step_av : forall i s0 l1 t0 t3 l2 ss k mu,
  ali (live_at ss i s0) (l1 ++ t0 :: l2) -> NoDup (map snd ss) -> nth_error ss i = Some (k, mu) -> is_av k = true ->
  cand k mu t0 -> (forall y, In y l1 -> ~ cand k mu y) ->
  t_kind t3 = k -> t_mid t3 = Some mu ->
  t_mline t3 = (match t_mid t0 with None => Some i | Some _ => t_mline t0 end) ->
  ali (live_at ss (Datatypes.S i) s0) (l1 ++ t3 :: l2).
Proof.
  intros i s0 l1 t0 t3 l2 ss k mu A Hnd Hi Hav [Hk0 Hm0] Hl1 Hk3 Hm3 Hl3.
  destruct (t_mid t0) as [x|] eqn:Em0.
  - (* the section is already known to this transceiver: keys unchanged, and the section was live before *)
    assert (x = mu) by (destruct Hm0 as [Hm0|Hm0]; congruence). subst x.
    apply (ali_keys _ (l1 ++ t0 :: l2)).
    { rewrite !map_app. cbn [map]. f_equal. f_equal. unfold akey. congruence. }
    eapply ali_ext; [|exact A]. intros j k' m _. split; [apply live_at_S|]. intro Hl.
    destruct (live_at_S_inv _ _ _ _ _ _ Hl Hi) as [Hl'|[-> E]]; [exact Hl'|]. inversion E; subst k' m.
    destruct (li_mid _ _ A t0 mu (in_elt _ _ _) Em0) as [j0 [_ [E2 E3]]]. rewrite Hk0 in E2, E3.
    destruct (secs_nth_mid_inj _ _ _ _ _ _ Hnd E2 Hi) as [-> _]. split; [exact Hi|]. destruct E3 as [E3|E3]; [lia | right; exact E3].
  - (* a transceiver without mid takes the section: mu is not yet used by any transceiver *)
    pose proof A as [A1 A2 A3 A4 A5 A6].
    assert (Hfresh : forall t, In t (l1 ++ t0 :: l2) -> t_mid t <> Some mu).
    { intros t Hin Hm. destruct (A1 t mu Hin Hm) as [j [E1 [E2 _]]].
      destruct (secs_nth_mid_inj _ _ _ _ _ _ Hnd E2 Hi) as [-> Ek].
      destruct (In_mid_cases _ _ _ _ _ Hin) as [H1|[->|H2]].
      - apply (Hl1 t H1). split; [exact Ek | right; exact Hm].
      - congruence.
      - apply In_nth_error in H2. destruct H2 as [n Hn].
        assert (Hpos : nth_error (l1 ++ t0 :: l2) (length l1 + Datatypes.S n) = Some t).
        { rewrite nth_error_app2 by lia. replace (length l1 + Datatypes.S n - length l1)%nat with (Datatypes.S n) by lia. exact Hn. }
        assert (Hn0 : t_mid t = None).
        { apply (A5 (length l1) (length l1 + Datatypes.S n)%nat t0 t); auto; [lia | apply nth_error_split | congruence]. }
        congruence. }
    constructor.
    + intros t m Hin Hm. destruct (In_mid_cases _ _ _ _ _ Hin) as [H1|[->|H2]].
      * destruct (A1 t m (In_mid_intro _ _ _ _ _ (or_introl H1)) Hm) as [j [E1 E2]]. exists j. split; [exact E1 | apply live_at_S; exact E2].
      * exists i. rewrite Hl3, Hk3. rewrite Hm3 in Hm. inversion Hm; subst m. split; [reflexivity|]. split; [exact Hi | left; lia].
      * destruct (A1 t m (In_mid_intro _ _ _ _ _ (or_intror H2)) Hm) as [j [E1 E2]]. exists j. split; [exact E1 | apply live_at_S; exact E2].
    + apply (In_replace _ _ l1 t0 t3 l2 A2). congruence.
    + intros j k' m Hl Hav'. destruct (live_at_S_inv _ _ _ _ _ _ Hl Hi) as [Hl'|[_ E]].
      * destruct (A3 j k' m Hl' Hav') as [t [Hin Hm]]. exists t. split; [|exact Hm].
        destruct (In_mid_cases _ _ _ _ _ Hin) as [H1|[->|H2]]; [apply In_mid_intro; auto | congruence | apply In_mid_intro; auto].
      * inversion E. exists t3. split; [apply in_elt | exact Hm3].
    + intros i1 i2 t1 t2 m H1 H2 M1 M2.
      destruct (nth_error_replace _ l1 t0 t3 l2 _ _ H1) as [[E1 ->]|[N1 G1]];
        destruct (nth_error_replace _ l1 t0 t3 l2 _ _ H2) as [[E2 ->]|[N2 G2]].
      * congruence.
      * exfalso. rewrite Hm3 in M1. inversion M1; subst m. apply (Hfresh t2); [eapply nth_error_In; eauto | exact M2].
      * exfalso. rewrite Hm3 in M2. inversion M2; subst m. apply (Hfresh t1); [eapply nth_error_In; eauto | exact M1].
      * exact (A4 i1 i2 t1 t2 m G1 G2 M1 M2).
    + intros i1 i2 t1 t2 Hlt H1 H2 Hk12 M1.
      destruct (nth_error_replace _ l1 t0 t3 l2 _ _ H1) as [[E1 ->]|[N1 G1]]; [congruence|].
      destruct (nth_error_replace _ l1 t0 t3 l2 _ _ H2) as [[E2 ->]|[N2 G2]].
      * exfalso. subst i2. rewrite nth_error_app1 in G1 by exact Hlt.
        apply (Hl1 t1 (nth_error_In _ _ G1)). split; [congruence | left; exact M1].
      * exact (A5 i1 i2 t1 t2 Hlt G1 G2 Hk12 M1).
    + apply (In_replace _ _ l1 t0 t3 l2 A6). rewrite Hk3. exact Hav.
Qed.

Definition has_tr (l : list transport) (id : Z) : Prop := exists tr, tr_get l id = Some tr.

Lemma has_tr_app : forall l l' id, has_tr l id -> has_tr (l ++ l') id.
Proof. intros l l' id [tr H]. exists tr. unfold tr_get in *. rewrite find_app, H. reflexivity. Qed.

Lemma has_tr_new : forall l id r a b c, has_tr (l ++ [mkTransport id r a b c]) id.
Proof.
  intros l id r a b c. unfold has_tr, tr_get. rewrite find_app.
  destruct (find (fun t => tr_id t =? id) l) as [x|]; [eexists; reflexivity|].
  cbn. rewrite Z.eqb_refl. eexists; reflexivity.
Qed.

Lemma has_tr_map : forall (f : transport -> transport) l id, (forall t, tr_id (f t) = tr_id t) -> has_tr l id -> has_tr (map f l) id.
Proof.
  intros f l id Hf [tr H]. unfold has_tr, tr_get in *. induction l as [|a l IH]; cbn [map find] in *; [discriminate|].
  rewrite Hf. destruct (tr_id a =? id); [eexists; reflexivity | apply IH; exact H].
Qed.

Lemma has_tr_upd : forall l id id' f, (forall t, tr_id (f t) = tr_id t) -> has_tr l id -> has_tr (tr_upd l id' f) id.
Proof.
  intros l id id' f Hf H. unfold tr_upd. apply has_tr_map; [|exact H].
  intro t. destruct (tr_id t =? id'); [apply Hf | reflexivity].
Qed.

Lemma tr_set_role_id : forall r t, tr_id (tr_set_role r t) = tr_id t. Proof. reflexivity. Qed.
Lemma tr_set_ice_id : forall c t, tr_id (tr_set_ice c t) = tr_id t.
Proof. intros c t. unfold tr_set_ice. destruct (tr_role_set t); reflexivity. Qed.
Lemma tr_kill_id : forall t, tr_id (tr_kill t) = tr_id t. Proof. reflexivity. Qed.

Lemma remote_transport_roles_has : forall ty m id' l id, has_tr l id -> has_tr (remote_transport_roles ty m id' l) id.
Proof.
  intros ty m id' l id H. unfold remote_transport_roles.
  assert (Hu : forall f l' (b : bool), (forall t, tr_id (f t) = tr_id t) -> has_tr l' id -> has_tr (if b then tr_upd l' id' f else l') id).
  { intros f l' [] Hf Hl'; [apply has_tr_upd; assumption | exact Hl']. }
  apply Hu; [exact (tr_set_role_id _)|]. apply Hu; [exact (tr_set_role_id _)|]. apply Hu; [exact (tr_set_ice_id _) | exact H].
Qed.

Definition kinds_ok (ss : list (Z * Z)) : Prop := forall s, In s ss -> is_av (fst s) = true \/ fst s = 2.

Definition prefs_valid (T : tables) (kind : Z) (prefs : list cap) : Prop :=
  forall p, In p prefs -> existsb (cap_eqb p) (get_capabilities T kind) = true.

Lemma prefs_valid_nil : forall T k, prefs_valid T k [].
Proof. intros T k q []. Qed.

Definition S (p : pc) : list (Z * Z) := sections (local_description p).

Record wf (T : tables) (p : pc) : Prop := mkWf {
  wf_state : p_state p = Stable;
  wf_secs : sections (remote_description p) = S p;
  wf_nodup : NoDup (map snd (S p));
  wf_seen : incl (map snd (S p)) (p_seen p);
  wf_kinds : kinds_ok (S p);
  wf_al : aligned (p_trs p) (S p);
  wf_sctp_sec : forall mu, In (2, mu) (S p) -> exists s, p_sctp p = Some s /\ s_mid s = Some mu;
  wf_sctp_mid : forall s mu, p_sctp p = Some s -> s_mid s = Some mu -> In (2, mu) (S p);
  wf_tr : forall t, In t (p_trs p) -> has_tr (p_transports p) (t_transport t);
  wf_tr_sctp : forall s, p_sctp p = Some s -> has_tr (p_transports p) (s_transport s);
  wf_prefs : forall t, In t (p_trs p) -> prefs_valid T (t_kind t) (t_preferred t)
}.

Lemma wf_init : forall T pol, wf T (init_pc pol).
Proof.
  intros T pol. constructor; cbn; try reflexivity; try (intros; contradiction); try discriminate.
  - constructor.
  - intros x [].
  - intros s [].
  - constructor; cbn; intros; try contradiction; try discriminate.
    + destruct j; discriminate.
    + destruct i1; discriminate.
    + destruct i1; discriminate.
Qed.

(* Well-formedness against a given section list, in any signalling state; Q is what is known of each
   transceiver's kind and codec preferences (it must allow the empty preference list of a transceiver
   that setRemoteDescription creates). *)
Record wfs (Q : Z -> list cap -> Prop) (p : pc) (ss : list (Z * Z)) : Prop := mkWfs {
  ws_nodup : NoDup (map snd ss);
  ws_seen : incl (map snd ss) (p_seen p);
  ws_kinds : kinds_ok ss;
  ws_al : aligned (p_trs p) ss;
  ws_sctp_sec : forall mu, In (2, mu) ss -> exists s, p_sctp p = Some s /\ s_mid s = Some mu;
  ws_sctp_mid : forall s mu, p_sctp p = Some s -> s_mid s = Some mu -> In (2, mu) ss;
  ws_tr : forall t, In t (p_trs p) -> has_tr (p_transports p) (t_transport t);
  ws_tr_sctp : forall s, p_sctp p = Some s -> has_tr (p_transports p) (s_transport s);
  ws_prefs : forall t, In t (p_trs p) -> Q (t_kind t) (t_preferred t)
}.

Lemma wf_wfs : forall T p, wf T p <-> (p_state p = Stable /\ sections (remote_description p) = S p /\ wfs (prefs_valid T) p (S p)).
Proof.
  intros T p. split.
  - intros [W1 W2 W3 W4 W5 W6 W7 W8 W9 W10 W11]. split; [exact W1|]. split; [exact W2|]. constructor; assumption.
  - intros [W1 [W2 [A1 A2 A3 A4 A5 A6 A7 A8 A9]]]. constructor; assumption.
Qed.

Lemma wf_wfs_S : forall T p, wf T p -> wfs (prefs_valid T) p (S p).
Proof. intros T p W. apply wf_wfs in W. tauto. Qed.

Lemma wfs_prefs : forall (Q Q' : Z -> list cap -> Prop) p ss, wfs Q p ss ->
  (forall t, In t (p_trs p) -> Q' (t_kind t) (t_preferred t)) -> wfs Q' p ss.
Proof. intros Q Q' p ss [W1 W2 W3 W4 W5 W6 W7 W8 W9] H. constructor; assumption. Qed.

(* at most one application section: the sctp transport has one mid *)
Definition app_unique (ss : list (Z * Z)) : Prop :=
  forall j1 j2 m1 m2, nth_error ss j1 = Some (2, m1) -> nth_error ss j2 = Some (2, m2) -> j1 = j2.

Lemma wfs_app_unique : forall Q p ss, wfs Q p ss -> app_unique ss.
Proof.
  intros Q p ss W j1 j2 m1 m2 H1 H2.
  destruct (ws_sctp_sec _ _ _ W m1 (nth_error_In _ _ H1)) as [s1 [G1 G2]].
  destruct (ws_sctp_sec _ _ _ W m2 (nth_error_In _ _ H2)) as [s2 [G3 G4]].
  rewrite G1 in G3. injection G3 as <-. rewrite G2 in G4. injection G4 as <-.
  exact (proj1 (secs_nth_mid_inj _ _ _ _ _ _ (ws_nodup _ _ _ W) H1 H2)).
Qed.

Definition secs_ok (ss : list (Z * Z)) : Prop := NoDup (map snd ss) /\ app_unique ss /\ kinds_ok ss.

Lemma wfs_secs_ok : forall Q p ss, wfs Q p ss -> secs_ok ss.
Proof. intros Q p ss W. split; [apply (ws_nodup _ _ _ W)|]. split; [apply (wfs_app_unique _ _ _ W) | apply (ws_kinds _ _ _ W)]. Qed.

Record rinv (Q : Z -> list cap -> Prop) (ss : list (Z * Z)) (i : nat) (s0 : list (Z * Z)) (p : pc) : Prop := mkRinv {
  ri_ali : ali (live_at ss i s0) (p_trs p);
  ri_sctp_mid : forall s mu, p_sctp p = Some s -> s_mid s = Some mu -> In (2, mu) ss;
  ri_sctp_sec : forall j mu, live_at ss i s0 j (2, mu) -> exists s, p_sctp p = Some s /\ s_mid s = Some mu;
  ri_tr : forall t, In t (p_trs p) -> has_tr (p_transports p) (t_transport t);
  ri_tr_sctp : forall s, p_sctp p = Some s -> has_tr (p_transports p) (s_transport s);
  ri_prefs : forall t, In t (p_trs p) -> Q (t_kind t) (t_preferred t)
}.

Lemma rinv_of_wfs : forall Q p s0 ss i s1, wfs Q p s0 -> at_pos ss 0 s0 ->
  (forall j s, live_at ss i s1 j s <-> nth_error s0 j = Some s) -> rinv Q ss i s1 p.
Proof.
  intros Q p s0 ss i s1 [W1 W2 W3 W4 W5 W6 W7 W8 W9] Hext Hl. constructor; auto.
  - apply aligned_ali in W4. eapply ali_ext; [|exact W4]. intros j k mu _. symmetry. apply Hl.
  - intros s mu Hs Hm. exact (at_pos_In _ _ _ _ _ Hext (W6 s mu Hs Hm)).
  - intros j mu Hj. apply W5. apply Hl in Hj. eapply nth_error_In; eauto.
Qed.

Lemma rinv_start : forall Q p s0 ss, wfs Q p s0 -> at_pos ss 0 s0 -> NoDup (map snd ss) -> rinv Q ss 0 s0 p.
Proof. intros Q p s0 ss W Hext Hnd. apply (rinv_of_wfs _ _ s0); auto. intros j s. apply live_start; assumption. Qed.

Lemma rinv_below : forall Q p s0 ss, wfs Q p s0 -> at_pos ss 0 s0 -> rinv Q ss (length s0) [] p.
Proof. intros Q p s0 ss W Hext. apply (rinv_of_wfs _ _ s0); auto. intros j s. apply live_below; assumption. Qed.

Lemma rinv_wfs : forall Q ss i s0 p, rinv Q ss i s0 p -> (forall j s, nth_error ss j = Some s -> (j < i)%nat \/ In s s0) ->
  NoDup (map snd ss) -> incl (map snd ss) (p_seen p) -> kinds_ok ss -> wfs Q p ss.
Proof.
  intros Q ss i s0 p [A1 A2 A3 A4 A5 A6] Hfull Hnd Hseen Hk. constructor; auto.
  - eapply ali_end; eauto.
  - intros mu Hin. apply In_nth_error in Hin. destruct Hin as [j Hj]. apply (A3 j mu). split; auto.
Qed.

(* the invariant looks at the transceivers, the sctp transport and which transport ids exist *)
Lemma rinv_same : forall Q ss i s0 p q, rinv Q ss i s0 p -> p_trs q = p_trs p -> p_sctp q = p_sctp p ->
  (forall id, has_tr (p_transports p) id -> has_tr (p_transports q) id) -> rinv Q ss i s0 q.
Proof. intros Q ss i s0 p q [A1 A2 A3 A4 A5 A6] Et Es Htr. constructor; rewrite ?Et, ?Es; auto. Qed.

Lemma rinv_transports : forall Q ss i s0 p l, rinv Q ss i s0 p ->
  (forall id, has_tr (p_transports p) id -> has_tr l id) -> rinv Q ss i s0 (set_transports p l).
Proof. intros Q ss i s0 p l R H. apply (rinv_same _ _ _ _ p); auto. Qed.

Lemma rinv_next : forall Q ss i s0 p k mu, rinv Q ss i s0 p -> nth_error ss i = Some (k, mu) -> is_av k = false ->
  (k = 2 -> exists s, p_sctp p = Some s /\ s_mid s = Some mu) -> rinv Q ss (Datatypes.S i) s0 p.
Proof.
  intros Q ss i s0 p k mu [A1 A2 A3 A4 A5 A6] Hi Hk Hs. constructor; auto.
  - eapply ali_skip; eauto.
  - intros j m Hl. destruct (live_at_S_inv _ _ _ _ _ _ Hl Hi) as [Hl'|[_ E]]; [exact (A3 j m Hl')|]. inversion E; subst k m. auto.
Qed.

(* the parts of a transceiver that well-formedness talks about *)
Definition tinfo (t : transceiver) := (akey t, t_transport t, t_preferred t).

Lemma tinfo_fields : forall t t', tinfo t = tinfo t' -> akey t = akey t' /\ t_transport t = t_transport t' /\ t_preferred t = t_preferred t'.
Proof.
  intros t t' H. unfold tinfo in H.
  pose proof (f_equal (fun x => fst (fst x)) H) as E1. pose proof (f_equal (fun x => snd (fst x)) H) as E2.
  pose proof (f_equal snd H) as E3. cbn [fst snd] in E1, E2, E3. auto.
Qed.

Lemma map_tinfo_akey : forall trs trs', map tinfo trs = map tinfo trs' -> map akey trs = map akey trs'.
Proof.
  intros trs trs' H. assert (E : forall l, map akey l = map (fun x => fst (fst x)) (map tinfo l)).
  { intro l. rewrite map_map. reflexivity. }
  rewrite (E trs), (E trs'), H. reflexivity.
Qed.

Lemma map_tinfo_In : forall trs trs' t', map tinfo trs = map tinfo trs' -> In t' trs' ->
  exists t, In t trs /\ t_kind t = t_kind t' /\ t_transport t = t_transport t' /\ t_preferred t = t_preferred t'.
Proof.
  intros trs trs' t' H Hin. apply In_nth_error in Hin. destruct Hin as [i Hi].
  assert (E : nth_error (map tinfo trs) i = Some (tinfo t')) by (rewrite H, nth_error_map, Hi; reflexivity).
  rewrite nth_error_map in E. destruct (nth_error trs i) as [t|] eqn:Et; [|discriminate].
  exists t. split; [eapply nth_error_In; eauto|]. cbn [option_map] in E.
  assert (E' : tinfo t = tinfo t') by congruence. apply tinfo_fields in E'.
  destruct E' as [Ek [Et' Ep]]. apply akey_fields in Ek. tauto.
Qed.

Lemma wfs_transfer : forall Q p q ss,
  wfs Q p ss -> incl (p_seen p) (p_seen q) -> map tinfo (p_trs q) = map tinfo (p_trs p) ->
  p_sctp q = p_sctp p -> (forall id, has_tr (p_transports p) id -> has_tr (p_transports q) id) -> wfs Q q ss.
Proof.
  intros Q p q ss [W1 W2 W3 W4 W5 W6 W7 W8 W9] Hs Ht Hsc Htr. constructor; rewrite ?Hsc; auto.
  - eapply incl_tran; eauto.
  - eapply aligned_keys; [|exact W4]. symmetry. apply map_tinfo_akey. exact Ht.
  - intros t' Hin. destruct (map_tinfo_In _ _ _ (eq_sym Ht) Hin) as [t [Hin' [_ [E _]]]]. rewrite <- E. apply Htr. apply W7. exact Hin'.
  - intros t' Hin. destruct (map_tinfo_In _ _ _ (eq_sym Ht) Hin) as [t [Hin' [Ek [_ Ep]]]]. rewrite <- Ek, <- Ep. apply W9. exact Hin'.
Qed.

Lemma rinv_create_transceiver : forall (Q : Z -> list cap -> Prop) ss i s0 p d k h, (forall k, Q k []) ->
  rinv Q ss i s0 p -> is_av k = true -> rinv Q ss i s0 (create_transceiver p d k h).
Proof.
  intros Q ss i s0 p d k h HQ [A1 A2 A3 A4 A5 A6] Hk.
  destruct (create_transceiver_spec p d k h) as [bd [id [E1 [E2 [_ E4]]]]].
  assert (T1 : (forall j, has_tr (p_transports p) j -> has_tr (p_transports (create_transceiver p d k h)) j) /\
               has_tr (p_transports (create_transceiver p d k h)) id).
  { destruct E4 as [[-> [[t [Hin <-]]|[s [Hs <-]]]]| ->]; [auto | auto | split; [intro j; apply has_tr_app | apply has_tr_new]]. }
  destruct T1 as [T1 T2]. constructor; rewrite ?E1, ?E2; auto.
  - apply ali_snoc; auto.
  - intros t Hin. apply in_app_or in Hin. destruct Hin as [Hin|[<-|[]]]; [apply T1, A4, Hin | exact T2].
  - intros t Hin. apply in_app_or in Hin. destruct Hin as [Hin|[<-|[]]]; [apply A6; exact Hin | apply HQ].
Qed.

Lemma rinv_create_sctp : forall Q ss i s0 p, rinv Q ss i s0 p -> p_sctp p = None -> rinv Q ss i s0 (create_sctp p).
Proof.
  intros Q ss i s0 p [A1 A2 A3 A4 A5 A6] Hn. destruct (create_sctp_spec p) as [E1 [_ [s [E4 [E5 E6]]]]].
  assert (T1 : (forall j, has_tr (p_transports p) j -> has_tr (p_transports (create_sctp p)) j) /\
               has_tr (p_transports (create_sctp p)) (s_transport s)).
  { destruct E6 as [[-> [t [Hin <-]]]| ->]; [auto | split; [intro j; apply has_tr_app | apply has_tr_new]]. }
  destruct T1 as [T1 T2]. constructor; rewrite ?E1; auto.
  - intros s' mu Hs' Hm. congruence.
  - intros j mu Hl. destruct (A3 j mu Hl) as [s' [Hs' _]]. congruence.
  - intros s' Hs'. rewrite E4 in Hs'. injection Hs' as <-. exact T2.
Qed.

Lemma S_same : forall p q, same_descs p q -> S q = S p /\ remote_description q = remote_description p.
Proof. intros p q H. destruct (same_descs_eq _ _ H) as [E1 E2]. unfold S. rewrite E1. auto. Qed.

Lemma wf_step : forall T p q, wf T p -> same_descs p q -> wfs (prefs_valid T) q (S p) -> wf T q.
Proof.
  intros T p q W Hd Wq. destruct (S_same _ _ Hd) as [ES ER]. apply wf_wfs. rewrite ER, ES.
  destruct Hd as [_ [_ [_ [_ E]]]]. rewrite E. split; [apply (wf_state _ _ W)|]. split; [apply (wf_secs _ _ W) | exact Wq].
Qed.

(* through the loop invariant with every section live from the start *)
Lemma wfs_by_rinv : forall Q p q ss, wfs Q p ss -> p_seen q = p_seen p ->
  (rinv Q ss 0 ss p -> rinv Q ss 0 ss q) -> wfs Q q ss.
Proof.
  intros Q p q ss W Hs H. apply (rinv_wfs Q ss 0 ss).
  - apply H. apply rinv_start; [exact W | apply at_pos_refl | apply (ws_nodup _ _ _ W)].
  - intros j s Hj. right. eapply nth_error_In; eauto.
  - apply (ws_nodup _ _ _ W).
  - rewrite Hs. apply (ws_seen _ _ _ W).
  - apply (ws_kinds _ _ _ W).
Qed.

Lemma prefs_unique_valid : forall caps rc u res, prefs_unique caps rc u = Ok res ->
  (forall p, In p u -> existsb (cap_eqb p) caps = true) -> forall p, In p res -> existsb (cap_eqb p) caps = true.
Proof.
  induction rc as [|c rc IH]; intros u res H Hu p Hp; cbn [prefs_unique] in H.
  - injection H as <-. auto.
  - destruct (existsb (cap_eqb c) caps) eqn:Ec; cbn [negb] in H; [|discriminate].
    apply (IH _ _ H); [|exact Hp]. intros q Hq. destruct (existsb (cap_eqb c) u); [auto|].
    destruct Hq as [<-|Hq]; auto.
Qed.

Lemma wf_apply_op : forall T p o p', wf T p -> apply_op T p o = Ok p' -> wf T p'.
Proof.
  intros T p o p' W H. destruct (apply_op_same _ _ _ _ H) as [Hd Hs]. apply (wf_step T p p' W Hd).
  pose proof (wf_wfs_S _ _ W) as Ws. pose proof (prefs_valid_nil T) as HQ.
  destruct o as [k|k d h| |i prefs|i d]; cbn [apply_op] in H.
  - unfold add_track in H. destruct (is_av k) eqn:Hk; cbn [negb] in H; [|discriminate].
    destruct (find_idx (fun t => (t_kind t =? k) && negb (t_hastrack t)) (p_trs p)) as [i|].
    + destruct (nth_error (p_trs p) i) as [t|]; [|discriminate]. bind_inv H d Hd'. injection H as <-.
      apply (wfs_transfer _ p); auto; [rewrite Hs; apply incl_refl|]. cbn. apply map_upd_pres. intro x. reflexivity.
    + injection H as <-. apply (wfs_by_rinv _ p); [exact Ws | exact Hs|]. intro R. apply rinv_create_transceiver; auto.
  - unfold add_transceiver in H. destruct (is_av k) eqn:Hk; cbn [negb] in H; [|discriminate].
    injection H as <-. apply (wfs_by_rinv _ p); [exact Ws | exact Hs|]. intro R. apply rinv_create_transceiver; auto.
  - unfold create_data_channel in H. destruct (p_sctp p) eqn:Es; injection H as <-; [exact Ws|].
    apply (wfs_by_rinv _ p); [exact Ws | exact Hs|]. intro R. apply rinv_create_sctp; auto.
  - unfold pc_set_prefs in H. destruct (nth_error (p_trs p) i) as [t|] eqn:Et; [|discriminate].
    bind_inv H u Hu. injection H as <-. destruct Ws as [W1 W2 W3 W4 W5 W6 W7 W8 W9].
    destruct (List.nth_error_split _ _ Et) as [l1 [l2 [El <-]]].
    constructor; auto; cbn [p_trs set_trs p_transports]; rewrite El in *; rewrite upd_split.
    + eapply aligned_keys; [|exact W4]. rewrite !map_app. reflexivity.
    + apply (In_replace _ _ l1 t _ l2 W7). apply (W7 t). apply in_elt.
    + apply (In_replace _ _ l1 t _ l2 W9). intros q Hq. exact (prefs_unique_valid _ _ _ _ Hu (fun _ F => match F with end) q Hq).
  - unfold pc_set_direction in H. destruct (nth_error (p_trs p) i) as [t|]; [|discriminate]. injection H as <-.
    apply (wfs_transfer _ p); auto; [rewrite Hs; apply incl_refl|]. cbn. apply map_upd_pres. intro x. reflexivity.
Qed.

(* ali_step_av for the whole invariant *)
Lemma rinv_step_av : forall Q ss i s0 p l1 t0 t3 l2 k mu,
  rinv Q ss i s0 p -> p_trs p = l1 ++ t0 :: l2 -> NoDup (map snd ss) -> nth_error ss i = Some (k, mu) -> is_av k = true ->
  cand k mu t0 -> (forall y, In y l1 -> ~ cand k mu y) ->
  t_kind t3 = k -> t_mid t3 = Some mu ->
  t_mline t3 = (match t_mid t0 with None => Some i | Some _ => t_mline t0 end) ->
  t_transport t3 = t_transport t0 -> t_preferred t3 = t_preferred t0 ->
  rinv Q ss (Datatypes.S i) s0 (set_trs p (l1 ++ t3 :: l2)).
Proof.
  intros Q ss i s0 p l1 t0 t3 l2 k mu [A1 A2 A3 A4 A5 A6] Hp Hnd Hi Hav Hc Hn Hk3 Hm3 Hl3 Ht3 Hp3. rewrite Hp in *.
  constructor; cbn [p_trs p_sctp p_transports set_trs]; auto.
  - eapply ali_step_av; eauto.
  - intros j m Hl. destruct (live_at_S_inv _ _ _ _ _ _ Hl Hi) as [Hl'|[_ E]]; [exact (A3 j m Hl')|].
    inversion E as [[E1 E2]]. rewrite <- E1 in Hav. discriminate.
  - apply (In_replace _ _ l1 t0 t3 l2 A4). rewrite Ht3. apply A4. apply in_elt.
  - apply (In_replace _ _ l1 t0 t3 l2 A6). rewrite Hp3, Hk3. rewrite <- (proj1 Hc). apply A6. apply in_elt.
Qed.

Lemma rinv_av : forall (Q : Z -> list cap -> Prop) T ty m i s0 p0 p' ss, (forall k, Q k []) ->
  rinv Q ss i s0 p0 -> remote_av T ty m i p0 = Ok p' -> NoDup (map snd ss) ->
  nth_error ss i = Some (m_kind m, m_mid m) -> is_av (m_kind m) = true -> rinv Q ss (Datatypes.S i) s0 p'.
Proof.
  intros Q T ty m i s0 p0 p' ss HQ R H Hnd Hi Hav.
  destruct (remote_av_inv _ _ _ _ _ _ H) as [p1 [l1 [t0 [t3 [l2 [B1 [B5 [B6 [B0 [[B7 [B8 _]] [B9 [B10 [B11 ->]]]]]]]]]]]]].
  assert (R1 : rinv Q ss i s0 p1) by (destruct B0 as [->|[-> _]]; [exact R | apply rinv_create_transceiver; auto]).
  apply rinv_transports; [|intros id Hid; apply remote_transport_roles_has; exact Hid].
  apply (rinv_step_av _ _ _ _ _ _ t0 _ _ (m_kind m) (m_mid m) R1 B1); auto.
Qed.

(* the step for a new application section, in setRemoteDescription (remote_app) and in setLocalDescription(offer) *)
Lemma rinv_name_sctp : forall Q ss i s0 p s mu, rinv Q ss i s0 p -> nth_error ss i = Some (2, mu) ->
  p_sctp p = Some s -> s_mid s = None ->
  rinv Q ss (Datatypes.S i) s0 (set_sctp p (Some (mkSctp (Some mu) (s_bundled s) (s_transport s)))).
Proof.
  intros Q ss i s0 p s mu [A1 A2 A3 A4 A5 A6] Hi Es Ex. constructor; cbn; auto.
  - eapply ali_skip; eauto.
  - intros s' m Hs' Hm. injection Hs' as <-. injection Hm as <-. eapply nth_error_In; eauto.
  - intros j m Hl. destruct (live_at_S_inv _ _ _ _ _ _ Hl Hi) as [Hl'|[_ E]].
    + destruct (A3 j m Hl') as [s' [Hs' Hm']]. congruence.
    + inversion E. eexists. split; reflexivity.
  - intros s' Hs'. injection Hs' as <-. cbn. apply A5. exact Es.
Qed.

Lemma rinv_app : forall Q ty m i s0 p0 p' ss,
  rinv Q ss i s0 p0 -> remote_app ty m i p0 = Ok p' -> app_unique ss ->
  nth_error ss i = Some (2, m_mid m) -> rinv Q ss (Datatypes.S i) s0 p'.
Proof.
  intros Q ty m i s0 p0 p' ss R H Hau Hi. unfold remote_app in H.
  set (p1 := match p_sctp p0 with Some _ => p0 | None => create_sctp p0 end) in *.
  assert (R1 : rinv Q ss i s0 p1) by (subst p1; destruct (p_sctp p0) eqn:Es; [exact R | apply rinv_create_sctp; auto]).
  clearbody p1. destruct (p_sctp p1) as [s|] eqn:Es1; [|discriminate]. injection H as <-.
  apply rinv_transports; [|intros id Hid; apply remote_transport_roles_has; exact Hid].
  destruct (s_mid s) as [x|] eqn:Ex.
  - (* sctp already has a mid: by uniqueness of the application section it is this one *)
    apply (rinv_next _ _ _ _ _ 2 (m_mid m)); auto. intros _. exists s. split; [exact Es1|].
    pose proof (ri_sctp_mid _ _ _ _ _ R1 s x Es1 Ex) as Hin. apply In_nth_error in Hin. destruct Hin as [j' Hj'].
    pose proof (Hau _ _ _ _ Hj' Hi) as E. subst j'. congruence.
  - apply (rinv_same _ _ _ _ _ _ (rinv_name_sctp _ _ _ _ _ _ _ R1 Hi Es1 Ex)); auto.
Qed.

Lemma remote_media_rinv : forall (Q : Z -> list cap -> Prop) T ty s0 ss, (forall k, Q k []) -> secs_ok ss ->
  forall ms i p p', remote_media T ty ms i p = Ok p' -> at_pos ss i (secs_of ms) ->
  rinv Q ss i s0 p -> rinv Q ss (i + length ms) s0 p'.
Proof.
  intros Q T ty s0 ss HQ [Hnd [Hau Hk]]. induction ms as [|m ms IH]; intros i p p' H Hss R; cbn [remote_media] in H.
  - injection H as <-. cbn [length]. rewrite Nat.add_0_r. exact R.
  - destruct (at_pos_cons _ _ _ _ _ Hss) as [Hi Hss']. cbn [length]. rewrite Nat.add_succ_r.
    assert (R0 : rinv Q ss i s0 (set_seen p (sadd (m_mid m) (p_seen p)))) by (apply (rinv_same _ _ _ _ _ _ R); auto).
    destruct (is_av (m_kind m)) eqn:Eav.
    + bind_inv H p1 Hp1. apply (IH _ _ _ H Hss'). eapply rinv_av; eauto.
    + destruct (Hk _ (nth_error_In _ _ Hi)) as [E2|E2]; cbn [fst] in E2; [congruence|].
      rewrite E2 in H, Hi. rewrite Z.eqb_refl in H. bind_inv H p1 Hp1. apply (IH _ _ _ H Hss'). eapply rinv_app; eauto.
Qed.

Lemma map_core_akey : forall (g : transceiver -> transceiver) trs, (forall t, core (g t) = core t) ->
  map akey (map g trs) = map akey trs.
Proof.
  intros g trs H. rewrite map_map. apply map_ext. intro t. specialize (H t). apply core_fields in H.
  unfold akey. destruct H as [-> [_ [-> [-> _]]]]. reflexivity.
Qed.

Lemma rinv_bundle : forall Q fixed items ss i s0 p p', apply_bundle fixed items p = Ok p' -> rinv Q ss i s0 p -> rinv Q ss i s0 p'.
Proof.
  intros Q fixed items ss i s0 p p' H [A1 A2 A3 A4 A5 A6].
  destruct (apply_bundle_spec _ _ _ _ H) as [[g [G1 G2]] [_ [G5 [[f [F1 F2]] G6]]]].
  assert (Hf : forall id, has_tr (p_transports p) id -> has_tr (p_transports p') id) by (intros id Hid; rewrite F1; apply has_tr_map; assumption).
  destruct (G6 (has_tr (p_transports p')) (fun t Hin => Hf _ (A4 t Hin)) (fun s Hs => Hf _ (A5 s Hs))) as [B1 B2].
  constructor; auto.
  - rewrite G1. eapply ali_keys; [|exact A1]. symmetry. apply map_core_akey. exact G2.
  - intros s' mu Hs' Hm. rewrite Hs' in G5. destruct (p_sctp p) as [s|] eqn:Es; [|contradiction]. apply (A2 s mu eq_refl). congruence.
  - intros j mu Hl. destruct (A3 j mu Hl) as [s [Hs Hm]]. rewrite Hs in G5. destruct (p_sctp p') as [s'|]; [|contradiction].
    exists s'. split; [reflexivity | congruence].
  - rewrite G1. intros t Hin. apply in_map_iff in Hin. destruct Hin as [t0 [<- Hin0]].
    pose proof (core_fields _ _ (G2 t0)) as [E1 [_ [_ [_ [_ [_ [E7 _]]]]]]]. rewrite E1, E7. apply A6. exact Hin0.
Qed.

Lemma set_remote_description_wfs : forall (Q : Z -> list cap -> Prop) fixed T p d p' s0, (forall k, Q k []) ->
  set_remote_description fixed T p d = Ok p' ->
  wfs Q p s0 -> at_pos (secs_of (d_media d)) 0 s0 -> secs_ok (secs_of (d_media d)) -> wfs Q p' (secs_of (d_media d)).
Proof.
  intros Q fixed T p d p' s0 HQ H W Hext Hok.
  destruct (set_remote_description_steps _ _ _ _ _ H) as [p1 [p2 [_ [Hp1 [Hp2 [E1 [E2 [E3 [E4 _]]]]]]]]].
  pose proof (remote_media_rinv Q T (d_type d) s0 _ HQ Hok _ _ _ _ Hp1 (at_pos_refl _ _) (rinv_start _ _ _ _ W Hext (proj1 Hok))) as R1.
  apply (rinv_bundle _ _ _ _ _ _ _ _ Hp2) in R1.
  destruct (remote_media_seen _ _ _ _ _ _ Hp1) as [_ [S2 _]].
  destruct (apply_bundle_spec _ _ _ _ Hp2) as [_ [[G3 _] _]].
  destruct Hok as [Hnd [_ Hk]]. apply (wfs_transfer Q p2); rewrite ?E1, ?E2, ?E3, ?E4; auto using incl_refl.
  apply (rinv_wfs _ _ _ _ _ R1); auto.
  - intros j s Hj. left. cbn [Nat.add]. rewrite <- (secs_of_length (d_media d)). apply nth_error_Some. congruence.
  - rewrite G3, secs_of_mids. exact S2.
Qed.

Lemma set_mid_same : forall t mu, t_mid t = Some mu -> set_mid mu t = t.
Proof. intros t mu H. destruct t. cbn in *. subst. reflexivity. Qed.

Lemma set_mline_same : forall t i, t_mline t = Some i -> set_mline i t = t.
Proof. intros t i H. destruct t. cbn in *. subst. reflexivity. Qed.

Lemma mline_is_true : forall i t, mline_is i t = true -> t_mline t = Some i.
Proof.
  intros i t H. unfold mline_is in H. destruct (t_mline t) as [x|]; cbn in H; [apply Nat.eqb_eq in H; congruence | discriminate].
Qed.

Lemma mline_is_false : forall i t, t_mline t <> Some i -> mline_is i t = false.
Proof.
  intros i t H. unfold mline_is. destruct (t_mline t) as [x|]; cbn; [|reflexivity].
  destruct (Nat.eqb_spec x i); [subst; congruence | reflexivity].
Qed.

(* every section of ss has its mid on the connection already, on the transceiver with its m-line index *)
Definition mids_placed (ss : list (Z * Z)) (trs : list transceiver) (sc : option sctp) : Prop :=
  (forall t j k mu, In t trs -> t_mline t = Some j -> nth_error ss j = Some (k, mu) -> t_mid t = Some mu) /\
  (forall j k mu, nth_error ss j = Some (k, mu) -> is_av k = true -> exists t, In t trs /\ t_mline t = Some j) /\
  (forall j mu, nth_error ss j = Some (2, mu) -> exists s, sc = Some s /\ s_mid s = Some mu).

Lemma wfs_placed : forall Q p ss, wfs Q p ss -> mids_placed ss (p_trs p) (p_sctp p).
Proof.
  intros Q p ss W. split; [|split].
  - intros t j k mu Hin Hl Hj. exact (proj1 (aligned_mline_mid _ _ _ _ _ _ (ws_al _ _ _ W) Hj Hin Hl)).
  - intros j k mu Hj Hav. destruct (aligned_sec_mline _ _ _ _ _ (ws_al _ _ _ W) (ws_nodup _ _ _ W) Hj Hav) as [t [H1 [_ [H2 _]]]].
    exists t. auto.
  - intros j mu Hj. apply (ws_sctp_sec _ _ _ W). eapply nth_error_In; eauto.
Qed.

(* on such sections the first loop of setLocalDescription finds every mid in place *)
Lemma assign_mids_noop : forall ss ms i p,
  at_pos ss i (secs_of ms) -> kinds_ok (secs_of ms) -> mids_placed ss (p_trs p) (p_sctp p) ->
  exists p', assign_mids ms i p = Ok p' /\ p_trs p' = p_trs p /\ p_sctp p' = p_sctp p.
Proof.
  intro ss. induction ms as [|m ms IH]; intros i p Hss Hk Hn; cbn [assign_mids]; [exists p; auto|].
  destruct (at_pos_cons _ _ _ _ _ Hss) as [Hi Hss'].
  assert (Hk' : kinds_ok (secs_of ms)) by (intros s Hs; apply Hk; right; exact Hs).
  destruct Hn as [H1 [H2 H3]].
  destruct (is_av (m_kind m)) eqn:Eav.
  - cbn [p_trs set_seen]. destruct (H2 i _ _ Hi Eav) as [t [Hin Hl]].
    destruct (find_idx_In _ (mline_is i) _ t Hin) as [k Ef]; [unfold mline_is; rewrite Hl; cbn; apply Nat.eqb_refl|].
    rewrite Ef. destruct (find_idx_split _ _ _ _ Ef) as [l1 [x [l2 [E1 [<- [Ex _]]]]]]. apply mline_is_true in Ex.
    assert (E3 : t_mid x = Some (m_mid m)) by (apply (H1 x i _ _) with (3 := Hi); [rewrite E1; apply in_elt | exact Ex]).
    rewrite E1, upd_split, (set_mid_same _ _ E3), <- E1.
    apply (IH (Datatypes.S i) (set_trs (set_seen p (sadd (m_mid m) (p_seen p))) (p_trs p))); auto. split; auto.
  - destruct (Hk _ (or_introl eq_refl)) as [E2|E2]; cbn [fst] in E2; [congruence|]. rewrite E2 in Hi. rewrite E2, Z.eqb_refl.
    cbn [p_sctp set_seen]. destruct (H3 i _ Hi) as [s [Es Hm]]. rewrite Es.
    replace (mkSctp (Some (m_mid m)) (s_bundled s) (s_transport s)) with s by (destruct s; cbn in *; subst; reflexivity).
    rewrite <- Es. apply (IH (Datatypes.S i) (set_sctp (set_seen p (sadd (m_mid m) (p_seen p))) (p_sctp p))); auto. split; auto.
Qed.

Lemma local_roles_total : forall ss ms i p,
  at_pos ss i (secs_of ms) -> mids_placed ss (p_trs p) (p_sctp p) ->
  exists p', local_roles ms i p = Ok p' /\ forall id, has_tr (p_transports p) id -> has_tr (p_transports p') id.
Proof.
  intro ss. induction ms as [|m ms IH]; intros i p Hss Hn; cbn [local_roles]; [exists p; auto|].
  destruct (at_pos_cons _ _ _ _ _ Hss) as [Hi Hss'].
  assert (Hnext : forall id' r, exists p', local_roles ms (Datatypes.S i) (set_transports p (tr_upd (p_transports p) id' (tr_set_role r))) = Ok p' /\
                                forall id, has_tr (p_transports p) id -> has_tr (p_transports p') id).
  { intros id' r. destruct (IH (Datatypes.S i) (set_transports p (tr_upd (p_transports p) id' (tr_set_role r)))) as [p' [E Htr]]; auto.
    exists p'. split; [exact E|]. intros id Hid. apply Htr. cbn. apply has_tr_upd; auto. }
  pose proof Hn as [_ [H2 H3]].
  destruct (is_av (m_kind m)) eqn:Eav.
  - destruct (H2 i _ _ Hi Eav) as [t [Hin Hl]].
    destruct (find (mline_is i) (p_trs p)) eqn:Ef; [apply Hnext|].
    pose proof (find_none _ _ Ef t Hin) as E. unfold mline_is in E. rewrite Hl in E. cbn in E. rewrite Nat.eqb_refl in E. discriminate.
  - destruct (m_kind m =? 2) eqn:E2; [|apply IH; auto].
    apply Z.eqb_eq in E2. rewrite E2 in Hi. destruct (H3 i _ Hi) as [s [Es _]]. rewrite Es. apply Hnext.
Qed.

Lemma local_directions_tinfo : forall fixed trs trs', local_directions fixed trs = Ok trs' -> map tinfo trs' = map tinfo trs.
Proof.
  intro fixed. induction trs as [|t ts IH]; intros trs' H; cbn [local_directions] in H.
  - injection H as <-. reflexivity.
  - bind_inv H t' Ht'. bind_inv H ts' Hts'. injection H as <-. cbn [map]. rewrite (IH _ Hts'). f_equal.
    destruct (t_offerDirection t).
    + bind_inv Ht' dd Hdd. injection Ht' as <-. reflexivity.
    + destruct fixed; [injection Ht' as <-; reflexivity|]. bind_inv Ht' dd Hdd. injection Ht' as <-. reflexivity.
Qed.

(* On a connection aligned with the answer's sections, setLocalDescription(answer) is the direction loop:
   the mids are in place and the role loop finds its transports. *)
Lemma set_local_answer_eq : forall Q fixed p d, wfs Q p (secs_of (d_media d)) -> d_type d = 1 ->
  validate_description p d true = Ok tt ->
  exists p4, p_trs p4 = p_trs p /\ p_sctp p4 = p_sctp p /\ incl (p_seen p) (p_seen p4) /\
             (forall id, has_tr (p_transports p) id -> has_tr (p_transports p4) id) /\
             set_local_description fixed p d =
               bind (local_directions fixed (p_trs p)) (fun trs => Ok (set_local (set_trs p4 trs) (Some d) None)).
Proof.
  intros Q fixed p d W Ht Hv. destruct (validate_answer _ _ _ Hv Ht) as [_ [o [_ [_ Hst]]]].
  unfold set_local_description. rewrite Hst, Hv. cbn [bind]. rewrite Ht. cbn [Z.eqb Pos.eqb].
  pose proof (wfs_placed _ _ _ W) as Hn.
  destruct (assign_mids_noop _ (d_media d) 0 (set_state p Stable) (at_pos_refl _ _) (ws_kinds _ _ _ W) Hn) as [q [Q1 [Q2 Q3]]].
  rewrite Q1. cbn [bind]. cbn in Q2, Q3. rewrite <- Q2, <- Q3 in Hn.
  destruct (local_roles_total _ (d_media d) 0 q (at_pos_refl _ _) Hn) as [q4 [Hq4 Htr]]. rewrite Hq4. cbn [bind].
  destruct (local_roles_frame _ _ _ _ Hq4) as [_ [C2 [C3 C4]]]. destruct (assign_mids_frame _ _ _ _ Q1) as [_ [A2 [_ A4]]].
  exists q4. rewrite C3, C4, C2, Q2, Q3. split; [reflexivity|]. split; [reflexivity|]. split; [exact A2|].
  split; [intros id Hid; apply Htr; rewrite A4; exact Hid|].
  destruct (local_directions fixed (p_trs p)); reflexivity.
Qed.

Lemma set_local_answer_wfs : forall Q fixed p d p',
  set_local_description fixed p d = Ok p' -> d_type d = 1 ->
  wfs Q p (secs_of (d_media d)) -> wfs Q p' (secs_of (d_media d)) /\ local_directions fixed (p_trs p) = Ok (p_trs p').
Proof.
  intros Q fixed p d p' H Ht W. destruct (set_local_description_spec _ _ _ _ H) as [Hv _].
  destruct (set_local_answer_eq Q fixed p d W Ht Hv) as [p4 [E1 [E2 [E3 [E4 E5]]]]]. rewrite E5 in H.
  bind_inv H trs Htrs. injection H as <-. split; [|exact Htrs].
  apply (wfs_transfer Q p); auto. cbn. apply (local_directions_tinfo _ _ _ Htrs).
Qed.

Lemma offer_codecs_spec : forall T trs trs0, offer_codecs T trs = Ok trs0 ->
  map tinfo trs0 = map tinfo trs /\ (forall t0, In t0 trs0 -> filter_preferred_codecs (CODECS T (t_kind t0)) (t_preferred t0) = Ok (t_codecs t0)).
Proof.
  intro T. induction trs as [|t ts IH]; intros trs0 H; cbn [offer_codecs] in H.
  - injection H as <-. split; [reflexivity | intros ? []].
  - bind_inv H cs Hcs. bind_inv H ts' Hts'. injection H as <-. destruct (IH _ Hts') as [I1 I2].
    split; [cbn [map]; rewrite I1; reflexivity|].
    intros t0 [<-|Hin]; [exact Hcs | apply I2; exact Hin].
Qed.

Definition from_tr (trs : list transceiver) (m : media) : Prop :=
  exists t, In t trs /\ t_mid t = Some (m_mid m) /\ t_kind t = m_kind m /\ m_codecs m = t_codecs t /\ m_dir m <> None.

Definition av_from_tr (trs : list transceiver) (m : media) : Prop := is_av (m_kind m) = true -> from_tr trs m.

Lemma from_tr_incl : forall trs trs' m, (forall t, In t trs -> t_mid t <> None -> In t trs') -> from_tr trs m -> from_tr trs' m.
Proof. intros trs trs' m H [t [H1 [H2 H3]]]. exists t. split; [apply H; [exact H1 | congruence] | auto]. Qed.

(* the m-sections that exist already: the transceivers carry their m-line indices, so nothing changes *)
Lemma offer_existing_aligned : forall ss hs ms i trs sm,
  aligned trs ss -> NoDup (map snd ss) -> at_pos ss i (secs_of ms) -> kinds_ok (secs_of ms) ->
  (forall mu, In (2, mu) (secs_of ms) -> hs = true) ->
  exists out sm', offer_existing ms i trs hs sm = Ok (trs, out, sm') /\ secs_of out = secs_of ms /\
                  Forall (av_from_tr trs) out.
Proof.
  intros ss hs. induction ms as [|m ms IH]; intros i trs sm A Hnd Hss Hk Hhs; cbn [offer_existing].
  - exists [], sm. auto.
  - destruct (at_pos_cons _ _ _ _ _ Hss) as [Hi Hss'].
    assert (Hk' : kinds_ok (secs_of ms)) by (intros s Hs; apply Hk; right; exact Hs).
    assert (Hhs' : forall mu, In (2, mu) (secs_of ms) -> hs = true) by (intros mu Hmu; apply (Hhs mu); right; exact Hmu).
    destruct (is_av (m_kind m)) eqn:Eav.
    + destruct (aligned_sec_mline _ _ _ _ _ A Hnd Hi Eav) as [t [Hin [Hm [Hl Hkd]]]].
      destruct (find_idx_In _ (mid_is (m_mid m)) _ t Hin) as [k Ef]; [unfold mid_is; rewrite Hm; cbn; apply Z.eqb_refl|].
      rewrite Ef. destruct (find_idx_split _ _ _ _ Ef) as [l1 [x [l2 [E1 [<- [Ex _]]]]]]. apply mid_is_true in Ex.
      assert (x = t) by (apply (aligned_same_mid _ _ _ _ (m_mid m) A); auto; rewrite E1; apply in_elt). subst x.
      assert (Eu : upd (length l1) (set_mline i) trs = trs) by (rewrite E1, upd_split, (set_mline_same _ _ Hl); reflexivity).
      assert (Et : nth_error trs (length l1) = Some t) by (rewrite E1; apply nth_error_split).
      rewrite Eu, Et. destruct (IH (Datatypes.S i) trs sm A Hnd Hss' Hk' Hhs') as [out [sm' [E [Es Ef']]]]. rewrite E. cbn [bind].
      eexists. eexists. split; [reflexivity|]. split; [unfold secs_of in *; cbn [map m_kind m_mid media_for_transceiver]; rewrite Es, Hkd; reflexivity|].
      constructor; [|exact Ef']. intros _. exists t. cbn. repeat split; auto. discriminate.
    + destruct (Hk _ (or_introl eq_refl)) as [E2|E2]; cbn [fst] in E2; [congruence|]. rewrite E2, Z.eqb_refl.
      assert (hs = true) by (apply (Hhs (m_mid m)); left; rewrite E2; reflexivity). subst hs.
      destruct (IH (Datatypes.S i) trs (Some i) A Hnd Hss' Hk' Hhs') as [out [sm' [E [Es Ef']]]]. rewrite E. cbn [bind].
      eexists. eexists. split; [reflexivity|]. split; [unfold secs_of in *; cbn [map m_kind m_mid media_for_sctp]; rewrite Es, E2; reflexivity|].
      constructor; [|exact Ef']. intro Hc. cbn in Hc. discriminate.
Qed.

Lemma offer_new_total : forall rest next mids, exists rest' out mids', offer_new rest next mids = Ok (rest', out, mids').
Proof.
  induction rest as [|t ts IH]; intros next mids; cbn [offer_new].
  - eexists. eexists. eexists. reflexivity.
  - destruct (t_mid t).
    + destruct (IH next mids) as [a [b [c E]]]. rewrite E. cbn [bind]. eexists. eexists. eexists. reflexivity.
    + destruct (allocate_mid_total mids) as [m Hm]. rewrite Hm. cbn [bind].
      destruct (IH (Datatypes.S next) (m :: mids)) as [a [b [c E]]]. rewrite E. cbn [bind]. eexists. eexists. eexists. reflexivity.
Qed.

Lemma offer_new_lines : forall rest next mids rest' out mids', offer_new rest next mids = Ok (rest', out, mids') ->
  (forall t', In t' rest' -> In t' rest \/ exists n, (next <= n)%nat /\ t_mline t' = Some n) /\
  (forall t, In t rest -> t_mid t <> None -> In t rest').
Proof.
  induction rest as [|t ts IH]; intros next mids rest' out mids' H; cbn [offer_new] in H.
  - injection H as <- _ _. auto.
  - destruct (t_mid t) eqn:Em.
    + bind_inv H r Hr. destruct r as [[a b] c]. injection H as <- _ _. destruct (IH _ _ _ _ _ Hr) as [Ia Ib]. split.
      * intros t' [<-|Hin]; [left; left; reflexivity|]. destruct (Ia t' Hin) as [Hl|Hr']; [left; right; exact Hl | right; exact Hr'].
      * intros t0 [<-|Hin] Hm; [left; reflexivity | right; exact (Ib t0 Hin Hm)].
    + bind_inv H m Hm. bind_inv H r Hr. destruct r as [[a b] c]. injection H as <- _ _. destruct (IH _ _ _ _ _ Hr) as [Ia Ib]. split.
      * intros t' [<-|Hin]; [right; exists next; auto|].
        destruct (Ia t' Hin) as [Hl|[n [Hn Hl]]]; [left; right; exact Hl | right; exists n; split; [lia | exact Hl]].
      * intros t0 [<-|Hin] Hm0; [congruence | right; exact (Ib t0 Hin Hm0)].
Qed.

Lemma offer_new_placed : forall ss trs0 next mids trs2 out mids' sc, offer_new trs0 next mids = Ok (trs2, out, mids') ->
  (length ss <= next)%nat -> (forall t, In t trs0 -> t_mid t = None -> t_mline t = None) ->
  mids_placed ss trs0 sc -> mids_placed ss trs2 sc.
Proof.
  intros ss trs0 next mids trs2 out mids' sc H Hlen Hnone [H1 [H2 H3]]. destruct (offer_new_lines _ _ _ _ _ _ H) as [La Lb].
  split; [|split; [|exact H3]].
  - intros t' j k mu Hin Hl Hj. destruct (La t' Hin) as [Hin0|[n [Hn Hl']]]; [exact (H1 t' j k mu Hin0 Hl Hj)|].
    assert (j < length ss)%nat by (apply nth_error_Some; congruence). rewrite Hl in Hl'. injection Hl' as ->. lia.
  - intros j k mu Hj Hav. destruct (H2 j k mu Hj Hav) as [t [Hin Hl]]. exists t. split; [|exact Hl].
    apply Lb; [exact Hin|]. intro Em. rewrite (Hnone t Hin Em) in Hl. discriminate.
Qed.

Lemma assign_mids_app : forall a b i p, assign_mids (a ++ b) i p =
  bind (assign_mids a i p) (fun p1 => assign_mids b (i + length a) p1).
Proof.
  induction a as [|m a IH]; intros b i p; cbn [app assign_mids length].
  - rewrite Nat.add_0_r. reflexivity.
  - replace (i + Datatypes.S (length a))%nat with (Datatypes.S i + length a)%nat by lia.
    destruct (is_av (m_kind m)).
    + destruct (find_idx (mline_is i) (p_trs (set_seen p (sadd (m_mid m) (p_seen p))))); [apply IH | reflexivity].
    + destruct (m_kind m =? 2).
      * destruct (p_sctp (set_seen p (sadd (m_mid m) (p_seen p)))); [apply IH | reflexivity].
      * apply IH.
Qed.

(* a transceiver after createOffer and setLocalDescription(offer): untouched, or given an m-line and a mid *)
Definition named (t t' : transceiver) : Prop :=
  t_mid t' <> None /\ (t' = t \/ (t_mid t = None /\ exists mu n, t' = set_mid mu (set_mline n t))).

(* The transceivers `rest` that createOffer still has to look at, behind those (`pre`) it has passed: the
   sections `out` it makes for the ones without mid are found by setLocalDescription(offer) in the same order,
   each on the transceiver it was made for, and every such step is a step of the loop invariant. The invariant
   is that of the connection as it was before createOffer gave `rest` their m-line indices. *)
Lemma offer_new_assign : forall (Q : Z -> list cap -> Prop) ss rest pre next mids rest' out mids' p,
  offer_new rest next mids = Ok (rest', out, mids') -> p_trs p = pre ++ rest' ->
  rinv Q ss next [] (set_trs p (pre ++ rest)) -> NoDup (map snd ss) -> at_pos ss next (secs_of out) ->
  (forall y, In y pre -> t_mid y <> None) ->
  exists p' rest'',
    assign_mids out next p = Ok p' /\ p_trs p' = pre ++ rest'' /\ p_sctp p' = p_sctp p /\
    rinv Q ss (next + length out) [] p' /\
    Forall2 named rest rest'' /\ Forall (from_tr rest'') out.
Proof.
  intro Q. induction rest as [|t ts IH]; intros pre next mids rest' out mids' p H Hp R Hnd Hss Hpre; cbn [offer_new] in H.
  - injection H as <- <- _. exists p, []. cbn [assign_mids length]. rewrite Nat.add_0_r.
    split; [reflexivity|]. split; [exact Hp|]. split; [reflexivity|]. split; [|split; constructor].
    apply (rinv_same _ _ _ _ _ _ R); auto.
  - destruct (t_mid t) as [x|] eqn:Em.
    + bind_inv H r Hr. destruct r as [[ts' out2] mids2]. injection H as <- <- _.
      destruct (IH (pre ++ [t]) next mids ts' out2 mids2 p Hr) as [p' [r'' [I1 [I2 [I3 [I4 [I5 I6]]]]]]]; auto.
      * rewrite Hp, <- app_assoc. reflexivity.
      * rewrite <- app_assoc. exact R.
      * intros y Hy. apply in_app_or in Hy. destruct Hy as [Hy|[<-|[]]]; [apply Hpre; exact Hy | congruence].
      * rewrite <- app_assoc in I2. exists p', (t :: r'').
        split; [exact I1|]. split; [exact I2|]. split; [exact I3|]. split; [exact I4|].
        split; [constructor; [split; [congruence | left; reflexivity] | exact I5]|].
        eapply Forall_impl; [|exact I6]. intros m. apply from_tr_incl. intros y Hy _. right. exact Hy.
    + bind_inv H m Hm. bind_inv H r Hr. destruct r as [[ts' out2] mids2]. injection H as <- <- _.
      destruct (at_pos_cons _ _ _ _ _ Hss) as [Hi Hss']. cbn [m_kind m_mid media_for_transceiver t_kind set_mline] in Hi.
      set (t3 := set_mid m (set_mline next t)).
      pose proof (ri_ali _ _ _ _ _ R) as A. cbn [p_trs set_trs] in A.
      (* setLocalDescription finds the transceiver by its new m-line index: those before it are below *)
      assert (Ef : find_idx (mline_is next) (pre ++ set_mline next t :: ts') = Some (length pre)).
      { apply find_idx_first; [|unfold mline_is; cbn; apply Nat.eqb_refl].
        intros y Hy. apply mline_is_false. destruct (t_mid y) as [mu|] eqn:Ey; [|destruct (Hpre y Hy Ey)].
        destruct (li_mid _ _ A y mu (in_or_app _ _ _ (or_introl Hy)) Ey) as [j [-> [_ [Hlt|[]]]]]. intro E. inversion E. lia. }
      assert (R' : rinv Q ss (Datatypes.S next) [] (set_trs (set_trs p (pre ++ t :: ts)) (pre ++ t3 :: ts))).
      { apply (rinv_step_av _ _ _ _ _ pre t t3 ts (t_kind t) m R); auto.
        - apply (li_kind _ _ A). apply in_elt.
        - split; [reflexivity | left; exact Em].
        - intros y Hy [_ [Hc|Hc]]; [exact (Hpre y Hy Hc)|].
          destruct (li_mid _ _ A y m (in_or_app _ _ _ (or_introl Hy)) Hc) as [j [_ [E2 [Hlt|[]]]]].
          destruct (secs_nth_mid_inj _ _ _ _ _ _ Hnd E2 Hi) as [-> _]. lia.
        - rewrite Em. reflexivity. }
      set (p1 := set_trs (set_seen p (sadd m (p_seen p))) (pre ++ t3 :: ts')).
      destruct (IH (pre ++ [t3]) (Datatypes.S next) (m :: mids) ts' out2 mids2 p1 Hr) as [p' [r'' [I1 [I2 [I3 [I4 [I5 I6]]]]]]]; auto.
      * subst p1. cbn. rewrite <- app_assoc. reflexivity.
      * apply (rinv_same _ _ _ _ _ _ R'); auto. cbn. rewrite <- app_assoc. reflexivity.
      * intros y Hy. apply in_app_or in Hy. destruct Hy as [Hy|[<-|[]]]; [apply Hpre; exact Hy | cbn; discriminate].
      * rewrite <- app_assoc in I2. exists p', (t3 :: r'').
        split; [cbn [assign_mids m_kind m_mid media_for_transceiver t_kind set_mline]; rewrite (li_kind _ _ A t (in_elt _ _ _)); cbn [p_trs set_seen];
                rewrite Hp, Ef, upd_split; exact I1|].
        split; [exact I2|]. split; [exact I3|]. split; [cbn [length]; rewrite Nat.add_succ_r; exact I4|].
        split; [constructor; [split; [cbn; discriminate | right; split; [exact Em | exists m, next; reflexivity]] | exact I5]|].
        constructor; [exists t3; cbn; repeat split; auto; discriminate|].
        eapply Forall_impl; [|exact I6]. intros m'. apply from_tr_incl. intros y Hy _. right. exact Hy.
Qed.

(* `merged` of create_offer: the m-sections there are already *)
Definition merged_media (p : pc) : list media :=
  desc_media (local_description p) ++ skipn (length (desc_media (local_description p))) (desc_media (remote_description p)).

Lemma wf_merged : forall T a, wf T a -> merged_media a = desc_media (local_description a).
Proof.
  intros T a W. unfold merged_media. apply skipn_all_length.
  pose proof (wf_secs _ _ W) as E. unfold S, sections in E.
  rewrite <- (map_length (fun m => (m_kind m, m_mid m)) (desc_media (local_description a))), <- E. apply map_length.
Qed.

(* What createOffer returns, with trs0 the transceivers after their codecs were chosen: the sections there
   were (out1), one for each transceiver without mid (out2), and the application section if the sctp
   transport has no mid yet (out3). *)
Inductive offer_made (a : pc) (trs0 : list transceiver) : pc -> desc -> Prop :=
| OfferMade : forall out1 trs2 out2 mids2 out3 sm3,
    secs_of out1 = S a -> Forall (av_from_tr trs0) out1 ->
    offer_new trs0 (length out1) (p_seen a) = Ok (trs2, out2, mids2) ->
    (out3 = [] /\ (forall s, p_sctp a = Some s -> s_mid s <> None) \/
     exists m s, out3 = [media_for_sctp m RAuto] /\ p_sctp a = Some s /\ s_mid s = None /\ allocate_mid mids2 = Ok m) ->
    offer_made a trs0 (set_sctp_mline (set_trs a trs2) sm3)
               (mkDesc 0 (out1 ++ out2 ++ out3) (map m_mid (out1 ++ out2 ++ out3))).

Lemma create_offer_made : forall T a trs0, wf T a -> offer_codecs T (p_trs a) = Ok trs0 ->
  exists a1 offer, create_offer T a = Ok (a1, offer) /\ offer_made a trs0 a1 offer.
Proof.
  intros T a trs0 W Hoc. destruct (offer_codecs_spec _ _ _ Hoc) as [C1 _].
  assert (A0 : aligned trs0 (S a)) by (eapply aligned_keys; [symmetry; apply map_tinfo_akey; exact C1 | apply (wf_al _ _ W)]).
  destruct (offer_existing_aligned (S a) (match p_sctp a with Some _ => true | None => false end)
              (desc_media (local_description a)) 0 trs0 (p_sctp_mline a) A0 (wf_nodup _ _ W) (at_pos_refl _ _) (wf_kinds _ _ W))
    as [out1 [sm1 [E1 [X2 X3]]]].
  { intros mu Hmu. destruct (wf_sctp_sec _ _ W mu Hmu) as [s [-> _]]. reflexivity. }
  destruct (offer_new_total trs0 (length out1) (p_seen a)) as [trs2 [out2 [mids2 E2]]].
  unfold create_offer. rewrite (wf_state _ _ W), Hoc. cbn [bind]. fold (merged_media a). rewrite (wf_merged _ _ W), E1. cbn [bind].
  rewrite E2. cbn [bind]. destruct (p_sctp a) as [s|] eqn:Esc; [destruct (s_mid s) eqn:Esm|].
  - eexists. eexists. split; [reflexivity|]. econstructor; eauto. left. split; [reflexivity|]. intros s' E. congruence.
  - destruct (allocate_mid_total mids2) as [m Hm]. rewrite Hm. eexists. eexists. split; [reflexivity|]. econstructor; eauto.
    right. exists m, s. auto.
  - eexists. eexists. split; [reflexivity|]. econstructor; eauto. left. split; [reflexivity|]. intros s' E. congruence.
Qed.

(* the mids of the sections there were are seen; the new ones are allocated outside the seen ones *)
Lemma offer_made_nodup : forall T a trs0 a1 offer, wf T a -> offer_made a trs0 a1 offer -> NoDup (map m_mid (d_media offer)).
Proof.
  intros T a trs0 a1 offer W [out1 trs2 out2 mids2 out3 sm3 X2 _ E2 Hout3]. cbn [d_media].
  destruct (offer_new_mids _ _ _ _ _ _ E2) as [N1 [N2 [N3 N4]]].
  assert (N6 : NoDup (map m_mid out3) /\ forall x, In x (map m_mid out3) -> ~ In x mids2).
  { destruct Hout3 as [[-> _]|[m [s [-> [_ [_ Hm]]]]]]; [split; [constructor | intros x []]|].
    apply allocate_mid_fresh in Hm. destruct Hm as [Hm _]. split; [constructor; [intros []|constructor] | intros x [<-|[]]; exact Hm]. }
  destruct N6 as [N6 N7].
  assert (E1 : map m_mid out1 = map snd (S a)) by (rewrite <- X2; symmetry; apply secs_of_mids).
  rewrite !map_app. apply NoDup_app_intro.
  - rewrite E1. apply (wf_nodup _ _ W).
  - apply NoDup_app_intro; [exact N1 | exact N6|]. intros x Hx Hx3. apply (N7 x Hx3). apply N4. exact Hx.
  - intros x Hx Hx23. rewrite E1 in Hx. apply (wf_seen _ _ W) in Hx.
    apply in_app_or in Hx23. destruct Hx23 as [Hx2|Hx3]; [exact (N2 _ Hx2 Hx) | exact (N7 x Hx3 (N3 x Hx))].
Qed.

Lemma set_local_offer : forall Q fixed a trs0 a1 offer, p_state a = Stable -> wfs Q (set_trs a trs0) (S a) ->
  offer_made a trs0 a1 offer -> NoDup (map m_mid (d_media offer)) ->
  exists a2, set_local_description fixed a1 offer = Ok a2 /\
             wfs Q a2 (secs_of (d_media offer)) /\ at_pos (secs_of (d_media offer)) 0 (S a) /\
             Forall2 named trs0 (p_trs a2) /\ Forall (av_from_tr (p_trs a2)) (d_media offer).
Proof.
  intros Q fixed a trs0 a1 offer Hst W0 [out1 trs2 out2 mids2 out3 sm3 X2 X3 E2 Hout3] Hnd. cbn [d_media] in *.
  set (ms := out1 ++ out2 ++ out3) in *. set (ss := secs_of ms).
  assert (Ess : ss = S a ++ secs_of out2 ++ secs_of out3) by (unfold ss, ms; rewrite !secs_of_app, X2; reflexivity).
  assert (Hnd' : NoDup (map snd ss)) by (unfold ss; rewrite secs_of_mids; exact Hnd).
  assert (Hext : at_pos ss 0 (S a)) by (rewrite Ess; apply (at_pos_app _ [])).
  assert (Elen1 : length out1 = length (S a)) by (rewrite <- X2; symmetry; apply secs_of_length).
  assert (Hss2 : at_pos ss (length out1) (secs_of out2)) by (rewrite Ess, Elen1; apply at_pos_app).
  (* the sections that existed find their mids in place *)
  destruct (assign_mids_noop (S a) out1 0 (set_state (set_sctp_mline (set_trs a trs2) sm3) HaveLocalOffer)) as [q1 [Q1 [Q2 Q3]]].
  { rewrite X2. apply at_pos_refl. }
  { rewrite X2. apply (ws_kinds _ _ _ W0). }
  { apply (offer_new_placed _ _ _ _ _ _ _ _ E2 (Nat.eq_le_incl _ _ (eq_sym Elen1)) (al_none _ _ (ws_al _ _ _ W0))). exact (wfs_placed _ _ _ W0). }
  destruct (assign_mids_frame _ _ _ _ Q1) as [_ [_ [_ Q4]]]. cbn in Q2, Q3, Q4.
  (* the transceivers without mid are named in the order of their sections *)
  destruct (offer_new_assign Q ss trs0 [] (length out1) _ _ _ _ q1 E2) as [q2 [trsf [R1 [R2 [R3 [R4 [R5 R6]]]]]]]; auto.
  { rewrite Elen1. apply (rinv_same _ _ _ _ _ _ (rinv_below _ _ _ ss W0 Hext)); [reflexivity | exact Q3 | cbn; rewrite Q4; auto]. }
  cbn [app] in R2.
  assert (Hk2 : forall m, In m out2 -> is_av (m_kind m) = true).
  { intros m Hm. rewrite Forall_forall in R6. destruct (R6 m Hm) as [t [Hin [_ [<- _]]]].
    apply (li_kind _ _ (ri_ali _ _ _ _ _ R4)). rewrite R2. exact Hin. }
  (* the new application section gives the sctp transport its mid *)
  assert (El : length ss = (length out1 + length out2 + length out3)%nat) by (unfold ss, ms; rewrite secs_of_length, !app_length; lia).
  assert (P3 : exists q3, assign_mids out3 (length out1 + length out2) q2 = Ok q3 /\ p_trs q3 = trsf /\ rinv Q ss (length ss) [] q3).
  { destruct Hout3 as [[-> _]|[m [s [-> [Hs [Hm _]]]]]]; rewrite El; cbn [length].
    - exists q2. rewrite Nat.add_0_r. auto.
    - cbn [assign_mids media_for_sctp m_kind is_av Z.eqb orb m_mid]. cbn [p_sctp set_seen]. rewrite R3, Q3, Hs.
      eexists. split; [reflexivity|]. split; [exact R2|]. rewrite Nat.add_1_r.
      apply (rinv_same _ _ _ _ (set_sctp q2 (Some (mkSctp (Some m) (s_bundled s) (s_transport s))))); auto.
      apply (rinv_name_sctp _ _ _ _ q2 s m R4); [|congruence | exact Hm].
      rewrite Elen1, <- (secs_of_length out2), <- app_length, Ess, app_assoc. apply nth_error_split. }
  destruct P3 as [q3 [T1 [T2 R7]]].
  assert (Ham : assign_mids ms 0 (set_state (set_sctp_mline (set_trs a trs2) sm3) HaveLocalOffer) = Ok q3).
  { unfold ms. rewrite assign_mids_app, Q1. cbn [bind]. rewrite assign_mids_app. cbn [Nat.add]. rewrite R1. exact T1. }
  eexists. split.
  { unfold set_local_description. cbn [p_state set_sctp_mline set_trs d_type]. rewrite Hst.
    unfold validate_description. cbn [p_state set_sctp_mline set_trs d_type Z.eqb negb andb bind d_media]. rewrite Hst. cbn [negb bind].
    fold ms. rewrite Ham. reflexivity. }
  destruct (assign_mids_frame _ _ _ _ Ham) as [_ [_ [S3 _]]].
  cbn [p_trs set_local set_transports]. rewrite T2. split; [|split; [exact Hext|]; split; [exact R5|]].
  - apply (rinv_wfs Q ss (length ss) []); auto.
    + apply (rinv_same _ _ _ _ _ _ R7); auto. intros id Hid. cbn.
      apply has_tr_map; [intro t; destruct (tr_live t); [apply tr_set_ice_id | reflexivity] | exact Hid].
    + intros j s Hj. left. apply nth_error_Some. congruence.
    + unfold ss. rewrite secs_of_mids. exact S3.
    + intros s Hs. rewrite Ess in Hs. apply in_app_or in Hs. destruct Hs as [Hs|Hs]; [apply (ws_kinds _ _ _ W0); exact Hs|].
      apply in_app_or in Hs. destruct Hs as [Hs|Hs].
      * apply in_map_iff in Hs. destruct Hs as [m [<- Hm]]. left. apply Hk2. exact Hm.
      * destruct Hout3 as [[-> _]|[m [s0 [-> _]]]]; [destruct Hs | destruct Hs as [<-|[]]; right; reflexivity].
  - unfold ms. apply Forall_app. split; [|apply Forall_app; split].
    + eapply Forall_impl; [|exact X3]. intros m Hm Hav. apply (from_tr_incl trs0); [|exact (Hm Hav)].
      intros t Ht Hmid. destruct (Forall2_In_r _ _ _ _ _ _ R5 Ht) as [t' [Hin' [_ [->|[Hc _]]]]]; [exact Hin' | congruence].
    + eapply Forall_impl; [|exact R6]. intros m Hm _. exact Hm.
    + destruct Hout3 as [[-> _]|[m [s0 [-> _]]]]; constructor; [|constructor]. intro Hc. cbn in Hc. discriminate.
Qed.

(* what the rest of the exchange needs to know of an offered audio/video section *)
Definition offered_by (T : tables) (trsa trs2 : list transceiver) (m : media) : Prop :=
  is_av (m_kind m) = true -> m_dir m <> None /\
  exists ta t2, In ta trsa /\ t_kind ta = m_kind m /\ In t2 trs2 /\ t_mid t2 = Some (m_mid m) /\
                t_preferred t2 = t_preferred ta /\
                filter_preferred_codecs (CODECS T (m_kind m)) (t_preferred ta) = Ok (m_codecs m).

Lemma offer_phase : forall fixed T a trs0, wf T a -> offer_codecs T (p_trs a) = Ok trs0 ->
  exists a1 offer a2,
    create_offer T a = Ok (a1, offer) /\ set_local_description fixed a1 offer = Ok a2 /\
    wfs (prefs_valid T) a2 (secs_of (d_media offer)) /\ at_pos (secs_of (d_media offer)) 0 (S a) /\
    (forall t, In t (p_trs a2) -> t_mid t <> None) /\
    Forall (offered_by T (p_trs a) (p_trs a2)) (d_media offer).
Proof.
  intros fixed T a trs0 W Hoc. destruct (create_offer_made _ _ _ W Hoc) as [a1 [offer [Hco Hm]]].
  destruct (offer_codecs_spec _ _ _ Hoc) as [C1 C2].
  assert (W0 : wfs (prefs_valid T) (set_trs a trs0) (S a)) by (apply (wfs_transfer _ a); auto using incl_refl; apply wf_wfs_S; exact W).
  destruct (set_local_offer _ fixed a trs0 a1 offer (wf_state _ _ W) W0 Hm (offer_made_nodup _ _ _ _ _ W Hm)) as [a2 [Hsl [Ws [Hext [HF Hfrom]]]]].
  exists a1, offer, a2. split; [exact Hco|]. split; [exact Hsl|]. split; [exact Ws|]. split; [exact Hext|]. split.
  - intros t Hin. destruct (Forall2_In_l _ _ _ _ _ _ HF Hin) as [t0 [_ [Hn _]]]. exact Hn.
  - eapply Forall_impl; [|exact Hfrom]. intros m Hm' Hav. destruct (Hm' Hav) as [t2 [Hin2 [Hmid [Hk [Hcod Hdir]]]]]. split; [exact Hdir|].
    destruct (Forall2_In_l _ _ _ _ _ _ HF Hin2) as [t0 [Hin0 [_ Hn]]].
    destruct (map_tinfo_In _ _ _ (eq_sym C1) Hin0) as [ta [Hina [Ek [_ Ep]]]].
    assert (E : t_kind t2 = t_kind t0 /\ t_preferred t2 = t_preferred t0 /\ t_codecs t2 = t_codecs t0)
      by (destruct Hn as [->|[_ [mu [n ->]]]]; auto).
    destruct E as [E1 [E2 E3]]. exists ta, t2. repeat split; auto; try congruence.
    pose proof (C2 t0 Hin0) as Hoff. rewrite Hcod, E3, <- Hk, E1, Ep. exact Hoff.
Qed.

Lemma exchange_wf : forall fixed T a b x, exchange fixed T a b = Ok x -> wf T a -> wf T b -> S a = S b ->
  wf T (x_a x) /\ wf T (x_b x) /\ S (x_a x) = S (x_b x) /\
  forall b1, set_remote_description fixed T b (x_offer x) = Ok b1 -> wfs (prefs_valid T) b1 (secs_of (d_media (x_offer x))).
Proof.
  intros fixed T a b x H Wa Wb Hsync.
  destruct (exchange_shape _ _ _ _ _ H) as [Ma [Mb [[_ At] [Msec _]]]].
  destruct (exchange_descs _ _ _ _ _ H) as [La [Ra [Lb Rb]]].
  destruct (exchange_steps _ _ _ _ _ H) as [a1 [offer [a2 [b1 [answer [b2 [a3 [H1 [H2 [H3 [H4 [H5 [H6 ->]]]]]]]]]]]]].
  cbn [x_a x_b x_offer x_answer] in *.
  destruct (create_offer_spec _ _ _ _ H1) as [_ [_ [trs0 Hoc]]].
  destruct (offer_phase fixed T a trs0 Wa Hoc) as [a1' [offer' [a2' [G1 [G2 [G3 [G4 _]]]]]]].
  rewrite H1 in G1. injection G1 as <- <-. rewrite H2 in G2. injection G2 as <-.
  set (ss := secs_of (d_media offer)) in *.
  assert (Eans : secs_of (d_media answer) = ss) by exact Msec.
  assert (Wb1 : forall b1, set_remote_description fixed T b offer = Ok b1 -> wfs (prefs_valid T) b1 ss).
  { intros b1' H3'. apply (set_remote_description_wfs _ fixed T b offer b1' (S b) (prefs_valid_nil T) H3');
      [apply wf_wfs_S; exact Wb | rewrite <- Hsync; exact G4 | exact (wfs_secs_ok _ _ _ G3)]. }
  assert (Wb2 : wfs (prefs_valid T) b2 ss).
  { rewrite <- Eans. apply (set_local_answer_wfs _ fixed b1 answer b2 H5 At). rewrite Eans. exact (Wb1 b1 H3). }
  assert (Wa3 : wfs (prefs_valid T) a3 ss).
  { rewrite <- Eans. apply (set_remote_description_wfs _ fixed T a2 answer a3 ss (prefs_valid_nil T) H6); rewrite ?Eans;
      [exact G3 | apply at_pos_refl | exact (wfs_secs_ok _ _ _ G3)]. }
  assert (Sa3 : S a3 = ss) by (unfold S; rewrite La; reflexivity).
  assert (Sb2 : S b2 = ss) by (unfold S; rewrite Lb; exact Eans).
  split; [|split; [|split]].
  - apply wf_wfs. split; [exact Ma|]. split; [rewrite Ra, Sa3; exact Eans | rewrite Sa3; exact Wa3].
  - apply wf_wfs. split; [exact Mb|]. split; [rewrite Rb, Sb2; reflexivity | rewrite Sb2; exact Wb2].
  - congruence.
  - exact Wb1.
Qed.

Lemma run_session_wf : forall fixed T steps a b a' b',
  run_session fixed T a b steps = Ok (a', b') -> wf T a -> wf T b -> S a = S b ->
  wf T a' /\ wf T b' /\ S a' = S b'.
Proof.
  intros fixed T. induction steps as [|s steps IH]; intros a b a' b' H Wa Wb Hs; cbn [run_session] in H.
  - injection H as <- <-. auto.
  - destruct s as [o|o| |].
    + bind_inv H a1 Ha1. pose proof (wf_apply_op _ _ _ _ Wa Ha1) as W1.
      destruct (apply_op_same _ _ _ _ Ha1) as [S1 _]. destruct (S_same _ _ S1) as [E _].
      eapply IH; eauto. congruence.
    + bind_inv H b1 Hb1. pose proof (wf_apply_op _ _ _ _ Wb Hb1) as W1.
      destruct (apply_op_same _ _ _ _ Hb1) as [S1 _]. destruct (S_same _ _ S1) as [E _].
      eapply IH; eauto. congruence.
    + bind_inv H x Hx. destruct (exchange_wf _ _ _ _ _ Hx Wa Wb Hs) as [W1 [W2 [E _]]]. eapply IH; eauto.
    + bind_inv H x Hx. destruct (exchange_wf _ _ _ _ _ Hx Wb Wa (eq_sym Hs)) as [W1 [W2 [E _]]]. eapply IH; eauto.
Qed.
