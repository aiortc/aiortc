(* Laws of the GENERATED serial-number arithmetic (Gen/Utils.v, from utils.py). *)
From Coq Require Import ZArith Bool Lia ZifyBool.
From AV Require Import Gen.Utils.
Local Open Scope Z_scope.

Ltac Zify.zify_post_hook ::= Z.to_euclidean_division_equations.

Definition in16 (a : Z) : Prop := 0 <= a < 65536.
Definition in32 (a : Z) : Prop := 0 <= a < 4294967296.

Lemma land_ffff a : Z.land a 65535 = a mod 65536.
Proof. change 65535 with (Z.ones 16). rewrite Z.land_ones by lia. reflexivity. Qed.
Lemma land_ffffffff a : Z.land a 4294967295 = a mod 4294967296.
Proof. change 4294967295 with (Z.ones 32). rewrite Z.land_ones by lia. reflexivity. Qed.

Lemma uint16_add_mod a b : uint16_add a b = (a + b) mod 65536.
Proof. unfold uint16_add. apply land_ffff. Qed.
Lemma uint32_add_mod a b : uint32_add a b = (a + b) mod 4294967296.
Proof. unfold uint32_add. apply land_ffffffff. Qed.

Lemma uint16_add_range a b : in16 (uint16_add a b).
Proof. rewrite uint16_add_mod. apply Z.mod_pos_bound. reflexivity. Qed.
Lemma uint32_add_range a b : in32 (uint32_add a b).
Proof. rewrite uint32_add_mod. apply Z.mod_pos_bound. reflexivity. Qed.

Lemma uint16_add_add a b d : uint16_add (uint16_add a b) d = uint16_add a (b + d).
Proof. rewrite !uint16_add_mod, Zplus_mod_idemp_l, Z.add_assoc. reflexivity. Qed.

Lemma uint16_add_0 a : in16 a -> uint16_add a 0 = a.
Proof. intros H. rewrite uint16_add_mod, Z.add_0_r. apply Z.mod_small. exact H. Qed.

Lemma uint16_add_inj a i j : 0 <= i < 65536 -> 0 <= j < 65536 -> uint16_add a i = uint16_add a j -> i = j.
Proof. rewrite !uint16_add_mod. intros Hi Hj E. lia. Qed.

Lemma uint16_add_cancel a b d : in16 a -> in16 b -> uint16_add a d = uint16_add b d -> a = b.
Proof. rewrite !uint16_add_mod. unfold in16. intros Ha Hb E. lia. Qed.

Lemma sub_mod_range m a b : 0 <= a < m -> 0 <= b < m ->
  b <= a /\ (a - b) mod m = a - b \/ a < b /\ (a - b) mod m = a - b + m.
Proof.
  intros Ha Hb. destruct (Z.le_gt_cases b a) as [H|H]; [left|right]; (split; [exact H|]).
  - apply Z.mod_small. lia.
  - rewrite <- (Z.mod_add _ 1) by lia. rewrite Z.mul_1_l. apply Z.mod_small. lia.
Qed.

Lemma uint16_gt_spec a b : in16 a -> in16 b ->
  uint16_gt a b = true <-> 0 < (a - b) mod 65536 < 32768.
Proof. intros Ha Hb. destruct (sub_mod_range _ a b Ha Hb) as [[H ->]|[H ->]]; unfold in16, uint16_gt in *; lia. Qed.
Lemma uint32_gt_spec a b : in32 a -> in32 b ->
  uint32_gt a b = true <-> 0 < (a - b) mod 4294967296 < 2147483648.
Proof. intros Ha Hb. destruct (sub_mod_range _ a b Ha Hb) as [[H ->]|[H ->]]; unfold in32, uint32_gt in *; lia. Qed.

Lemma uint16_gt_irrefl a : uint16_gt a a = false.
Proof. unfold uint16_gt. lia. Qed.
Lemma uint32_gt_irrefl a : uint32_gt a a = false.
Proof. unfold uint32_gt. lia. Qed.

Lemma uint16_gt_asym a b : uint16_gt a b = true -> uint16_gt b a = false.
Proof. unfold uint16_gt. lia. Qed.
Lemma uint32_gt_asym a b : uint32_gt a b = true -> uint32_gt b a = false.
Proof. unfold uint32_gt. lia. Qed.

Lemma uint16_gt_total a b : in16 a -> in16 b -> a <> b -> (a - b) mod 65536 <> 32768 ->
  uint16_gt a b = true \/ uint16_gt b a = true.
Proof.
  intros Ha Hb. destruct (sub_mod_range _ a b Ha Hb) as [[H ->]|[H ->]]; unfold in16, uint16_gt in *; lia.
Qed.
Lemma uint32_gt_total a b : in32 a -> in32 b -> a <> b -> (a - b) mod 4294967296 <> 2147483648 ->
  uint32_gt a b = true \/ uint32_gt b a = true.
Proof.
  intros Ha Hb. destruct (sub_mod_range _ a b Ha Hb) as [[H ->]|[H ->]]; unfold in32, uint32_gt in *; lia.
Qed.

Lemma uint16_gt_add a d : in16 a -> 0 < d < 32768 -> uint16_gt (uint16_add a d) a = true.
Proof.
  intros Ha Hd. apply (uint16_gt_spec _ _ (uint16_add_range a d) Ha).
  rewrite uint16_add_mod, Zminus_mod_idemp_l, Z.add_simpl_l, Z.mod_small; lia.
Qed.
Lemma uint32_gt_add a d : in32 a -> 0 < d < 2147483648 -> uint32_gt (uint32_add a d) a = true.
Proof.
  intros Ha Hd. apply (uint32_gt_spec _ _ (uint32_add_range a d) Ha).
  rewrite uint32_add_mod, Zminus_mod_idemp_l, Z.add_simpl_l, Z.mod_small; lia.
Qed.

Lemma uint16_gt_shift a b d : in16 a -> in16 b ->
  uint16_gt (uint16_add a d) (uint16_add b d) = uint16_gt a b.
Proof.
  intros Ha Hb. apply eq_true_iff_eq.
  rewrite (uint16_gt_spec _ _ (uint16_add_range a d) (uint16_add_range b d)), (uint16_gt_spec a b Ha Hb).
  rewrite !uint16_add_mod, <- Zminus_mod, Z.add_add_simpl_r_r. reflexivity.
Qed.
Lemma uint32_gt_shift a b d : in32 a -> in32 b ->
  uint32_gt (uint32_add a d) (uint32_add b d) = uint32_gt a b.
Proof.
  intros Ha Hb. apply eq_true_iff_eq.
  rewrite (uint32_gt_spec _ _ (uint32_add_range a d) (uint32_add_range b d)), (uint32_gt_spec a b Ha Hb).
  rewrite !uint32_add_mod, <- Zminus_mod, Z.add_add_simpl_r_r. reflexivity.
Qed.

Lemma uint16_gte_spec a b : uint16_gte a b = (a =? b) || uint16_gt a b.
Proof. reflexivity. Qed.
Lemma uint32_gte_spec a b : uint32_gte a b = (a =? b) || uint32_gt a b.
Proof. reflexivity. Qed.

Lemma uint16_gte_shift a b d : in16 a -> in16 b ->
  uint16_gte (uint16_add a d) (uint16_add b d) = uint16_gte a b.
Proof.
  intros Ha Hb. unfold uint16_gte. rewrite uint16_gt_shift by assumption. f_equal.
  rewrite !uint16_add_mod. unfold in16 in *. lia.
Qed.
Lemma uint32_gte_shift a b d : in32 a -> in32 b ->
  uint32_gte (uint32_add a d) (uint32_add b d) = uint32_gte a b.
Proof.
  intros Ha Hb. unfold uint32_gte. rewrite uint32_gt_shift by assumption. f_equal.
  rewrite !uint32_add_mod. unfold in32 in *. lia.
Qed.

Lemma uint16_gt_trans a b c : in16 a -> in16 b -> in16 c ->
  uint16_gt b a = true -> uint16_gt c b = true ->
  (b - a) mod 65536 + (c - b) mod 65536 < 32768 -> uint16_gt c a = true.
Proof. unfold in16, uint16_gt. intros. lia. Qed.
Lemma uint32_gt_trans a b c : in32 a -> in32 b -> in32 c ->
  uint32_gt b a = true -> uint32_gt c b = true ->
  (b - a) mod 4294967296 + (c - b) mod 4294967296 < 2147483648 -> uint32_gt c a = true.
Proof. unfold in32, uint32_gt. intros. lia. Qed.
