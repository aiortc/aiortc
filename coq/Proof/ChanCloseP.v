(* C13: closing an open channel of an established association resets its stream and, once the
   peer has answered, the channel is closed and its id is free for reuse. *)
From Coq Require Import ZArith List Bool Lia Arith.
From AV Require Import Lib.Bytes Gen.Utils Gen.SctpConst Model.Chan Proof.ChanP Proof.ChanBufP.
Import ListNotations.
Local Open Scope Z_scope.

Lemma create_free_id s neg i ordered maxrt maxlt label proto : tget (table s) i = None ->
  ~ In (EvRaise 1) (snd (create s neg (Some i) ordered maxrt maxlt label proto)).
Proof.
  intros Ht. rewrite create_eq. cbv zeta. rewrite Ht.
  destruct neg; [destruct (established s)|]; [exact (set_ready_no_raise _ _ _ 1)|intros []|cbn; intuition discriminate].
Qed.

(* the fields that steer the RE-CONFIG task; set_ready, hence open_negotiated, leaves them alone *)
Definition ctl (s : st) := (established s, rq_queue s, rq_request s, rq_req_seq s).

Lemma ctl_open_negotiated t s : ctl (fst (open_negotiated s t)) = ctl s.
Proof.
  apply (walk_open_negotiated (fun s0 _ s' => ctl s' = ctl s0)); [reflexivity|congruence|]. intros s0 h r _ _. now rewrite set_ready_fst.
Qed.

Lemma close_step_reset s h hs i : (h < length (chans s))%nat -> rank (ch_state (getc s h)) <= 1 ->
  ch_id (getc s h) = Some i -> established s || hs = true ->
  step s (IClose h hs) =
  (mkSt (established s) (dc_id s) (chans (fst (set_ready s h Closing))) (table s) (queue s) (rq_queue s ++ [i])
        (rq_request s) (rq_req_seq s) (rq_resp_seq s),
   if Nat.eqb (length (rq_queue s ++ [i])) 1 then [EvSchedReconfig] else []).
Proof.
  intros Hh Hr Hid He. cbn [step]. apply Nat.ltb_lt in Hh as ->. unfold chan_close, close_body, set_ready.
  destruct (ch_state (getc s h)); cbn [rank] in Hr; try lia; cbn [rstate_eqb rank Z.eqb Pos.eqb fst snd established setc]; now rewrite He, Hid.
Qed.

Lemma transmit_reconfig_one s i : rq_request s = None -> established s = true -> rq_queue s = [i] ->
  transmit_reconfig s =
  (mkSt true (dc_id s) (chans s) (table s) (queue s) [] (Some (rq_req_seq s, [i])) (tsn_plus_one (rq_req_seq s)) (rq_resp_seq s),
   [EvReconfigRequest (rq_req_seq s) [i]]).
Proof. intros Hr He Hq. unfold transmit_reconfig. now rewrite Hr, He, Hq. Qed.

Lemma transmit_reconfig_idle s : rq_queue s = [] -> transmit_reconfig s = (s, []).
Proof. intros Hq. unfold transmit_reconfig. destruct (rq_request s); [reflexivity|]. now rewrite Hq, andb_false_r. Qed.

Lemma reset_response_closes s q i h : established s = true -> rq_request s = Some (q, [i]) -> rq_queue s = [] ->
  tget (table s) i = Some h -> (h < length (chans s))%nat -> ch_state (getc s h) <> Closed ->
  let s' := fst (step s (IResetResponse q)) in
  ch_state (getc s' h) = Closed /\ snd (step s (IResetResponse q)) = [EvClose h] /\ tget (table s') i = None.
Proof.
  intros He Hr Hq Ht Hh Hst. cbn [step]. rewrite He. unfold recv_reset_response. rewrite Hr, Z.eqb_refl. cbn [closed_streams].
  rewrite (chan_closed_eq s i h Ht).
  rewrite transmit_reconfig_idle by (unfold set_ready; now destruct (rstate_eqb _ _)).
  cbn [fst snd]. rewrite app_nil_r.
  split; [exact (closed_after_set_ready s h Hh)|]. split; [|cbn [table set_table]; now rewrite tget_tdel, Z.eqb_refl].
  unfold set_ready. destruct (rstate_eqb _ _) eqn:E; [now apply rstate_eqb_eq in E|reflexivity].
Qed.

Theorem close_frees_id s h i hs : cinv s -> (h < length (chans s))%nat ->
  ch_state (getc s h) = Open -> ch_id (getc s h) = Some i ->
  established s = true -> rq_request s = None -> rq_queue s = [] ->
  let s1 := fst (step s (IClose h hs)) in
  let s2 := fst (step s1 ITransmitReconfig) in
  let s3 := fst (step s2 (IResetResponse (rq_req_seq s))) in
  (* close(): closing, a RE-CONFIG task is scheduled; the task sends the reset request for stream i *)
  ch_state (getc s1 h) = Closing /\ snd (step s (IClose h hs)) = [EvSchedReconfig] /\
  snd (step s1 ITransmitReconfig) = [EvReconfigRequest (rq_req_seq s) [i]] /\
  (* the peer's response: closed, `close` event, id unregistered and usable again *)
  ch_state (getc s3 h) = Closed /\ snd (step s2 (IResetResponse (rq_req_seq s))) = [EvClose h] /\
  tget (table s3) i = None /\
  (forall neg ordered maxrt maxlt label proto, ~ In (EvRaise 1) (snd (create s3 neg (Some i) ordered maxrt maxlt label proto))).
Proof.
  intros (W & B & T) Hh Hst Hid He Hrq Hq. cbv zeta.
  assert (Et : tget (table s) i = Some h) by (apply T; [exact Hh|now rewrite Hst|exact Hid]).
  rewrite (close_step_reset s h hs i Hh) by (rewrite ?Hst, ?He; easy). rewrite He, Hrq, Hq. cbn [fst snd app length Nat.eqb].
  match goal with |- context [step ?x ITransmitReconfig] => set (s1 := x) end. change (step s1 ITransmitReconfig) with (transmit_reconfig s1).
  rewrite (transmit_reconfig_one s1 i eq_refl eq_refl eq_refl). cbn [fst snd].
  pose proof (set_ready_same s h Closing Hh) as G1.
  match goal with |- context [step ?x (IResetResponse _)] => set (s2 := x) end.
  destruct (reset_response_closes s2 (rq_req_seq s) i h eq_refl eq_refl eq_refl Et) as (A & B3 & C).
  - change (h < length (chans (fst (set_ready s h Closing))))%nat. now rewrite set_ready_length.
  - change (ch_state (getc (fst (set_ready s h Closing)) h) <> Closed). now rewrite G1.
  - split; [exact (f_equal ch_state G1)|]. split; [reflexivity|]. split; [reflexivity|]. split; [exact A|]. split; [exact B3|].
    split; [exact C|]. intros neg ordered maxrt maxlt label proto. now apply create_free_id.
Qed.

Lemma set_established_rq s :
  let s' := fst (set_established s) in
  established s' = true /\ rq_queue s' = rq_queue s /\ rq_request s' = rq_request s /\ rq_req_seq s' = rq_req_seq s /\
  (rq_queue s <> [] -> In EvSchedReconfig (snd (set_established s))).
Proof.
  unfold set_established. cbv zeta.
  match goal with |- context [open_negotiated ?x ?t] => injection (ctl_open_negotiated t x) as Re Rq Rr Rs end.
  destruct (open_negotiated _ _) as [s' e]. cbn [fst snd] in *. repeat split; try assumption.
  intros Hq. apply in_or_app. right. right. rewrite Rq. destruct (rq_queue s); [now destruct Hq|now left].
Qed.

(* The peer opened the channel (it has an id and is registered) but this end's association is
   still in COOKIE_WAIT / COOKIE_ECHOED.  close() must not forget the channel locally - the peer
   would keep it open for ever: the stream reset is queued, and sent once the association is up. *)
Theorem close_during_handshake s h i : (h < length (chans s))%nat ->
  rank (ch_state (getc s h)) <= 1 -> ch_id (getc s h) = Some i ->
  established s = false -> rq_request s = None -> rq_queue s = [] ->
  let s1 := fst (step s (IClose h true)) in
  let s2 := fst (step s1 IEstablished) in
  ch_state (getc s1 h) = Closing /\ table s1 = table s /\ rq_queue s1 = [i] /\
  (* becoming established schedules the RE-CONFIG task, which requests the reset of stream i *)
  In EvSchedReconfig (snd (step s1 IEstablished)) /\
  snd (step s2 ITransmitReconfig) = [EvReconfigRequest (rq_req_seq s) [i]].
Proof.
  intros Hh Hr Hid He Hrq Hq. cbv zeta.
  rewrite (close_step_reset s h true i Hh Hr Hid (orb_true_r _)), Hrq, Hq. cbn [fst snd app].
  match goal with |- context [step ?x IEstablished] => set (s1 := x) end. cbn [step].
  split; [exact (f_equal ch_state (set_ready_same s h Closing Hh))|]. split; [reflexivity|]. split; [reflexivity|].
  destruct (set_established_rq s1) as (Re & Rq & Rr & Rs & Ev).
  split; [apply Ev; discriminate|]. now rewrite (transmit_reconfig_one _ i Rr Re Rq), Rs.
Qed.
