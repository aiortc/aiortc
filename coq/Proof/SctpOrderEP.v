(* C01: ordered delivery, end to end -- sender fragmentation, any arrival schedule,
   transport-level duplicate filtering, per-stream reassembly. *)
From Coq Require Import ZArith List Bool Lia.
From AV Require Import Lib.Bytes Gen.Utils Gen.SctpConst Model.SctpRecv Model.SctpSend Proof.SctpSendP
  Proof.SctpDupP Proof.SctpOrderP Proof.SctpOrderSP Proof.SctpOrderTP.
Import ListNotations.
Local Open Scope Z_scope.

Definition triple (m : outmsg) : message := (o_sid m, o_ppid m, o_data m).

Lemma sel_msgs st : forall ms s, Forall (fun m => o_data m <> []) ms ->
  map msgf (sel st s ms) = map triple (filter (selected st) ms).
Proof.
  induction ms as [|m ms IH]; intros s Hd; cbn [sel filter map]; [reflexivity|].
  inversion Hd as [|? ? Hm Hd']; subst. destruct (selected st m); cbn [map]; [|now apply IH].
  f_equal; [|now apply IH].
  destruct (send_msg_fragments s m Hm) as (Hj & Hne & _ & _ & Hall & _).
  unfold msgf, triple. rewrite Hj. rewrite Forall_forall in Hall.
  destruct (Hall _ (last_in _ dchunk Hne)) as (-> & -> & _). reflexivity.
Qed.

Lemma in_concat_at (M : list (list chunk)) c : In c (concat M) -> exists j i, at_ M j i c.
Proof.
  intros H. apply in_concat in H as (f & Hf & Hc).
  apply In_nth_error in Hf as (j & Hj). apply In_nth_error in Hc as (i & Hi). exists j, i, f. auto.
Qed.

(* ORDERED, EXACTLY-ONCE DELIVERY.  The application sends ANY list of messages (any sizes,
   streams, ordered or not) from ANY initial TSN; the network delivers ANY list of the DATA
   chunks on stream st that belong to its ordered messages (every order, loss and
   duplication pattern; chunks of other streams arbitrary, inside the TSN window); then
   what the receiver hands to the application on stream st is exactly the first n of the
   ordered messages sent on st: in sending order, each once, none altered.
   Window conditions: fewer than 2^31 TSNs in the run, and every chunk arrives while fewer
   than 2^15 messages of its stream lie between it and the delivery point (swin). *)
Theorem ordered_exactly_once base N t0 msgs st es :
  r32 base -> 0 <= N < 2147483648 -> r32 t0 ->
  off base t0 + Z.of_nat (total_frags msgs) <= N ->
  Forall (fun m => o_data m <> []) msgs ->
  let M := sel st (mkS t0 []) msgs in
  Forall (data_ev base N) es ->
  (forall c, In (EvData c) es -> sid c = st -> In c (concat M)) ->
  swin M [] 0 0 (filter (on_stream st) (accepted_chunks (rinit base) es)) ->
  exists n, msgs_on st (rinit base) es = firstn n (map triple (filter (selected st) msgs)).
Proof.
  intros Hbase HN Ht0 Hfit Hd M Hes Hin Hw.
  pose proof (sender_wf_start base N HN st t0 msgs Ht0 Hfit Hd) as W. fold M in W.
  destruct (transport_ordered_prefix base N Hbase HN M _ 0 st W es Hes) as (n & En).
  - intros c Hc Hs. apply in_concat_at. now apply Hin.
  - exact Hw.
  - reflexivity.
  - exists n. rewrite En, <- firstn_map. unfold M. now rewrite sel_msgs.
Qed.

Theorem window_small base N t0 msgs st :
  r32 base -> 0 <= N < 2147483648 -> r32 t0 ->
  off base t0 + Z.of_nat (total_frags msgs) <= N ->
  Forall (fun m => o_data m <> []) msgs ->
  let M := sel st (mkS t0 []) msgs in
  Z.of_nat (length M) <= 32768 ->
  forall cs Q seq k, swin M Q seq k cs.
Proof.
  intros Hb HN Ht Hf Hd M Hl.
  exact (swin_small base N M _ _ (sender_wf_start base N HN st t0 msgs Ht Hf Hd) Hl).
Qed.

