(* Proofs about Model/Close.v (property C19), part 3: reachable configurations,
   termination, progress, idempotence and "nothing left running". *)
From Coq Require Import ZArith List Bool Arith Lia.
From AV Require Import Lib.Sx Model.Close Proof.CloseP Proof.CloseInvP.
Import ListNotations.

Definition Inv (c : cfg) : Prop := inv c /\ wf_tp c.

Lemma Inv_step c e c' : Inv c -> step true c e = Some c' -> Inv c'.
Proof. intros [H1 H2] HS. split; [eapply step_inv; eauto|eapply step_wf_tp; eauto]. Qed.

Lemma Inv_run evs c c' : Inv c -> run true c evs = Some c' -> Inv c'.
Proof. apply (run_inv true Inv). exact Inv_step. Qed.

(* initial configurations: transceivers on transports tps (ids below ntp), optional SCTP *)
Definition wf_init (tps : list nat) (ntp : nat) (sc : option nat) : Prop :=
  Forall (fun t => t < ntp) tps /\ match sc with Some t => t < ntp | None => True end.

Lemma Inv_init tps ntp sc : wf_init tps ntp sc -> Inv (init tps ntp sc).
Proof.
  intros [H1 H2]. split.
  - unfold init. split; [|split; [|split; [|split]]].
    + intros i x. cbn [c_trx]. rewrite nth_error_map. destruct (nth_error tps i); cbn; [|discriminate].
      intros H; injection H as <-. unfold comp_ok, unstarted_ok, trx0. cbn. repeat split; auto; discriminate.
    + cbn. discriminate.
    + exact I.
    + intros t tp. cbn [c_tps]. intros Hn. apply nth_error_In in Hn. apply repeat_spec in Hn. subst.
      intros Hc. discriminate Hc.
    + intros Hc. cbn in Hc. congruence.
  - unfold wf_tp, shape_wf, shape, init. cbn [c_trx c_tps c_sctp fst snd].
    rewrite map_map. cbn [t_tp trx0]. rewrite map_id, repeat_length. split; [exact H1|].
    destruct sc; cbn; auto.
Qed.

Definition reachable (c : cfg) : Prop :=
  exists tps ntp sc evs, wf_init tps ntp sc /\ run true (init tps ntp sc) evs = Some c.

Lemma reachable_Inv c : reachable c -> Inv c.
Proof. intros (tps & ntp & sc & evs & Hw & HR). eapply Inv_run; [apply Inv_init; exact Hw|exact HR]. Qed.

Lemma closed_set_sub c s : c_closed (set_sub c s) = c_closed c.
Proof. unfold set_sub. destruct (c_main c) as [[[? ?] ?]|]; reflexivity. Qed.

Lemma step_closed fx c e c' :
  step fx c e = Some c' ->
  c_closed c' = c_closed c \/ (c_closed c = FNone /\ c_closed c' = FPending) \/
  c_closed c' = FDone.
Proof.
  intros HS. apply step_cases in HS. destruct HS; rewrite ?closed_set_sub; auto.
  destruct Hsc; auto.
Qed.

Lemma step_closed_nn fx c e c' : step fx c e = Some c' -> c_closed c <> FNone -> c_closed c' <> FNone.
Proof. intros HS H. destruct (step_closed _ _ _ _ HS) as [-> | [[H1 _] | ->]]; congruence. Qed.

Lemma step_closed_done fx c e c' : step fx c e = Some c' -> c_closed c = FDone -> c_closed c' = FDone.
Proof. intros HS H. destruct (step_closed _ _ _ _ HS) as [-> | [[H1 _] | ->]]; congruence. Qed.

Lemma run_closed_done fx evs c c' : run fx c evs = Some c' -> c_closed c = FDone -> c_closed c' = FDone.
Proof.
  intros HR H. revert H HR. apply (run_inv fx (fun c => c_closed c = FDone)).
  intros c0 e c1 H HS. exact (step_closed_done _ _ _ _ HS H).
Qed.

Lemma measure_zero c : inv c -> c_closed c <> FNone -> measure c = 0 -> c_closed c = FDone.
Proof.
  intros (_ & HB & _) Hn Hm. unfold measure in Hm. unfold fut_ok in HB.
  destruct (c_main c) as [[[id todo] s]|].
  - destruct todo; lia.
  - destruct (c_closed c); congruence.
Qed.

Lemma terminates evs : forall c c',
  Inv c -> c_closed c <> FNone -> run true c evs = Some c' ->
  measure c <= helped true c evs -> c_closed c' = FDone.
Proof.
  induction evs as [|e evs IH]; intros c c' HI Hn HR Hm; cbn [run helped] in *.
  - injection HR as <-. apply measure_zero; [exact (proj1 HI)|exact Hn|lia].
  - destruct (step true c e) as [c1|] eqn:HS; [|discriminate].
    destruct (step_measure _ _ _ HS Hn (inv_wfA _ (proj1 HI))) as [Hle Hlt].
    apply (IH c1 c'); [eapply Inv_step; eauto|eapply step_closed_nn; eauto|exact HR|].
    destruct (helps c e); [specialize (Hlt eq_refl); lia|lia].
Qed.

(* the measure is linear in the size of the connection *)
Lemma sum_cost_app a b : sum_cost (a ++ b) = sum_cost a + sum_cost b.
Proof. unfold sum_cost. induction a as [|o a IH]; cbn [app fold_right]; [reflexivity|]. rewrite IH. lia. Qed.
Lemma sum_cost_flat_map {A} (f : A -> list op) n l :
  (forall a, sum_cost (f a) = n) -> sum_cost (flat_map f l) = length l * n.
Proof.
  intros H. induction l as [|a l IH]; cbn [flat_map length Nat.mul]; [reflexivity|].
  rewrite sum_cost_app, H, IH. reflexivity.
Qed.

Lemma residual_le_cost c o s : residual c o s <= op_cost o.
Proof. destruct s; try (apply Nat.lt_le_incl, residual_lt_cost; discriminate). apply Nat.le_refl. Qed.

Lemma measure_close_call c id :
  measure (mkCfg (c_trx c) (c_tps c) (c_sctp c) FPending (Some (id, plan c, SIdle)) (c_waiters c) true)
  <= 20 * length (c_trx c) + 10.
Proof.
  unfold measure. cbn [c_main].
  assert (H : sum_cost (plan c) <= 20 * length (c_trx c) + 9).
  { unfold plan. rewrite !sum_cost_app, plan_trx_seq, plan_tps_map.
    rewrite (sum_cost_flat_map _ 13), (sum_cost_flat_map _ 7), seq_length, map_length by reflexivity.
    destruct (c_sctp c); unfold sum_cost; cbn; lia. }
  destruct (plan c) as [|o todo] eqn:Ep; [lia|].
  cbn [residual]. unfold sum_cost in *. cbn [fold_right] in H. lia.
Qed.

Lemma second_close_call fx c id :
  c_closed c <> FNone ->
  step fx c (ECloseCall id) =
  Some (mkCfg (c_trx c) (c_tps c) (c_sctp c) (c_closed c) (c_main c) (id :: c_waiters c) (c_sig_closed c)).
Proof. intros H. cbn [step]. destruct (c_closed c); congruence. Qed.

Lemma filter_notin id l : ~ In id l -> filter (fun x => negb (Nat.eqb id x)) l = l.
Proof.
  induction l as [|y l IH]; cbn [filter In]; intros H; [reflexivity|].
  destruct (Nat.eqb_spec id y) as [->|Hne]; [exfalso; auto|]. cbn. rewrite IH; auto.
Qed.

Lemma second_close_ret fx c id :
  c_closed c = FDone -> c_main c = None -> ~ In id (c_waiters c) ->
  step fx (mkCfg (c_trx c) (c_tps c) (c_sctp c) (c_closed c) (c_main c) (id :: c_waiters c) (c_sig_closed c))
       (ECloseRet id) = Some c.
Proof.
  intros Hd Hm Hni. cbn [step c_main c_closed c_waiters]. rewrite Hm, Hd. cbn [existsb].
  rewrite Nat.eqb_refl. cbn [orb filter negb]. rewrite filter_notin by exact Hni.
  destruct c; cbn in *; subst; rewrite ?Nat.eqb_refl; reflexivity.
Qed.

Lemma done_main c : inv c -> c_closed c = FDone -> c_main c = None.
Proof. intros (_ & HB & _) Hd. unfold fut_ok in HB. destruct (c_main c); [congruence|reflexivity]. Qed.

Lemma closed_quiet c :
  Inv c -> c_closed c = FDone ->
  c_sig_closed c = true /\
  (forall i x, nth_error (c_trx c) i = Some x ->
     squiet (t_s x) /\ rquiet (t_r x) /\
     forall tp, nth_error (c_tps c) (t_tp x) = Some tp -> iquiet tp) /\
  (forall sc, c_sctp c = Some sc ->
     scquiet sc /\ forall tp, nth_error (c_tps c) (sc_tp sc) = Some tp -> iquiet tp).
Proof.
  intros [HI HW] Hd. pose proof (done_main _ HI Hd) as Hm.
  destruct HI as (HA & HB & HC & HD & HE).
  assert (Hn : c_closed c <> FNone) by congruence.
  destruct (HE Hn) as [Hs Hp]. split; [exact Hs|].
  assert (Hpost : forall o, In o (plan c) -> post c o).
  { intros o Ho. destruct (Hp o Ho) as [Hin|H]; [|exact H]. unfold todo_of in Hin. rewrite Hm in Hin. destruct Hin. }
  split.
  - intros i x Hx. assert (Hi : i < length (c_trx c)) by (apply nth_error_Some; congruence).
    split; [|split].
    + apply (Hpost (OSendStop i)); [apply in_plan, Hi|exact Hx].
    + apply (Hpost (ORecvStop i)); [apply in_plan, Hi|exact Hx].
    + apply (Hpost (OIceStop (t_tp x))), in_plan. left. apply in_map. exact (nth_error_In _ _ Hx).
  - intros sc Hsc. split.
    + apply (Hpost OSctpStop); [apply in_plan; congruence|exact Hsc].
    + apply (Hpost (OIceStop (sc_tp sc))), in_plan. right. rewrite Hsc. reflexivity.
Qed.

Lemma not_none_some {A} (o : option A) : o <> None -> exists x, o = Some x.
Proof. destruct o; [eauto|congruence]. Qed.

Lemma not_started a : started_set a = false -> a <> TNone -> a = TCreated.
Proof. destruct a; cbn; congruence. Qed.

(* close() is never stuck: while it has not returned, the close() coroutine itself or the party it
   is waiting for has an enabled step *)
Lemma progress c :
  Inv c -> c_main c <> None -> exists e c', helps c e = true /\ step true c e = Some c'.
Proof.
  intros [HI HW] Hm. pose proof HI as (HA & HB & HC & HD & HE).
  destruct (c_main c) as [[[id todo] s]|] eqn:Em; [|congruence]. clear Hm.
  unfold main_ok in HC. rewrite Em in HC.
  destruct todo as [|o todo].
  { subst s. exists (ECloseRet id). eexists. split; [unfold helps; rewrite Em; apply Nat.eqb_refl|].
    cbn [step]. rewrite Em, Nat.eqb_refl. reflexivity. }
  destruct HC as [[Hv Hp] Hf]. pose proof (main_head _ _ _ _ _ Em) as Hh.
  assert (Hret : stop_ret c o s = true -> exists e c', helps c e = true /\ step true c e = Some c').
  { intros Hr. exists (EStopRet o). eexists. split; [unfold helps; rewrite Em; reflexivity|].
    cbn [step]. rewrite Hh, op_eqb_refl, Hr. cbn [andb]. unfold pop_main. rewrite Em. reflexivity. }
  assert (Hcall : s = SIdle -> exists e c', helps c e = true /\ step true c e = Some c').
  { intros ->. exists (EStopCall o).
    assert (Hs : exists c', stop_call true c o = Some c').
    { unfold stop_call. destruct o; cbn [op_valid] in Hv; apply not_none_some in Hv; destruct Hv as [y Hy]; rewrite Hy; eauto.
      - destruct (r_started (t_r y)); eauto.
      - destruct (i_state y); eauto. }
    destruct Hs as [c' Hs]. exists c'. split; [unfold helps; rewrite Em; reflexivity|].
    cbn [step]. rewrite Hh, op_eqb_refl. exact Hs. }
  destruct o; cbn [op_valid] in Hv; apply not_none_some in Hv; destruct Hv as [x Hx].
  - specialize (Hp x Hx). destruct (HA _ _ Hx) as (_ & _ & R1 & _).
    destruct s; cbn [recv_pc] in Hp; try contradiction; try (apply Hcall; reflexivity).
    + apply Hret. reflexivity.
    + destruct Hp as (P1 & P2 & P3). destruct (started_set (r_rtcp (t_r x))) eqn:Es.
      * exists (ECancel KRRtcp i). eexists. split; [unfold helps; rewrite Em; reflexivity|].
        cbn [step]. unfold do_cancel. rewrite Hh, Nat.eqb_refl, Hx, Es. reflexivity.
      * exists (ETaskBegin KRRtcp i). eexists. split; [unfold helps; rewrite Em; cbn; apply Nat.eqb_refl|].
        cbn [step]. rewrite Hx, (not_started _ Es (R1 P1)). reflexivity.
    + destruct Hp as ([P1|P1] & P2 & P3).
      * exists (ETaskEnd KRRtcp i true). eexists. split; [unfold helps; rewrite Em; cbn; apply Nat.eqb_refl|].
        cbn [step]. rewrite Hx, P1. reflexivity.
      * apply Hret. cbn. rewrite Hx, P1. reflexivity.
  - specialize (Hp x Hx). destruct (HA _ _ Hx) as (_ & S1 & _).
    destruct s; cbn [send_pc] in Hp; try contradiction; try (apply Hcall; reflexivity).
    + apply Hret. reflexivity.
    + destruct (S1 Hp) as [N1 N2].
      destruct (started_set (s_rtp (t_s x))) eqn:Es1; [destruct (started_set (s_rtcp (t_s x))) eqn:Es2|].
      * exists (ECancel KSRtp i). eexists. split; [unfold helps; rewrite Em; reflexivity|].
        cbn [step]. unfold do_cancel. rewrite Hh, Nat.eqb_refl, Hx, Es1, Es2. reflexivity.
      * exists (ETaskBegin KSRtcp i). eexists. split; [unfold helps; rewrite Em; cbn; apply Nat.eqb_refl|].
        cbn [step]. rewrite Hx, (not_started _ Es2 N2). reflexivity.
      * exists (ETaskBegin KSRtp i). eexists. split; [unfold helps; rewrite Em; cbn; apply Nat.eqb_refl|].
        cbn [step]. rewrite Hx, (not_started _ Es1 N1). reflexivity.
    + exists (ECancel KSRtcp i). eexists. split; [unfold helps; rewrite Em; reflexivity|].
      cbn [step]. unfold do_cancel. rewrite Hh, Nat.eqb_refl, Hx. reflexivity.
    + destruct Hp as ([P1|P1] & Hp); [|destruct Hp as [P2|P2]].
      * exists (ETaskEnd KSRtp i true). eexists. split; [unfold helps; rewrite Em; cbn; apply Nat.eqb_refl|].
        cbn [step]. rewrite Hx, P1. reflexivity.
      * exists (ETaskEnd KSRtcp i true). eexists. split; [unfold helps; rewrite Em; cbn; apply Nat.eqb_refl|].
        cbn [step]. rewrite Hx, P2. reflexivity.
      * apply Hret. cbn. rewrite Hx, P1, P2. reflexivity.
  - specialize (Hp x Hx). destruct s; cbn [sctp_pc] in Hp; try contradiction; try (apply Hcall; reflexivity).
    apply Hret. reflexivity.
  - destruct s; cbn [dtls_pc] in Hp; try contradiction; try (apply Hcall; reflexivity).
    + apply Hret. reflexivity.
    + exists (ECancel KPump t). eexists. split; [unfold helps; rewrite Em; reflexivity|].
      cbn [step]. unfold do_cancel. rewrite Hh, Nat.eqb_refl, Hx. reflexivity.
  - specialize (Hp x Hx). destruct s; cbn [ice_pc] in Hp; try contradiction; try (apply Hcall; reflexivity).
    + apply Hret. reflexivity.
    + exists (EIceConnClosed t). eexists. split; [unfold helps; rewrite Em; reflexivity|].
      cbn [step]. rewrite Hh, Nat.eqb_refl, Hx. reflexivity.
    + destruct Hp as [P1 P2]. pose proof (HD t x Hx P1) as [_ Hor]. rewrite Hh in Hor.
      destruct Hor as [Hxx|(Q1 & Q2 & _)]; [discriminate|].
      destruct (i_mon x) eqn:Emon; try congruence.
      * exists (EMonEnd t). eexists. split; [unfold helps; rewrite Em; apply Nat.eqb_refl|].
        cbn [step]. rewrite Hx, Emon, Q1. reflexivity.
      * apply Hret. cbn. rewrite Hx, Emon. reflexivity.
Qed.
