(* C01: ordered delivery at the transport level.  The messages a run of DATA arrivals
   delivers on one stream are what the stream automaton of SctpOrderP delivers on the
   chunks the transport ACCEPTED for that stream; accepted chunks are distinct
   (SctpDupP); hence they are a prefix of the messages sent on that stream. *)
From Coq Require Import ZArith List Bool Lia.
From AV Require Import Lib.Bytes Gen.Utils Gen.SctpConst Model.SctpRecv Proof.SctpRecvP Proof.SctpC01P Proof.SctpDupP Proof.SctpOrderP.
Import ListNotations.
Local Open Scope Z_scope.

(* the chunk an event inserts into a reassembly queue, if any *)
Definition accepts_chunk (s : rstate) (e : revent) : option chunk :=
  match e with
  | EvData c =>
      let s0 := mkR (last_rx s) (misordered s) (duplicates s) (streams s) (rwnd s) true in
      if far_ahead s0 (tsn c) then None
      else if snd (mark_received s0 (tsn c)) then None else Some c
  | EvFwd _ _ => None
  end.

Fixpoint accepted_chunks (s : rstate) (es : list revent) : list chunk :=
  match es with
  | [] => []
  | e :: es' => match accepts_chunk s e with Some c => [c] | None => [] end ++ accepted_chunks (fst (rstep s e)) es'
  end.

Lemma accepts_chunk_admitted s e : match accepts_chunk s e with Some c => [c] | None => [] end = admitted s e.
Proof.
  destruct e as [c|]; [|reflexivity]. cbn [accepts_chunk admitted]. unfold admits.
  destruct (far_ahead _ _); [reflexivity|]. destruct (snd _); reflexivity.
Qed.

Lemma accepted_chunks_tsn : forall es s, map tsn (accepted_chunks s es) = accepted s es.
Proof.
  induction es as [|e es IH]; intros s; cbn [accepted_chunks accepted]; [reflexivity|].
  rewrite map_app, IH. f_equal. destruct e as [c|]; cbn [accepts_chunk accepts]; [|reflexivity].
  destruct (far_ahead _ _); [reflexivity|]. destruct (snd _); reflexivity.
Qed.

(* messages delivered by the steps whose chunk belongs to stream st *)
Definition step_msgs (st : Z) (e : revent) (o : rout) : list message :=
  match e, o with
  | EvData c, OutOk ms _ => if Z.eqb (sid c) st then ms else []
  | _, _ => []
  end.
Fixpoint msgs_on (st : Z) (s : rstate) (es : list revent) : list message :=
  match es with
  | [] => []
  | e :: es' => step_msgs st e (snd (rstep s e)) ++ msgs_on st (fst (rstep s e)) es'
  end.

Definition on_stream (st : Z) (c : chunk) : bool := Z.eqb (sid c) st.

(* one DATA event seen from stream st: what the stream delivers on the chunks accepted from here on
   begins with what this step hands over for st *)
Lemma srun_rstep st s c cs out : snd (rstep s (EvData c)) <> OutAssert ->
  srun (reasm (get_stream (streams (fst (rstep s (EvData c)))) st))
       (sseq_expected (get_stream (streams (fst (rstep s (EvData c)))) st)) cs = Some out ->
  srun (reasm (get_stream (streams s) st)) (sseq_expected (get_stream (streams s) st))
       (filter (on_stream st) (match accepts_chunk s (EvData c) with Some c' => [c'] | None => [] end) ++ cs)
  = Some (step_msgs st (EvData c) (snd (rstep s (EvData c))) ++ out).
Proof.
  rewrite accepts_chunk_admitted. cbn [rstep admitted]. rewrite receive_data_eq. cbv zeta. destruct (admits s c).
  - destruct (add_chunk (reasm (get_stream (streams s) (sid c))) c) as [l|] eqn:Ea; [|cbn [fst snd]; intros H; now destruct H].
    destruct (pop_messages l (sseq_expected (get_stream (streams s) (sid c)))) as [[l2 seq2] ms] eqn:Ep.
    intros _. cbn [make_sack fst snd streams step_msgs filter]. unfold on_stream.
    destruct (Z.eqb_spec (sid c) st) as [<-|Hne]; cbn [app].
    + rewrite get_set_same. cbn [reasm sseq_expected srun]. rewrite Ea, Ep. intros ->. reflexivity.
    + rewrite get_set_other by congruence. exact (fun H => H).
  - intros _. cbn [make_sack fst snd streams step_msgs filter app].
    destruct (far_ahead _ _); [|rewrite mark_received_streams]; destruct (sid c =? st); exact (fun H => H).
Qed.

Section Transport.
Variable base N : Z.
Hypothesis Hbase : r32 base.
Hypothesis HN : 0 <= N < 2147483648.

Theorem stream_of_transport st : forall es s, inv base N s -> Forall (data_ev base N) es ->
  srun (reasm (get_stream (streams s) st)) (sseq_expected (get_stream (streams s) st))
       (filter (on_stream st) (accepted_chunks s es)) = Some (msgs_on st s es).
Proof.
  induction es as [|e es IH]; intros s Hinv Hes; cbn [accepted_chunks msgs_on filter srun]; [reflexivity|].
  pose proof (Forall_inv Hes) as He. destruct e as [c|]; [|destruct He].
  destruct (rstep_data_inv base N Hbase HN s c Hinv He) as (H1 & H2 & _). rewrite filter_app.
  apply (srun_rstep st s c _ _ H2). exact (IH _ H1 (Forall_inv_tail Hes)).
Qed.

Lemma accepted_chunks_nodup es s : inv base N s -> Forall (data_ev base N) es -> NoDup (accepted_chunks s es).
Proof.
  intros Hinv Hes. apply (NoDup_map_inv tsn). rewrite accepted_chunks_tsn. now apply (accepted_nodup base N Hbase HN).
Qed.

Lemma accepted_chunks_in : forall es s c, In c (accepted_chunks s es) -> In (EvData c) es.
Proof.
  induction es as [|e es IH]; intros s c; cbn [accepted_chunks]; [intros []|].
  rewrite in_app_iff. intros [H|H]; [|right; eapply IH; eauto].
  destruct e as [c'|]; cbn [accepts_chunk] in H; [|destruct H].
  destruct (far_ahead _ _); [destruct H|]. destruct (snd _); [destruct H|]. destruct H as [<-|[]]. now left.
Qed.

(* the chunks a fresh transport accepts for stream st: distinct, among the DATA chunks that arrived for
   st, and the stream run on them delivers what the transport delivers on st *)
Lemma accepted_on_stream st es : Forall (data_ev base N) es ->
  let cs := filter (on_stream st) (accepted_chunks (rinit base) es) in
  NoDup cs /\ (forall c, In c cs -> In (EvData c) es /\ sid c = st) /\ srun [] 0 cs = Some (msgs_on st (rinit base) es).
Proof.
  intros Hes cs. pose proof (inv_rinit base N Hbase HN) as Hi. split; [|split].
  - apply NoDup_filter. exact (accepted_chunks_nodup es _ Hi Hes).
  - intros c Hc. apply filter_In in Hc as [Hc Ho]. split; [exact (accepted_chunks_in es _ c Hc)|now apply Z.eqb_eq in Ho].
  - exact (stream_of_transport st es (rinit base) Hi Hes).
Qed.

(* ORDERED DELIVERY.  M: the fragment lists of the messages sent on ordered stream st, in
   sending order (hypothesis wfM: what the sender's numbering guarantees).  For every
   list of DATA arrivals within the TSN window whose chunks on stream st are chunks of
   M -- in any order, repeated or missing at will -- the messages the transport hands
   over on stream st are exactly the first n messages of M, in order, each once. *)
Theorem transport_ordered_prefix (M : list (list chunk)) (o : nat -> Z) (s0 : Z) (st : Z) :
  (forall j f, nth_error M j = Some f ->
     f <> [] /\ o j + Z.of_nat (length f) <= o (S j) /\ forall i c, nth_error f i = Some c -> chunk_ok base N o s0 j i f c) ->
  forall es, Forall (data_ev base N) es ->
  (forall c, In (EvData c) es -> sid c = st -> exists j i, at_ M j i c) ->
  swin M [] (ssn s0 0) 0 (filter (on_stream st) (accepted_chunks (rinit base) es)) ->
  ssn s0 0 = 0 ->
  exists n, msgs_on st (rinit base) es = map msgf (firstn n M).
Proof.
  intros wfM es Hes Hlab Hw Hs0. destruct (accepted_on_stream st es Hes) as (Hnd & Hin & E).
  destruct (ordered_prefix base N Hbase HN M o s0 wfM _ Hnd) as (n & En).
  - intros c Hc. destruct (Hin c Hc) as [H1 H2]. exact (Hlab c H1 H2).
  - exact Hw.
  - rewrite Hs0, E in En. injection En as ->. eauto.
Qed.
End Transport.
