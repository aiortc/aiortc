(* C13: nothing is ever queued for a closed data channel -- for every input list -- so flush,
   which only sends what is queued, hands the association nothing on its behalf.  Closing (stream
   reset answered, local close, end of the association) drops what the channel still had queued,
   and nothing is queued afterwards. *)
From Coq Require Import ZArith List Bool Lia Arith.
From AV Require Import Lib.Bytes Gen.Utils Gen.SctpConst Model.Chan Proof.ChanP.
Import ListNotations.
Local Open Scope Z_scope.

Definition bad (s : st) (it : nat * Z * bytes) : Prop := In it (queue s) /\ ch_state (getc s (fst (fst it))) = Closed.
Definition qstep (s s' : st) : Prop := forall it, bad s' it -> bad s it.

Lemma qstep_refl s : qstep s s. Proof. intros it H. exact H. Qed.
Lemma qstep_trans s s1 s2 : qstep s s1 -> qstep s1 s2 -> qstep s s2.
Proof. intros A B it H. apply A, B, H. Qed.

Lemma qstep_frame s s' :
  (forall it, In it (queue s') -> In it (queue s)) ->
  (forall h, ch_state (getc s' h) = ch_state (getc s h)) -> qstep s s'.
Proof. intros Q G it [Hin Hc]. split; [now apply Q|now rewrite <- G]. Qed.

Lemma qstep_set_ready s h r : r <> Closed -> qstep s (fst (set_ready s h r)).
Proof.
  intros Hr it [Hin Hc]. rewrite set_ready_queue in Hin. split; [exact Hin|].
  rewrite set_ready_fst, getc_setc in Hc. destruct (_ && _)%bool; [contradiction|exact Hc].
Qed.

Lemma qstep_enqueue s h pp d : ch_state (getc s h) <> Closed -> qstep s (set_queue s (queue s ++ [(h, pp, d)])).
Proof.
  intros Hl it [Hin Hc]. apply in_app_or in Hin as [Hin|[<-|[]]]; [split; assumption|]. now destruct Hl.
Qed.

Lemma in_purge s h it : In it (queue (purge s h)) -> In it (queue s) /\ fst (fst it) <> h.
Proof. intros Hin. apply filter_In in Hin as [Hin Hb]. split; [exact Hin|]. now destruct (Nat.eqb_spec (fst (fst it)) h). Qed.

Lemma qstep_close s h t' : qstep s (set_table (purge (fst (set_ready s h Closed)) h) t').
Proof.
  intros it [Hin Hc]. apply in_purge in Hin as [Hin Hne]. rewrite set_ready_queue in Hin. split; [exact Hin|].
  rewrite <- Hc. symmetry. apply f_equal, set_ready_other. congruence.
Qed.

Lemma qstep_chan_closed s i : qstep s (fst (chan_closed s i)).
Proof.
  destruct (tget (table s) i) as [h|] eqn:E; [rewrite (chan_closed_eq s i h E); apply qstep_close|].
  unfold chan_closed. rewrite E. apply qstep_refl.
Qed.

Lemma qstep_close_local s h id : qstep s (fst (close_local s h id)).
Proof.
  rewrite close_local_eq. destruct id as [i|]; [destruct (tget (table s) i)|].
  - apply qstep_close.
  - apply qstep_frame; [apply in_purge|reflexivity].
  - exact (qstep_close s h (table s)).
Qed.

Lemma qstep_new_chan s c : ch_state c <> Closed -> qstep s (new_chan s c (queue s)).
Proof. intros Hc it [Hin Hcl]. split; [exact Hin|]. rewrite getc_new_chan in Hcl. now destruct (Nat.eqb _ _). Qed.

Lemma qstep_new_chan_enqueue s c pp d : ch_state c <> Closed ->
  qstep s (new_chan s c (queue s ++ [(length (chans s), pp, d)])).
Proof.
  intros Hc. eapply qstep_trans; [apply (qstep_new_chan s c Hc)|].
  refine (qstep_enqueue (new_chan s c (queue s)) _ _ _ _). now rewrite getc_new_chan, Nat.eqb_refl.
Qed.

Lemma qstep_create s neg id ordered maxrt maxlt label proto :
  qstep s (fst (create s neg id ordered maxrt maxlt label proto)).
Proof.
  rewrite create_eq. cbv zeta. destruct (match id with Some i => _ | None => false end); [apply qstep_refl|].
  destruct neg; [destruct (established s)|]; cbn [fst].
  - eapply qstep_trans; [|now apply qstep_set_ready]. apply qstep_new_chan. discriminate.
  - apply qstep_new_chan. discriminate.
  - apply qstep_new_chan_enqueue. discriminate.
Qed.

Lemma qstep_app_send s h pp data : qstep s (fst (app_send s h pp data)).
Proof.
  unfold app_send. destruct (rstate_eqb (ch_state (getc s h)) Open) eqn:E; [|apply qstep_refl]. apply rstate_eqb_eq in E.
  unfold add_buffered. cbn [negb fst]. eapply qstep_trans; [|apply qstep_enqueue].
  - apply qstep_frame; [auto|]. now apply state_setc.
  - rewrite state_setc, E by reflexivity. discriminate.
Qed.

Theorem qstep_step s i : qstep s (fst (step s i)).
Proof.
  apply (walk_step (fun s0 _ s' => qstep s0 s') (fun _ => True)).
  - exact qstep_refl.
  - intros s0 _ s1 _ s2. apply qstep_trans.
  - intros s0 evs s' Ec _ Eq _ _. apply qstep_frame; [now rewrite Eq|]. intros h. unfold getc. now rewrite Ec.
  - intros s0 h r _. apply qstep_set_ready.
  - intros s0 h _ _. apply qstep_close_local.
  - exact qstep_chan_closed.
  - intros s0 h pp data q' Eq. apply qstep_frame.
    + rewrite flush_one_set_queue, Eq. now right.
    + intros x. unfold flush_one, assign_id, send_one, add_buffered. change (getc (set_queue s0 q') h) with (getc s0 h).
      destruct (ch_id (getc s0 h)), (pp =? WEBRTC_DCEP); cbn [fst]; rewrite ?state_setc; reflexivity.
  - intros s0 neg id ordered maxrt maxlt label proto _. apply qstep_create.
  - intros s0 h pp data _ _. apply qstep_app_send.
  - intros s0 h v. apply qstep_frame; [auto|]. now apply state_setc.
  - intros s0 sidv c _ Hid Hc _. rewrite (accept_open_eq _ _ _ Hid).
    eapply qstep_trans; [|now apply qstep_set_ready]. apply qstep_new_chan_enqueue. now rewrite Hc.
  - intros s0 it [Hin _]. unfold set_closed in Hin. now rewrite (pair_eta (closed_streams _ _)), (pair_eta (close_queued _ _)) in Hin.
  - exact I.
Qed.

Theorem qstep_run : forall is s, qstep s (fst (run s is)).
Proof.
  induction is as [|i is IH]; intros s; [apply qstep_refl|]. rewrite run_cons.
  exact (qstep_trans _ _ _ (qstep_step s i) (IH _)).
Qed.

(* for every input list: no message is queued for a closed channel *)
Theorem closed_nothing_queued r q is : forall h pp d,
  In (h, pp, d) (queue (fst (run (init r q) is))) -> ch_state (getc (fst (run (init r q) is)) h) <> Closed.
Proof. intros h pp d Hin Hc. now destruct (qstep_run is (init r q) (h, pp, d) (conj Hin Hc)). Qed.

(* the stream reset is answered: whatever the channel still had queued is gone *)
Lemma chan_closed_purges s i h : tget (table s) i = Some h ->
  forall it, In it (queue (fst (chan_closed s i))) -> fst (fst it) <> h.
Proof. intros Et it Hin. rewrite (chan_closed_eq s i h Et) in Hin. apply (in_purge _ h it Hin). Qed.

Definition send_of (e : event) : bool := match e with EvSend _ _ _ _ _ _ => true | _ => false end.

(* the statement is not vacuous: a reachable state with a closed channel and a non-empty queue -
   two channels are created before the association is up, the first is closed at once: its OPEN is
   dropped, the other's stays queued *)
Example purge_example :
  let s := fst (run (init 1 100) [ICreate false None true None None [] []; ICreate false None true None None [] [];
                                  IClose 0 false]) in
  ch_state (getc s 0) = Closed /\ map (fun it => fst (fst it)) (queue s) = [1%nat].
Proof. vm_compute. split; reflexivity. Qed.
