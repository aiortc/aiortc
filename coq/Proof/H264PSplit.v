(* H264Encoder._split_bitstream inverts joining NAL units with 3- or 4-byte
   start codes, for units that contain no 00 00 01 and do not end in 00
   (what emulation prevention guarantees).  T+ part of C16. *)
From Coq Require Import ZArith List Bool Lia.
From AV Require Import Lib.Bytes Lib.BytesP Lib.CodecX Lib.CodecXP Model.H264.
Import ListNotations.
Local Open Scope Z_scope.

(* (true, n) = unit n preceded by the 4-byte start code, (false, n) = by the 3-byte one *)
Definition join (units : list (bool * bytes)%type) : bytes :=
  concat (map (fun u : (bool * bytes)%type => (if fst u then [0; 0; 0; 1] else [0; 0; 1]) ++ snd u) units).

Fixpoint no_sc (l : bytes) : bool :=
  match l with
  | [] => true
  | _ :: tl => negb (starts_sc l) && no_sc tl
  end.

(* no 00 00 01 inside, non-empty, last byte not 00 *)
Definition clean_unit (n : bytes) : Prop := no_sc n = true /\ last n 0 <> 0.

Lemma clean_tail x n' : n' <> [] -> clean_unit (x :: n') -> clean_unit n'.
Proof.
  intros Hne [H1 H2]. cbn [no_sc] in H1. apply andb_true_iff in H1. split; [tauto|].
  destruct n' as [|y n'']; [congruence|]. exact H2.
Qed.

Lemma clean_head x n' tail : clean_unit (x :: n') -> starts_sc (x :: n' ++ tail) = false.
Proof.
  intros [H1 H2]. cbn [no_sc] in H1. apply andb_true_iff in H1. destruct H1 as [H1 _].
  apply negb_true_iff in H1.
  destruct n' as [|y [|z n'']].
  - cbn [last] in H2. cbn [app]. destruct tail as [|b [|c t]]; cbn [starts_sc]; try reflexivity.
    apply Z.eqb_neq in H2. now rewrite H2.
  - cbn [last] in H2. cbn [app]. destruct tail as [|c t]; cbn [starts_sc]; try reflexivity.
    apply Z.eqb_neq in H2. rewrite H2. now rewrite andb_false_r.
  - exact H1.
Qed.

Lemma find_from_clean : forall n tail idx,
  clean_unit n -> find_from (n ++ tail) idx = find_from tail (idx + len n).
Proof.
  induction n as [|x n' IH]; intros tail idx Hc.
  - destruct Hc as [_ H]. cbn in H. congruence.
  - cbn [app find_from]. rewrite (clean_head x n' tail Hc), len_cons.
    destruct n' as [|y n''].
    + reflexivity.
    + rewrite IH by (apply (clean_tail x); [discriminate | exact Hc]). f_equal. lia.
Qed.

Lemma find_sc_in buf pre tail i :
  buf = pre ++ tail -> i = len pre -> find_sc buf i = find_from tail i.
Proof.
  intros -> ->. unfold find_sc.
  rewrite (proj2 (Z.ltb_ge _ _)) by (rewrite len_app; pose proof (len_nonneg tail); lia).
  replace (Z.to_nat (len pre)) with (length pre) by (unfold len; lia).
  rewrite skipn_app, skipn_all, Nat.sub_diag. reflexivity.
Qed.

Lemma find_from_sc3 tl idx : find_from (0 :: 0 :: 1 :: tl) idx = Some idx.
Proof. reflexivity. Qed.
Lemma find_from_sc4 tl idx : find_from (0 :: 0 :: 0 :: 1 :: tl) idx = Some (idx + 1).
Proof. reflexivity. Qed.

Lemma join_cons b n rest :
  join ((b, n) :: rest) = (if b then [0] else []) ++ [0; 0; 1] ++ n ++ join rest.
Proof. unfold join. cbn [map concat fst snd]. destruct b; cbn [app]; now rewrite <- ?app_assoc. Qed.

(* the two searches of one round: from i the start code of unit n is found
   after the optional extra zero z, and from behind it nothing is found inside n *)
Lemma find_unit buf pre z n tail i :
  buf = pre ++ z ++ [0; 0; 1] ++ n ++ tail -> i = len pre -> (z = [] \/ z = [0]) -> clean_unit n ->
  find_sc buf i = Some (i + len z) /\
  find_sc buf (i + len z + 3) = find_from tail (i + len z + 3 + len n).
Proof.
  intros Hbuf Hi Hz Hn. split.
  - rewrite (find_sc_in buf pre _ i Hbuf Hi).
    destruct Hz as [-> | ->]; [change (len []) with 0; rewrite Z.add_0_r|]; reflexivity.
  - rewrite (find_sc_in buf (pre ++ z ++ [0; 0; 1]) (n ++ tail)).
    + apply find_from_clean, Hn.
    + rewrite Hbuf, <- !app_assoc. reflexivity.
    + rewrite !len_app. change (len [0; 0; 1]) with 3. lia.
Qed.

(* loop invariant: i points at (or, for a 4-byte code, one before) the start code
   of unit n; the loop yields n and then the remaining units *)
Lemma split_loop_inv : forall fuel buf pre z n rest i,
  buf = pre ++ z ++ [0; 0; 1] ++ n ++ join rest -> i = len pre -> (z = [] \/ z = [0]) ->
  clean_unit n -> Forall clean_unit (map snd rest) -> (length rest < fuel)%nat ->
  split_loop fuel buf i = Ok (n :: map snd rest).
Proof.
  induction fuel as [|f IH]; intros buf pre z n rest i Hbuf Hi Hz Hn Hrest Hfuel; [lia|].
  cbn [split_loop].
  destruct (find_unit buf pre z n (join rest) i Hbuf Hi Hz Hn) as [-> ->].
  set (P := pre ++ z ++ [0; 0; 1]).
  assert (HbufP : buf = P ++ n ++ join rest) by (unfold P; rewrite Hbuf, <- !app_assoc; reflexivity).
  assert (HP : i + len z + 3 = len P)
    by (unfold P; rewrite !len_app; change (len [0; 0; 1]) with 3; lia).
  rewrite HP. clear Hbuf Hi HP.
  destruct rest as [|[b n2] rest].
  - cbn [join map concat find_from].
    rewrite (pyslice_mid buf P n []); [reflexivity | exact HbufP | reflexivity |].
    rewrite HbufP, !len_app. change (len (join [])) with 0. lia.
  - cbn [map snd length] in Hrest, Hfuel. inversion Hrest as [|? ? Hn2 Hrest']; subst x l.
    rewrite join_cons in *. destruct b; cbn [app] in *.
    + (* 4-byte start code: found one byte late, buf[i-1] = 0 *)
      rewrite find_from_sc4.
      rewrite (pyidx_in buf (P ++ n) 0 (0 :: 0 :: 1 :: n2 ++ join rest));
        [| rewrite HbufP, <- app_assoc; reflexivity | rewrite len_app; lia].
      cbn [Z.eqb].
      rewrite (pyslice_mid buf P n _ _ _ HbufP eq_refl) by lia.
      rewrite (IH buf (P ++ n ++ [0]) [] n2 rest); [reflexivity | | | now left | assumption | assumption | lia].
      * rewrite HbufP, <- !app_assoc. reflexivity.
      * rewrite !len_app. change (len [0]) with 1. lia.
    + (* 3-byte start code: buf[i-1] is the unit's last byte, not 0 *)
      rewrite find_from_sc3.
      destruct Hn as [_ Hlast].
      assert (Hne : n <> []) by (intros ->; cbn in Hlast; congruence).
      destruct (exists_last Hne) as [n0 [x Hn0]].
      assert (Hx : x <> 0) by (rewrite Hn0, last_last in Hlast; exact Hlast).
      rewrite (pyidx_in buf (P ++ n0) x (0 :: 0 :: 1 :: n2 ++ join rest)).
      * rewrite (proj2 (Z.eqb_neq x 0) Hx).
        rewrite (pyslice_mid buf P n _ _ _ HbufP eq_refl) by lia.
        rewrite (IH buf (P ++ n) [] n2 rest); [reflexivity | | | now left | assumption | assumption | lia].
        -- rewrite HbufP, <- !app_assoc. reflexivity.
        -- rewrite !len_app. lia.
      * rewrite HbufP, Hn0, <- !app_assoc. reflexivity.
      * rewrite Hn0, !len_app. change (len [x]) with 1. lia.
Qed.

Lemma join_length units : (length units <= length (join units))%nat.
Proof.
  induction units as [|[b n] rest IH]; [cbn; lia|].
  rewrite join_cons, !app_length. cbn [length]. lia.
Qed.

(* the fuel S (length buf) always suffices, no exception, and the units come back *)
Theorem split_join : forall units,
  Forall clean_unit (map snd units) ->
  split_bitstream (join units) = Ok (map snd units).
Proof.
  intros units Hc. unfold split_bitstream.
  destruct units as [|[b n] rest]; [reflexivity|].
  cbn [map snd] in *. inversion Hc as [|? ? Hn Hrest]; subst.
  pose proof (join_length ((b, n) :: rest)) as Hlen. cbn [length] in Hlen.
  rewrite join_cons in *.
  apply (split_loop_inv _ _ [] (if b then [0] else []) n rest); try assumption; [reflexivity | reflexivity | destruct b; auto |].
  rewrite !app_length in *. cbn [length] in *. lia.
Qed.
