(* Proofs about Model/Stats.v, part 4 (for C17): the statistics do not depend on the origin
   of the sequence numbers (mod 2^16) nor on the origin of the RTP timestamps (mod 2^32). *)
From Coq Require Import ZArith List Bool Lia.
From AV Require Import Lib.Bytes Lib.BytesP Gen.Utils Gen.RtpConst Model.Stats
  Proof.SerialP Proof.StatsP Proof.StatsRunP.
Import ListNotations.
Local Open Scope Z_scope.

Definition ev_ok2 (e : ev) : Prop :=
  match e with
  | Rtp seq ts _ => 0 <= seq < 65536 /\ 0 <= ts < 4294967296
  | _ => True
  end.

Definition shift_ev (d16 d32 : Z) (e : ev) : ev :=
  match e with
  | Rtp seq ts arr => Rtp (uint16_add seq d16) (uint32_add ts d32) arr
  | _ => e
  end.

(* by how much the first sequence number moves (d16 mod 2^16, or that minus 2^16) *)
Definition shift_of (d16 : Z) (h : list pkt) : Z :=
  match h with [] => 0 | p :: _ => uint16_add (p_seq p) d16 - p_seq p end.

Definition info_shifted (k : Z) (i i' : rinfo) : Prop :=
  ri_ssrc i' = ri_ssrc i /\ ri_fraction i' = ri_fraction i /\ ri_lost i' = ri_lost i /\
  ri_highest i' = (ri_highest i + k) mod 4294967296 /\
  ri_jitter i' = ri_jitter i /\ ri_lsr i' = ri_lsr i /\ ri_dlsr i' = ri_dlsr i.

Definition out_shifted (k : Z) (o o' : out) : Prop :=
  match o, o' with
  | ONone, ONone => True
  | ONoReport, ONoReport => True
  | OProbe v, OProbe v' => v = v' /\ v <> Crash     (* expected, lost, jitter, received *)
  | OReport i _, OReport i' _ => info_shifted k i i'
  | _, _ => False
  end.

Lemma step16_shift a m d : (uint16_add a d - uint16_add m d) mod 65536 = (a - m) mod 65536.
Proof. rewrite !uint16_add_mod, <- Zminus_mod. f_equal. lia. Qed.

(* the cycle counter of the shifted object (which starts from c + m + k - m') is bumped so
   that it stays that far from the original one *)
Lemma cycles_shift c k a m d :
  (if uint16_add a d <? uint16_add m d
   then c + m + k - uint16_add m d + 65536 else c + m + k - uint16_add m d)
  = c + m + (a - m) mod 65536 + k - uint16_add a d.
Proof.
  pose proof (wrap_step (c + m + k - uint16_add m d) _ _ (uint16_add_range a d) (uint16_add_range m d)) as H.
  rewrite step16_shift in H. lia.
Qed.

Lemma eqb_shift a b d : in32 a -> in32 b -> (uint32_add a d =? uint32_add b d) = (a =? b).
Proof. unfold in32. intros Ha Hb. rewrite !uint32_add_mod. lia. Qed.

Lemma new_jit_shift J la lt ts arr d :
  in32 lt -> in32 ts ->
  new_jit J la (uint32_add lt d) (uint32_add ts d) arr = new_jit J la lt ts arr.
Proof.
  intros Hlt Hts. unfold new_jit, dist32. rewrite eqb_shift by assumption.
  replace ((arr - la - (uint32_add ts d - uint32_add lt d)) mod 4294967296)
    with ((arr - la - (ts - lt)) mod 4294967296); [reflexivity|].
  rewrite !uint32_add_mod. lia.
Qed.

(* s' is s with the first and the extended highest sequence number moved by k, the wire value
   of the highest by d16 and the last timestamp by d32 *)
Definition sim_stats (k d16 d32 : Z) (s s' : stats) : Prop :=
  exists b m la lt,
    est s b m la lt /\ in32 lt /\
    s' = mkStats (Some (b + k)) (Some (uint16_add m d16)) (cycles s + m + k - uint16_add m d16)
                 (packets_received s) (jitter_q4 s) (Some la) (Some (uint32_add lt d32))
                 (expected_prior s) (received_prior s).

Definition sim (k d16 d32 : Z) (r r' : recv) : Prop :=
  lsr r' = lsr r /\ lsr_time r' = lsr_time r /\
  match stream r, stream r' with
  | None, None => True
  | Some s, Some s' => sim_stats k d16 d32 s s'
  | _, _ => False
  end.

(* before the first packet, k must be the shift of the first packet to come *)
Definition kfix (k d16 : Z) (r : recv) (evs : list ev) : Prop :=
  stream r = None -> match pkts evs with [] => True | p :: _ => k = uint16_add (p_seq p) d16 - p_seq p end.

Lemma step_sim S rs k d16 d32 r r' e evs :
  sim k d16 d32 r r' -> ev_ok2 e -> kfix k d16 r (e :: evs) ->
  sim k d16 d32 (fst (step S rs r e)) (fst (step S rs r' (shift_ev d16 d32 e))) /\
  out_shifted k (snd (step S rs r e)) (snd (step S rs r' (shift_ev d16 d32 e))) /\
  kfix k d16 (fst (step S rs r e)) evs.
Proof.
  intros (Hl & Hlt & Hst) Hok Hk.
  destruct e as [seq ts arr|ssrc ntp now|now|]; cbn [shift_ev].
  - destruct Hok as [Hseq Hts].
    destruct (stream r) as [s|] eqn:Hs; destruct (stream r') as [s'|] eqn:Hs'; try contradiction.
    + destruct Hst as (b & m & la & lt & He & Rlt & ->).
      destruct (add_est s b m la lt seq ts arr He Hseq) as (s1 & Ha & He1 & Hr1 & Hep1 & Hrp1 & Hc1 & Hj1).
      pose proof (e_recv He) as Hn. pose proof (e_m He) as Rm.
      cbn [step]. rewrite Hs, Ha, Hs', add_mk by lia.
      rewrite cycles_shift, uint16_gt_shift by assumption. cbn [fst snd out_shifted].
      split; [|split; [exact I|intros Hn0; discriminate Hn0]].
      split; [exact Hl|]. split; [exact Hlt|]. cbn [stream].
      destruct (uint16_gt seq m).
      * exists b, seq, arr, ts. split; [exact He1|]. split; [exact Hts|].
        rewrite Hr1, Hep1, Hrp1, Hj1, new_jit_shift by assumption. f_equal. lia.
      * exists b, m, la, lt. split; [exact He1|]. split; [exact Rlt|].
        rewrite Hr1, Hep1, Hrp1, Hj1. f_equal. lia.
    + cbn [step]. rewrite Hs, Hs', !add_init. cbn [fst snd out_shifted].
      split; [|split; [exact I|intros Hn; discriminate Hn]].
      split; [exact Hl|]. split; [exact Hlt|]. cbn [stream].
      specialize (Hk Hs). cbn [pkts p_seq fst] in Hk.
      exists seq, seq, arr, ts. split; [apply est_first; exact Hseq|]. split; [exact Hts|].
      proj. replace (seq + k) with (uint16_add seq d16) by lia. f_equal. lia.
  - cbn [step]. destruct (ssrc =? S); cbn [fst snd out_shifted].
    + split; [|split; [exact I|exact Hk]]. split; [reflexivity|]. split; [reflexivity|]. exact Hst.
    + split; [|split; [exact I|exact Hk]]. split; [exact Hl|]. split; [exact Hlt|]. exact Hst.
  - destruct (stream r) as [s|] eqn:Hs; destruct (stream r') as [s'|] eqn:Hs'; try contradiction.
    + destruct Hst as (b & m & la & lt & He & Rlt & ->). cbn [step].
      rewrite (report_some S rs r s b m now Hs (e_base He) (e_max He)).
      rewrite (report_some S rs r' _ (b + k) (uint16_add m d16) now Hs' eq_refl eq_refl).
      unfold report_info, with_priors. proj. cbn [fst snd out_shifted].
      replace (lsr_dlsr r' now) with (lsr_dlsr r now) by (unfold lsr_dlsr; rewrite Hl, Hlt; reflexivity).
      replace (cycles s + m + k - uint16_add m d16 + uint16_add m d16 - (b + k) + 1)
        with (cycles s + m - b + 1) by lia.
      split; [|split].
      * split; [exact Hl|]. split; [exact Hlt|]. cbn [stream].
        exists b, m, la, lt. split; [exact (est_with_priors _ _ _ _ _ He)|]. split; [exact Rlt|]. reflexivity.
      * unfold info_shifted. cbn [ri_ssrc ri_fraction ri_lost ri_highest ri_jitter ri_lsr ri_dlsr].
        split; [reflexivity|]. split; [reflexivity|]. split; [reflexivity|].
        split; [|repeat split; reflexivity].
        rewrite Zplus_mod_idemp_l. f_equal. lia.
      * intros Hn. discriminate Hn.
    + cbn [step]. unfold report. rewrite Hs, Hs'. cbn [fst snd out_shifted].
      split; [|split; [exact I|exact Hk]]. split; [exact Hl|]. split; [exact Hlt|]. rewrite Hs, Hs'. exact I.
  - cbn [step fst snd]. split; [split; [exact Hl|split; [exact Hlt|exact Hst]]|]. split; [|exact Hk].
    unfold probe. destruct (stream r) as [s|] eqn:Hs; destruct (stream r') as [s'|] eqn:Hs'; try contradiction.
    + destruct Hst as (b & m & la & lt & He & Rlt & E).
      rewrite (packets_expected_some s b m (e_base He) (e_max He)), (packets_lost_some s b m (e_base He) (e_max He)).
      rewrite (packets_expected_some s' (b + k) (uint16_add m d16)),
              (packets_lost_some s' (b + k) (uint16_add m d16)) by (rewrite E; reflexivity).
      unfold jitter. rewrite E. proj.
      replace (cycles s + m + k - uint16_add m d16 + uint16_add m d16 - (b + k) + 1)
        with (cycles s + m - b + 1) by lia.
      cbn [out_shifted]. split; [reflexivity|discriminate].
    + cbn [out_shifted]. split; [reflexivity|discriminate].
Qed.

Lemma run_sim S rs k d16 d32 : forall evs r r',
  sim k d16 d32 r r' -> Forall ev_ok2 evs -> kfix k d16 r evs ->
  Forall2 (out_shifted k) (snd (run S rs r evs)) (snd (run S rs r' (map (shift_ev d16 d32) evs))).
Proof.
  induction evs as [|e evs IH]; intros r r' Hsim Hok Hk; [constructor|].
  inversion Hok as [|? ? Hok1 Hok2]; subst. cbn [map]. rewrite !run_cons_snd.
  destruct (step_sim S rs k d16 d32 r r' e evs Hsim Hok1 Hk) as (Hsim1 & Hout & Hk1).
  constructor; [exact Hout|]. apply IH; assumption.
Qed.

Lemma shift_main S rs d16 d32 evs :
  Forall ev_ok2 evs ->
  Forall2 (out_shifted (shift_of d16 (pkts evs)))
          (snd (run S rs recv0 evs))
          (snd (run S rs recv0 (map (shift_ev d16 d32) evs))).
Proof.
  intros Hok. apply run_sim; [|exact Hok|].
  - split; [reflexivity|]. split; [reflexivity|]. exact I.
  - intros _. unfold shift_of. destruct (pkts evs); [exact I|reflexivity].
Qed.

Lemma shift_of_values d16 h :
  Forall (fun p => 0 <= p_seq p < 65536) h -> h <> [] ->
  shift_of d16 h = d16 mod 65536 \/ shift_of d16 h = d16 mod 65536 - 65536.
Proof.
  intros Hh Hne. destruct h as [|p l]; [contradiction|]. inversion Hh; subst.
  unfold shift_of. rewrite uint16_add_mod. lia.
Qed.
