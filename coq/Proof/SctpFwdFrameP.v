(* C06: what a FORWARD-TSN does to the streams it does not name: nothing but pruning chunks at or
   below its cumulative TSN.  Their expected sequence number is untouched, nothing is delivered
   from them, and a stream whose queued chunks all lie beyond the cumulative TSN is untouched. *)
From Coq Require Import ZArith List Bool Lia.
From AV Require Import Lib.Bytes Gen.Utils Gen.SctpConst Model.SctpRecv Proof.SctpPopP Proof.SctpRecvP Proof.SctpC01P Proof.SctpOrderTP.
Import ListNotations.
Local Open Scope Z_scope.

Definition named (strs : list (Z * Z)) (id : Z) : Prop := In id (map fst strs).

Lemma poll_other g : forall l strs id, ~ named l id -> get_stream (fst (poll g strs l)) id = get_stream strs id.
Proof.
  induction l as [|[k sq] l IH]; intros strs id Hn; cbn [poll]; [reflexivity|].
  destruct (pop_messages _ _) as [[l2 seq2] ms].
  rewrite (surjective_pairing (poll g (set_stream strs k (mkStream l2 seq2)) l)). cbn [fst].
  rewrite IH by (intros H; apply Hn; right; exact H).
  apply get_set_other. intros E. apply Hn. left. cbn. congruence.
Qed.

Lemma prune_all_get t : forall strs id,
  get_stream (fst (prune_all strs t)) id =
  mkStream (fst (prune_chunks (reasm (get_stream strs id)) t)) (sseq_expected (get_stream strs id)).
Proof.
  induction strs as [|[k v] strs IH]; intros id; cbn [prune_all get_stream]; [reflexivity|].
  destruct (prune_chunks (reasm v) t) as [r size] eqn:Ep.
  rewrite (surjective_pairing (prune_all strs t)). cbn [fst get_stream].
  destruct (id =? k); [now rewrite Ep|apply IH].
Qed.

(* chunks beyond the cumulative TSN at the head of a queue stop the pruning *)
Lemma prune_chunks_nothing l t : match l with c :: _ => uint32_gte t (tsn c) = false | [] => True end ->
  fst (prune_chunks l t) = l.
Proof. destruct l as [|c l]; [reflexivity|]. intros H. cbn [prune_chunks]. now rewrite H. Qed.

Lemma prune_chunks_only_old l t : forall x, In x l -> ~ In x (fst (prune_chunks l t)) -> uint32_gte t (tsn x) = true.
Proof.
  induction l as [|c l IH]; intros x Hx Hn; [destruct Hx|]. cbn [prune_chunks] in Hn.
  destruct (uint32_gte t (tsn c)) eqn:G.
  - rewrite (surjective_pairing (prune_chunks l t)) in Hn. cbn [fst] in Hn. destruct Hx as [<-|Hx]; [exact G|].
    apply IH; [exact Hx|exact Hn].
  - cbn [fst] in Hn. contradiction.
Qed.

Theorem forward_tsn_other_streams s cum strs id : ~ named strs id ->
  let s' := fst (receive_forward_tsn s cum strs) in
  let st := get_stream (streams s) id in
  let st' := get_stream (streams s') id in
  sseq_expected st' = sseq_expected st /\
  (reasm st' = reasm st \/ reasm st' = fst (prune_chunks (reasm st) cum)) /\
  (forall x, In x (reasm st) -> ~ In x (reasm st') -> uint32_gte cum (tsn x) = true).
Proof.
  intros Hn. cbv zeta. unfold receive_forward_tsn. cbn [last_rx misordered duplicates streams rwnd sack_needed].
  destruct (uint32_gte (last_rx s) cum).
  { cbn [fst streams]. split; [reflexivity|]. split; [now left|]. intros x Hx Hnx. contradiction. }
  rewrite fwd_streams_poll. pose proof (poll_other fwd_seq strs (streams s) id Hn) as E1.
  destruct (poll fwd_seq (streams s) strs) as [strs2 ms]. cbn [fst] in E1.
  pose proof (prune_all_get cum strs2 id) as E2.
  destruct (prune_all strs2 cum) as [strs3 pruned]. cbn [fst] in E2.
  rewrite repop_streams_poll. pose proof (poll_other (fun st _ => sseq_expected st) strs strs3 id Hn) as E3.
  destruct (poll _ strs3 strs) as [strs4 ms']. cbn [fst streams] in *.
  rewrite E3, E2, E1. cbn [sseq_expected reasm]. split; [reflexivity|]. split; [now right|].
  intros x Hx Hnx. eapply prune_chunks_only_old; eauto.
Qed.
