(* C17: reconfiguration sequence numbers.  The data-channel layer (Model/Chan.v) uses the
   RE-CONFIG request / response sequence numbers only to number its own requests (tsn_plus_one),
   to match a response with the pending request (equality) and to remember the peer's last
   request.  Shifting this endpoint's request numbering by any k1 and the peer's by any k2
   (mod 2^32) - so that either wraps during the session - leaves every other event and the
   whole remaining state unchanged. *)
From Coq Require Import ZArith List Bool.
From AV Require Import Lib.Bytes Gen.Utils Gen.SctpConst Model.Chan Proof.ChanP.
Import ListNotations.
Local Open Scope Z_scope.

(* replace the three sequence-number carrying fields *)
Definition put (s : st) (rq : option (Z * list Z)) (a b : Z) : st :=
  mkSt (established s) (dc_id s) (chans s) (table s) (queue s) (rq_queue s) rq a b.

Definition plain (e : event) : bool :=
  match e with EvReconfigRequest _ _ | EvReconfigResponse _ => false | _ => true end.
Definition plains (l : list event) : Prop := forallb plain l = true.

Lemma plains_app a b : plains a -> plains b -> plains (a ++ b).
Proof. unfold plains. intros. rewrite forallb_app. now rewrite H, H0. Qed.
Lemma plains_nil : plains []. Proof. reflexivity. Qed.

(* p' is p with the three fields replaced, and p emits no RE-CONFIG event.  In a goal p is the
   syntactic side: `apply` reads the state off it and checks p', where the state is often only
   convertible to a `put`, by conversion. *)
Definition same rq a b (p p' : st * list event) : Prop := (put (fst p) rq a b, snd p) = p' /\ plains (snd p).

(* f neither reads nor writes the three fields *)
Definition obl (f : st -> st * list event) : Prop := forall rq a b s, same rq a b (f s) (f (put s rq a b)).

Lemma same_ret rq a b s l : plains l -> same rq a b (s, l) (put s rq a b, l).
Proof. intros H. split; [reflexivity|exact H]. Qed.

Lemma obl_ret l : plains l -> obl (fun s => (s, l)).
Proof. intros H rq a b s. now apply same_ret. Qed.

Lemma obl_let g (k : st -> list event -> st * list event) rq a b s :
  obl g -> (forall s1 e1, plains e1 -> same rq a b (k s1 e1) (k (put s1 rq a b) e1)) ->
  same rq a b (let '(s1, e1) := g s in k s1 e1) (let '(s1, e1) := g (put s rq a b) in k s1 e1).
Proof.
  intros Hg Hk. destruct (Hg rq a b s) as [E P1]. rewrite <- E. destruct (g s) as [s1 e1]. now apply Hk.
Qed.

Lemma same_app rq a b p p' e : plains e -> same rq a b p p' ->
  same rq a b (let '(s2, e2) := p in (s2, e ++ e2)) (let '(s2, e2) := p' in (s2, e ++ e2)).
Proof. intros Pe [<- P]. destruct p as [s2 e2]. split; [reflexivity|now apply plains_app]. Qed.

Lemma obl_bind f g : obl f -> obl g ->
  obl (fun s => let '(s1, e1) := f s in let '(s2, e2) := g s1 in (s2, e1 ++ e2)).
Proof.
  intros Hf Hg rq a b s. apply (obl_let f); [exact Hf|]. intros s1 e1 P1. apply same_app; [exact P1|apply Hg].
Qed.

Lemma obl_guard (c : st -> bool) f :
  (forall rq a b s, c (put s rq a b) = c s) -> obl f -> obl (fun s => if c s then f s else (s, [])).
Proof. intros Hc Hf rq a b s. rewrite Hc. destruct (c s); [apply Hf|now apply same_ret]. Qed.

Lemma obl_set_ready h r : obl (fun s => set_ready s h r).
Proof.
  intros rq a b s. unfold set_ready. change (getc (put s rq a b) h) with (getc s h).
  destruct (rstate_eqb (ch_state (getc s h)) r); apply same_ret; [reflexivity|destruct r; reflexivity].
Qed.

Lemma obl_add_buffered h n : obl (fun s => add_buffered s h n).
Proof. intros rq a b s. apply same_ret. destruct (_ && _); reflexivity. Qed.

Lemma obl_chan_closed i : obl (fun s => chan_closed s i).
Proof.
  intros rq a b s. unfold chan_closed. simpl table.
  destruct (tget (table s) i); [apply obl_set_ready|now apply same_ret].
Qed.

Lemma obl_closed_streams strs : obl (fun s => closed_streams s strs).
Proof. induction strs as [|i strs IH]; [exact (obl_ret [] plains_nil)|]. exact (obl_bind _ _ (obl_chan_closed i) IH). Qed.

Lemma obl_close_queued q : obl (fun s => close_queued s q).
Proof.
  induction q as [|[[h pp] data] q IH]; [exact (obl_ret [] plains_nil)|]. exact (obl_bind _ _ (obl_set_ready h Closed) IH).
Qed.

Lemma obl_close_local h id : obl (fun s => close_local s h id).
Proof.
  intros rq a b s. unfold close_local. cbv zeta. destruct id as [i|]; [|apply obl_set_ready].
  simpl table. destruct (tget (table s) i); [apply obl_set_ready|now apply same_ret].
Qed.

Lemma obl_close_body h hs : obl (fun s => close_body s h hs).
Proof.
  intros rq a b s. unfold close_body. apply (obl_let (fun s => set_ready s h Closing)); [apply obl_set_ready|].
  intros s1 e1 P1. simpl established. change (getc (put s rq a b) h) with (getc s h).
  destruct (established s1 || hs), (ch_id (getc s h)) as [i|].
  2-4: apply same_app; [exact P1|apply obl_close_local].
  apply same_ret. apply plains_app; [exact P1|]. destruct (Nat.eqb _ 1); reflexivity.
Qed.

Lemma obl_chan_close h hs : obl (fun s => chan_close s h hs).
Proof.
  intros rq a b s. unfold chan_close. change (getc (put s rq a b) h) with (getc s h).
  destruct (ch_state (getc s h)); try (now apply same_ret); apply obl_close_body.
Qed.

Lemma obl_reset_streams strs : obl (fun s => reset_streams s strs).
Proof.
  induction strs as [|i strs IH]; [exact (obl_ret [] plains_nil)|]. refine (obl_bind _ _ _ IH).
  intros rq a b s. simpl table. destruct (tget (table s) i); [apply obl_chan_close|now apply same_ret].
Qed.

Lemma obl_open_negotiated t : obl (fun s => open_negotiated s t).
Proof.
  induction t as [|[k h] t IH]; [exact (obl_ret [] plains_nil)|].
  refine (obl_bind _ _ (obl_guard _ _ _ (obl_set_ready h Open)) IH). reflexivity.
Qed.

Lemma obl_set_established : obl set_established.
Proof.
  intros rq a b s. unfold set_established. cbv zeta.
  apply (obl_let (fun s0 => open_negotiated s0 (table s))); [apply obl_open_negotiated|]. intros s1 e1 P1.
  simpl rq_queue. apply same_ret. apply plains_app; [exact P1|]. destruct (rq_queue s1); reflexivity.
Qed.

Lemma obl_set_closed : obl set_closed.
Proof.
  intros rq a b s. unfold set_closed. cbv zeta.
  apply (obl_let (fun s0 => closed_streams s0 (map fst (table s)))); [apply obl_closed_streams|]. intros s1 e1 P1.
  simpl queue. apply (obl_let (fun s2 => close_queued s2 (queue s1))); [apply obl_close_queued|]. intros s2 e2 P2.
  apply same_ret. now apply plains_app.
Qed.

Lemma obl_app_send h pp data : obl (fun s => app_send s h pp data).
Proof.
  intros rq a b s. unfold app_send. change (getc (put s rq a b) h) with (getc s h).
  destruct (negb _); [now apply same_ret|].
  apply (obl_let (fun s => add_buffered s h (len data))); [apply obl_add_buffered|]. intros s1 e1 P1.
  apply same_ret. now apply plains_app.
Qed.

Lemma obl_create neg id ordered maxrt maxlt label proto : obl (fun s => create s neg id ordered maxrt maxlt label proto).
Proof.
  intros rq a b s. rewrite !create_eq. cbv zeta. simpl table. simpl established.
  destruct (match id with Some i => _ | None => false end); [now apply same_ret|].
  destruct neg; [destruct (established s)|]; [apply obl_set_ready|now apply same_ret|now apply same_ret].
Qed.

Lemma obl_recv_user sidv pp data ok : obl (fun s => recv_user s sidv pp data ok).
Proof.
  intros rq a b s. unfold recv_user. simpl table. destruct (tget (table s) sidv); [|now apply same_ret].
  destruct (Z.eqb pp WEBRTC_STRING); [apply same_ret; now destruct ok|].
  destruct (Z.eqb pp WEBRTC_STRING_EMPTY); [now apply same_ret|].
  destruct (Z.eqb pp WEBRTC_BINARY); [now apply same_ret|].
  destruct (Z.eqb pp WEBRTC_BINARY_EMPTY); now apply same_ret.
Qed.

Lemma obl_send_one i h pp data : obl (fun s => send_one s i h pp data).
Proof.
  intros rq a b s. unfold send_one, add_buffered. change (getc (put s rq a b) h) with (getc s h).
  destruct (pp =? WEBRTC_DCEP); apply same_ret; [reflexivity|now destruct (_ && _)].
Qed.

Lemma obl_flush_one h pp data : obl (fun s => flush_one s h pp data).
Proof.
  intros rq a b s. unfold flush_one, assign_id. change (getc (put s rq a b) h) with (getc s h). simpl table. simpl dc_id.
  destruct (ch_id (getc s h)); apply obl_send_one.
Qed.

Lemma obl_flush_loop fuel : forall oracle, obl (fun s => flush_loop fuel s oracle).
Proof.
  induction fuel as [|f IH]; intros oracle rq a b s; [now apply same_ret|]. rewrite !flush_loop_S. simpl queue.
  destruct (queue s) as [|[[h pp] data] q']; [now apply same_ret|].
  apply (obl_let (fun s1 => flush_one s1 h pp data)); [apply obl_flush_one|]. intros s3 evs P3.
  destruct (match oracle with b0 :: _ => b0 | [] => false end); [now apply same_ret|]. apply same_app; [exact P3|apply IH].
Qed.

Lemma obl_flush oracle : obl (fun s => flush s oracle).
Proof.
  intros rq a b s. unfold flush. simpl established. simpl queue.
  destruct (established s && _); [apply obl_flush_loop|now apply same_ret].
Qed.

Lemma obl_recv_dcep sidv data ok oracle : obl (fun s => recv_dcep s sidv data ok oracle).
Proof.
  intros rq a b s. unfold recv_dcep. destruct data as [|m data']; [now apply same_ret|]. simpl table.
  destruct (Z.eqb m DATA_CHANNEL_OPEN && (12 <=? len (m :: data'))).
  - destruct (tget (table s) sidv); [now apply same_ret|].
    destruct (dcep_parse_open (m :: data')) as [p|]; [|now apply same_ret].
    destruct (negb ok); [now apply same_ret|]. unfold add_chan. cbv beta iota zeta.
    simpl chans.
    apply (obl_let (fun s1 => set_ready s1 (length (chans s)) Open)); [apply obl_set_ready|]. intros s2 e1 P1.
    simpl table. simpl queue.
    apply (obl_let (fun s4 => flush s4 oracle)); [apply obl_flush|]. intros s5 e2 P2.
    apply same_ret. apply plains_app; [exact P1|]. now apply plains_app.
  - destruct (Z.eqb m DATA_CHANNEL_ACK); [|now apply same_ret].
    destruct (tget (table s) sidv) as [h|]; [|now apply same_ret].
    change (getc (put s rq a b) h) with (getc s h).
    destruct (rstate_eqb (ch_state (getc s h)) Connecting); [apply obl_set_ready|now apply same_ret].
Qed.

(* the inputs whose handling involves the sequence numbers *)
Definition numbered (i : input) : bool :=
  match i with ITransmitReconfig | IResetRequest _ _ | IResetResponse _ => true | _ => false end.

Lemma obl_step i : numbered i = false -> obl (fun s => step s i).
Proof.
  destruct i; intros N; try discriminate N; cbn [step].
  - apply obl_create.
  - refine (obl_guard _ _ _ (obl_app_send h pp data)). reflexivity.
  - refine (obl_guard _ _ _ (obl_chan_close h hs)). reflexivity.
  - refine (obl_guard _ (fun s => (setc s h (with_thr (getc s h) v), [])) _ _); [reflexivity|]. intros rq a b s. now apply same_ret.
  - apply obl_flush.
  - exact obl_set_established.
  - exact obl_set_closed.
  - intros rq a b s. destruct (Z.eqb pp WEBRTC_DCEP); [apply obl_recv_dcep|apply obl_recv_user].
  - intros rq a b s. now apply same_ret.
Qed.

Definition r32 (x : Z) : Prop := 0 <= x < 4294967296.

Section Shift.
Variables k1 k2 : Z.
Definition sh1 (x : Z) : Z := (x + k1) mod 4294967296.
Definition sh2 (x : Z) : Z := (x + k2) mod 4294967296.

Definition shq (s : st) : st :=
  put s (option_map (fun p => (sh1 (fst p), snd p)) (rq_request s)) (sh1 (rq_req_seq s)) (sh2 (rq_resp_seq s)).
Definition she (e : event) : event :=
  match e with
  | EvReconfigRequest q l => EvReconfigRequest (sh1 q) l
  | EvReconfigResponse q => EvReconfigResponse (sh2 q)
  | e => e
  end.
Definition shi (i : input) : input :=
  match i with
  | IResetRequest q l => IResetRequest (sh2 q) l
  | IResetResponse q => IResetResponse (sh1 q)
  | i => i
  end.
Definition sok (s : st) : Prop :=
  r32 (rq_req_seq s) /\ match rq_request s with Some (q, _) => r32 q | None => True end.
(* a response's sequence number is a 32-bit wire field *)
Definition iok (i : input) : Prop := match i with IResetResponse q => r32 q | _ => True end.

Lemma plains_she l : plains l -> map she l = l.
Proof.
  induction l as [|e l IH]; intros H; [reflexivity|]. unfold plains in H. cbn [forallb] in H.
  apply andb_true_iff in H as [He Hl]. cbn [map]. rewrite (IH Hl). destruct e; try reflexivity; discriminate.
Qed.

Lemma put_own s : put s (rq_request s) (rq_req_seq s) (rq_resp_seq s) = s.
Proof. destruct s; reflexivity. Qed.

(* p is the syntactic side, as in `same` *)
Definition shifted (p p' : st * list event) : Prop := (shq (fst p), map she (snd p)) = p' /\ sok (fst p).
Definition sim (f g : st -> st * list event) : Prop := forall s, sok s -> shifted (f s) (g (shq s)).

Lemma shifted_app p p' e : shifted p p' ->
  shifted (let '(s2, e2) := p in (s2, e ++ e2)) (let '(s2, e2) := p' in (s2, map she e ++ e2)).
Proof. intros [<- O]. destruct p as [s2 e2]. split; [cbn [fst snd]; now rewrite map_app|exact O]. Qed.

Lemma obl_sim f : obl f -> sim f f.
Proof.
  intros H s Hs. destruct (H (rq_request s) (rq_req_seq s) (rq_resp_seq s) s) as [E Pl]. rewrite put_own in E.
  unfold shifted, shq at 2. rewrite <- (proj1 (H _ _ _ s)), (plains_she _ Pl). rewrite <- E. split; [reflexivity|exact Hs].
Qed.

Lemma sh1_plus x : tsn_plus_one (sh1 x) = sh1 (tsn_plus_one x).
Proof. unfold tsn_plus_one, sh1, SCTP_TSN_MODULO. rewrite !Zplus_mod_idemp_l. f_equal. ring. Qed.

(* subtracting k1 again undoes the shift of a 32-bit number *)
Lemma sh1_eqb x y : r32 x -> r32 y -> (sh1 x =? sh1 y) = (x =? y).
Proof.
  intros Hx Hy. destruct (Z.eqb_spec x y) as [->|N]; [apply Z.eqb_refl|]. apply Z.eqb_neq. intros E. apply N.
  apply (f_equal (fun z => (z - k1) mod 4294967296)) in E. unfold sh1 in E.
  rewrite !Zminus_mod_idemp_l, !Z.add_simpl_r, !Z.mod_small in E by assumption. exact E.
Qed.

Lemma sim_transmit_reconfig : sim transmit_reconfig transmit_reconfig.
Proof.
  intros s Hs. unfold transmit_reconfig. simpl rq_request. simpl established. simpl rq_queue.
  destruct (rq_request s) as [[q l]|]; [split; [reflexivity|exact Hs]|]. cbn [option_map].
  destruct (established s && negb (Nat.eqb (length (rq_queue s)) 0)); [|split; [reflexivity|exact Hs]].
  split; [|split; [apply Z.mod_pos_bound; reflexivity|exact (proj1 Hs)]]. cbn [fst snd map she]. unfold shq, put. cbn. now rewrite sh1_plus.
Qed.

Lemma shq_put s rq a b : shq (put s rq a b) = put s (option_map (fun p => (sh1 (fst p), snd p)) rq) (sh1 a) (sh2 b).
Proof. reflexivity. Qed.

Lemma sim_recv_reset_request q strs :
  sim (fun s => recv_reset_request s q strs) (fun s => recv_reset_request s (sh2 q) strs).
Proof.
  intros s Hs. unfold recv_reset_request. destruct (obl_sim _ (obl_reset_streams strs) s Hs) as [E O]. rewrite <- E.
  destruct (reset_streams s strs) as [s1 e]. split; [|exact O]. cbn [fst snd]. now rewrite map_app.
Qed.

Lemma sim_recv_reset_response q : r32 q ->
  sim (fun s => recv_reset_response s q) (fun s => recv_reset_response s (sh1 q)).
Proof.
  intros Hq s Hs. unfold recv_reset_response. simpl rq_request.
  destruct (rq_request s) as [[rs strs]|] eqn:Er; [|split; [reflexivity|exact Hs]]. cbn [option_map fst snd].
  rewrite sh1_eqb; [|exact Hq|destruct Hs as [_ B]; now rewrite Er in B].
  destruct (q =? rs); [|split; [reflexivity|exact Hs]].
  destruct (obl_sim _ (obl_closed_streams strs) s Hs) as [E O]. rewrite <- E.
  destruct (closed_streams s strs) as [s1 e1]. cbn [fst snd] in *.
  apply shifted_app, sim_transmit_reconfig. split; [exact (proj1 O)|exact I].
Qed.

Theorem step_shift i : iok i -> sim (fun s => step s i) (fun s => step s (shi i)).
Proof.
  intros Hi. destruct (numbered i) eqn:N.
  2:{ replace (shi i) with i by (destruct i; try reflexivity; discriminate N). apply obl_sim, obl_step, N. }
  intros s Hs. destruct i; try discriminate N; cbn [step shi]; simpl established.
  - apply sim_transmit_reconfig, Hs.
  - destruct (established s); [apply sim_recv_reset_request, Hs|split; [reflexivity|exact Hs]].
  - destruct (established s); [apply sim_recv_reset_response; [exact Hi|exact Hs]|split; [reflexivity|exact Hs]].
Qed.

Theorem run_shift : forall is s, sok s -> Forall iok is ->
  run (shq s) (map shi is) = (shq (fst (run s is)), map (map she) (snd (run s is))).
Proof.
  induction is as [|i is IH]; intros s Hs Hi; [reflexivity|]. inversion Hi as [|? ? H1 H2]; subst.
  cbn [map run]. destruct (step_shift i H1 s Hs) as [E O]. rewrite <- E.
  destruct (step s i) as [s1 e]. cbn [fst snd] in *. rewrite (IH _ O H2). now destruct (run s1 is).
Qed.
End Shift.

(* a fresh endpoint whose first request will be numbered q0, whose peer's last request was p0 *)
Definition init_at (role q0 p0 : Z) : st := put (init role q0) None q0 p0.

Theorem reconfig_seq_origin_independent k1 k2 role q0 p0 is : r32 q0 -> Forall iok is ->
  run (init_at role (sh1 k1 q0) (sh2 k2 p0)) (map (shi k1 k2) is) =
  (shq k1 k2 (fst (run (init_at role q0 p0) is)), map (map (she k1 k2)) (snd (run (init_at role q0 p0) is))).
Proof.
  intros Hq Hi. change (init_at role (sh1 k1 q0) (sh2 k2 p0)) with (shq k1 k2 (init_at role q0 p0)).
  apply run_shift; [split; [exact Hq|exact I]|exact Hi].
Qed.
