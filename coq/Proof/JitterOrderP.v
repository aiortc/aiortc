(* Proofs about Model/Jitter.v, part 4 (T+).  Order: as long as the reset branch of add() is never
   taken (no packet arrives MAX_MISORDER or more positions behind the origin), released frames occupy
   disjoint, strictly increasing intervals of UNWRAPPED stream positions (positions counted from
   the first arrival without reduction modulo 2^16): the origin only moves forward.  No reuse: in
   every history the released frames' packets, those still held and those discarded are a
   permutation of the arrivals.  At the end, a boolean checker for the lateness hypothesis. *)
From Coq Require Import ZArith List Bool Lia.
From AV Require Import Lib.Sx Lib.Bytes Gen.Utils Gen.JbConst Model.Jitter Proof.JitterP Proof.JitterInvP.
Import ListNotations.
Local Open Scope Z_scope.

Definition run_at (base S : Z) (ps : list pkt) : Prop :=
  forall j q, nth_error ps j = Some q -> pseq q = uint16_add base (S + Z.of_nat j).

Definition released (outs : list out) : list frame :=
  flat_map (fun o => match snd o with Some f => [f] | None => [] end) outs.

Fixpoint ordered_from (base lo : Z) (fs : list frame) : Prop :=
  match fs with
  | [] => True
  | f :: fs' => exists S ps, lo <= S /\ frame_of ps f /\ run_at base S ps /\
                             ordered_from base (S + Z.of_nat (length ps)) fs'
  end.

Lemma ordered_from_mono base lo lo' fs : lo' <= lo -> ordered_from base lo fs -> ordered_from base lo' fs.
Proof.
  intros Hle H. destruct fs as [|f fs]; [exact I|]. cbn [ordered_from] in *.
  destruct H as (S & ps & H1 & H2). exists S, ps. split; [lia|exact H2].
Qed.

(* the reset condition of add(), lines 40-41 *)
Definition late_at (o : option Z) (p : pkt) : Prop :=
  match o with
  | Some o => uint16_add o (- pseq p) < uint16_add (pseq p) (- o) /\ MAX_MISORDER <= uint16_add o (- pseq p)
  | None => False
  end.

Definition step_pos (base U : Z) (r : jb * out) : Prop :=
  exists U', U <= U' /\ origin (fst r) = Some (uint16_add base U') /\
    match snd (snd r) with
    | None => True
    | Some f => exists S ps, U <= S /\ frame_of ps f /\ run_at base S ps /\ U' = S + Z.of_nat (length ps)
    end.

Lemma ordered_step base U r outs :
  step_pos base U r ->
  (forall U', origin (fst r) = Some (uint16_add base U') -> ordered_from base U' (released outs)) ->
  ordered_from base U (released (snd r :: outs)).
Proof.
  intros (U' & HU & EO & HFr) Hrest. specialize (Hrest U' EO).
  unfold released. cbn [flat_map]. fold (released outs).
  destruct (snd (snd r)) as [f|]; cbn [app].
  - destruct HFr as (S & ps & HS & Hf & Hrun & EU). cbn [ordered_from].
    exists S, ps. split; [exact HS|]. split; [exact Hf|]. split; [exact Hrun|]. rewrite <- EU. exact Hrest.
  - apply (ordered_from_mono base U'); [exact HU|exact Hrest].
Qed.

Lemma a_tail_step H a p base U S w1 pli :
  seq16 p -> Good H (uint16_add base S) w1 -> U <= S ->
  step_pos base U (a_tail a p (uint16_add base S) w1 pli).
Proof.
  intros Hp G HS. pose proof (Good_set _ _ _ p Hp G) as G2.
  destruct (a_tail_cases a p (uint16_add base S) w1 pli) as [E|(f & ps & q & rest & Hf & Ew & _ & E)];
    rewrite E; unfold step_pos; cbn [fst snd origin].
  - exists S. auto.
  - rewrite Ew in G2. exists (S + Z.of_nat (length ps)).
    split; [lia|]. split; [rewrite uint16_add_add; reflexivity|].
    exists S, ps. split; [exact HS|]. split; [exact Hf|]. split; [|reflexivity].
    intros j x Ex. rewrite (proj1 (Good_run _ _ _ _ _ _ G2 Ex)), uint16_add_add. reflexivity.
Qed.

Lemma a_add_step H a p base U :
  AInv H a -> seq16 p ->
  origin a = Some (uint16_add base U) -> ~ late_at (origin a) p ->
  step_pos base U (a_add a p).
Proof.
  intros HI Hp EO Hnl. destruct (a_add_cases a p (proj1 HI)) as [E|(o1 & w1 & pli & HS & E)]; rewrite E.
  - exists U. cbn [fst snd]. split; [lia|]. split; [exact EO|exact I].
  - destruct (start_good H a p o1 w1 pli HI Hp HS) as (_ & _ & G1).
    assert (Ho1 : exists S, U <= S /\ o1 = uint16_add base S).
    { rewrite EO in Hnl. destruct HS as [EO'|o EO' Hm Hr|o EO'|o b EO' _|]; try rewrite EO in EO'.
      - discriminate EO'.
      - injection EO' as <-. exfalso. apply Hnl. split; assumption.
      - injection EO' as <-. exists U. split; [lia|reflexivity].
      - injection EO' as <-. exists (U + Z.of_nat b). split; [lia|apply uint16_add_add].
      - pose proof (uint16_add_range (pseq p) (- uint16_add base U)).
        exists (U + uint16_add (pseq p) (- uint16_add base U)). split; [lia|].
        rewrite <- uint16_add_add. symmetry. apply uint16_delta_back. exact Hp. }
    destruct Ho1 as (S & HS' & ->). apply (a_tail_step H); assumption.
Qed.

Definition a_never_late (a : jb) (l : list pkt) : Prop :=
  forall l1 p l2, l = l1 ++ p :: l2 -> ~ late_at (origin (fst (a_run a l1))) p.

Lemma a_never_late_tail a p l : a_never_late a (p :: l) -> a_never_late (fst (a_add a p)) l.
Proof. intros HN l1 q l2 El. apply (HN (p :: l1) q l2). rewrite El. reflexivity. Qed.

Lemma a_run_ordered l : forall H a base U,
  AInv H a -> Forall seq16 l ->
  origin a = Some (uint16_add base U) -> a_never_late a l ->
  ordered_from base U (released (snd (a_run a l))).
Proof.
  induction l as [|p l IH]; intros H a base U HI HF EO HN; [exact I|].
  inversion HF as [|? ? Hp HF']; subst. cbn [a_run snd].
  apply ordered_step; [apply (a_add_step H); try assumption; apply (HN [] p l); reflexivity|].
  intros U' EO'. apply (IH (p :: H)); try assumption.
  - apply (a_add_char H a p HI Hp).
  - apply a_never_late_tail. exact HN.
Qed.

Lemma a_run_ordered_init c pf v p l :
  0 < c -> Forall seq16 (p :: l) -> a_never_late (a_init c pf v) (p :: l) ->
  ordered_from (pseq p) 0 (released (snd (a_run (a_init c pf v) (p :: l)))).
Proof.
  intros Hc HF HN. inversion HF as [|? ? Hp HF']; subst. cbn [a_run snd].
  apply ordered_step.
  - unfold a_add, a_init. cbn [origin slots]. rewrite a_place_in by exact Hc.
    rewrite <- (uint16_add_0 (pseq p) Hp) at 2. apply (a_tail_step []); [exact Hp|apply Good_repeat|lia].
  - intros U' EO'. apply (a_run_ordered l [p]); try assumption.
    + apply (a_add_char [] (a_init c pf v) p (a_init_inv c pf v Hc) Hp).
    + apply a_never_late_tail. exact HN.
Qed.

Definition never_late (c pf : Z) (v : bool) (l : list pkt) : Prop :=
  forall l1 p l2 s outs, l = l1 ++ p :: l2 -> reaches c pf v l1 s outs -> ~ late_at (origin s) p.

Theorem jitter_ordered c pf v p l s outs :
  cap_ok c -> Forall seq16 (p :: l) -> reaches c pf v (p :: l) s outs -> never_late c pf v (p :: l) ->
  ordered_from (pseq p) 0 (released outs).
Proof.
  intros Hc HF HR HN. destruct (reaches_abs c pf v _ s outs Hc HF HR) as [-> _].
  apply a_run_ordered_init; [apply cap_ok_pos; exact Hc|exact HF|].
  intros l1 q l2 El.
  assert (HF1 : Forall seq16 l1).
  { rewrite El in HF. apply Forall_app in HF. exact (proj1 HF). }
  destruct (reach_abs c pf v l1 Hc HF1) as (s1 & HR1 & R1).
  destruct R1 as (_ & _ & Eo & _). rewrite Eo. exact (HN l1 q l2 s1 _ El HR1).
Qed.

(* Multiset accounting, valid for EVERY history (also with resets and overflows): the packets
   of all released frames together with the packets still held and the discarded ones are a
   permutation of the arrivals.  Hence no arrival instance ever goes into two frames. *)
From Coq Require Import Permutation.

Definition held (w : W) : list pkt :=
  flat_map (fun x => match x with Some q => [q] | None => [] end) w.

Definition frame_ps (fr : option frame) (ps : list pkt) : Prop :=
  match fr with
  | None => ps = []
  | Some f => frame_of ps f
  end.

Lemma held_app w1 w2 : held (w1 ++ w2) = held w1 ++ held w2.
Proof. apply flat_map_app. Qed.

Lemma held_cons h t : held (h :: t) = held [h] ++ held t.
Proof. exact (held_app [h] t). Qed.

Lemma held_repeat n : held (repeat None n) = [].
Proof. induction n as [|n IH]; [reflexivity|]. exact IH. Qed.

Lemma held_map_some ps : held (map Some ps) = ps.
Proof. induction ps as [|q ps IH]; [reflexivity|]. cbn [map held flat_map app]. f_equal. exact IH. Qed.

Lemma held_remove w b : held w = held (firstn b w) ++ held (w_remove w b).
Proof.
  unfold w_remove. rewrite held_app, held_repeat, app_nil_r, <- held_app, firstn_skipn. reflexivity.
Qed.

Lemma held_set_nth p : forall w k w', set_nth w k (Some p) = Some w' ->
  exists old, Permutation (p :: held w) (held w' ++ old).
Proof.
  induction w as [|h t IH]; intros k w' E; cbn [set_nth] in E; [destruct k; discriminate|].
  rewrite held_cons. destruct k as [|k].
  - injection E as <-. exists (held [h]). rewrite (Permutation_app_comm (held [h])). reflexivity.
  - destruct (set_nth t k (Some p)) as [t'|] eqn:Et; [|discriminate]. injection E as <-.
    destruct (IH k t' Et) as [old HP]. exists old.
    rewrite (held_cons h t'), <- app_assoc, <- HP. apply Permutation_middle.
Qed.

Lemma held_placed p o1 w1 : exists old, Permutation (p :: held w1) (held (placed p o1 w1) ++ old).
Proof.
  unfold placed, w_set. destruct (set_nth w1 _ (Some p)) as [w'|] eqn:E.
  - eapply held_set_nth. exact E.
  - exists [p]. apply Permutation_cons_append.
Qed.

Lemma a_tail_acct a p o1 w1 pli :
  exists ps dropped, frame_ps (snd (snd (a_tail a p o1 w1 pli))) ps /\
    Permutation (p :: held w1) (ps ++ held (slots (fst (a_tail a p o1 w1 pli))) ++ dropped).
Proof.
  destruct (held_placed p o1 w1) as [old HP].
  destruct (a_tail_cases a p o1 w1 pli) as [E|(f & ps & q & rest & Hf & Ew & _ & E)]; rewrite E;
    cbn [fst snd slots].
  - exists [], old. split; [reflexivity|exact HP].
  - exists ps, old. split; [exact Hf|].
    rewrite HP, Ew, (w_remove_app _ _ (length ps)) by apply map_length.
    rewrite !held_app, held_map_some, held_repeat, app_nil_r, <- app_assoc. reflexivity.
Qed.

Lemma start_acct a p o1 w1 pli : start a p o1 w1 pli ->
  exists dropped, Permutation (held (slots a)) (held w1 ++ dropped).
Proof.
  intros HS. destruct HS as [| | |o b _ _|].
  - exists []. rewrite app_nil_r. reflexivity.
  - exists (held (slots a)). rewrite held_repeat. reflexivity.
  - exists []. rewrite app_nil_r. reflexivity.
  - exists (held (firstn b (slots a))). rewrite (held_remove (slots a) b) at 1. apply Permutation_app_comm.
  - exists (held (slots a)). rewrite held_repeat. reflexivity.
Qed.

Lemma a_add_acct a p : 0 < cap a ->
  exists ps dropped, frame_ps (snd (snd (a_add a p))) ps /\
    Permutation (p :: held (slots a)) (ps ++ held (slots (fst (a_add a p))) ++ dropped).
Proof.
  intros Hc. destruct (a_add_cases a p Hc) as [E|(o1 & w1 & pli & HS & E)]; rewrite E.
  - cbn [fst snd]. exists [], [p]. split; [reflexivity|]. apply Permutation_cons_append.
  - destruct (start_acct a p o1 w1 pli HS) as [d1 H1].
    destruct (a_tail_acct a p o1 w1 pli) as (ps & d2 & Hf & H2).
    exists ps, (d2 ++ d1). split; [exact Hf|].
    rewrite H1, app_comm_cons, H2, <- !app_assoc. reflexivity.
Qed.

Lemma a_run_acct l : forall a, 0 < cap a ->
  exists pss rest, Forall2 frame_of pss (released (snd (a_run a l))) /\
                   Permutation (l ++ held (slots a)) (concat pss ++ rest).
Proof.
  induction l as [|p l IH]; intros a Hc.
  - exists [], (held (slots a)). split; [constructor|reflexivity].
  - destruct (a_add_acct a p Hc) as (ps & dr & Hf & HP).
    destruct (IH (fst (a_add a p))) as (pss & rest & HF2 & HP2).
    { pose proof (a_add_static a p Hc) as Est. injection Est as -> _ _. exact Hc. }
    assert (HQ : Permutation ((p :: l) ++ held (slots a)) (ps ++ concat pss ++ rest ++ dr)).
    { cbn [app]. rewrite (Permutation_middle l (held (slots a)) p), HP, Permutation_app_swap_app.
      rewrite (app_assoc l), HP2, <- app_assoc. reflexivity. }
    cbn [a_run snd released flat_map]. fold (released (snd (a_run (fst (a_add a p)) l))).
    destruct (snd (snd (a_add a p))) as [f|]; cbn [frame_ps app] in *.
    + exists (ps :: pss), (rest ++ dr). split; [constructor; assumption|].
      cbn [concat]. rewrite <- app_assoc. exact HQ.
    + subst ps. exists pss, (rest ++ dr). split; [exact HF2|]. exact HQ.
Qed.

Theorem jitter_no_reuse c pf v l s outs :
  cap_ok c -> Forall seq16 l -> reaches c pf v l s outs ->
  exists pss rest, Forall2 frame_of pss (released outs) /\ Permutation (concat pss ++ rest) l.
Proof.
  intros Hc HF HR. destruct (reaches_abs c pf v l s outs Hc HF HR) as [-> _].
  destruct (a_run_acct l (a_init c pf v) (cap_ok_pos _ Hc)) as (pss & rest & H1 & H2).
  exists pss, rest. split; [exact H1|]. cbn [a_init slots] in H2.
  rewrite held_repeat, app_nil_r in H2. symmetry. exact H2.
Qed.

Definition late_b (o : option Z) (p : pkt) : bool :=
  match o with
  | Some o => (uint16_add o (- pseq p) <? uint16_add (pseq p) (- o)) && (MAX_MISORDER <=? uint16_add o (- pseq p))
  | None => false
  end.

Fixpoint nl_b (s : jb) (l : list pkt) : bool :=
  match l with
  | [] => true
  | p :: l' => negb (late_b (origin s) p) &&
               match add s p with Ok (s', _) => nl_b s' l' | _ => false end
  end.

Lemma late_b_spec o p : late_b o p = true <-> late_at o p.
Proof.
  unfold late_b, late_at. destruct o as [o|]; [|split; [discriminate|intros []]].
  rewrite andb_true_iff, Z.ltb_lt, Z.leb_le. reflexivity.
Qed.

Lemma nl_b_sound l1 : forall s0 l p l2 s outs,
  nl_b s0 l = true -> l = l1 ++ p :: l2 -> run s0 l1 = Ok (s, outs) -> ~ late_at (origin s) p.
Proof.
  induction l1 as [|a l1 IH]; intros s0 l p l2 s outs Hb El ER; subst l; cbn [app nl_b] in Hb;
    apply andb_true_iff in Hb; destruct Hb as [Hb1 Hb2].
  - cbn [run] in ER. injection ER as <- <-. intros HL. apply late_b_spec in HL. rewrite HL in Hb1. discriminate.
  - cbn [run] in ER. destruct (add s0 a) as [[s1 o1]| | |]; try discriminate. cbn [bind fst snd] in ER.
    destruct (run s1 l1) as [[s2 o2]| | |] eqn:E1; try discriminate. cbn [bind fst snd] in ER.
    injection ER as <- <-. exact (IH s1 _ p l2 s2 o2 Hb2 eq_refl E1).
Qed.

Lemma never_late_check c pf v l :
  match create c pf v with Ok s0 => nl_b s0 l | _ => false end = true -> never_late c pf v l.
Proof.
  intros Hb l1 p l2 s outs El (s0 & E0 & ER). rewrite E0 in Hb. exact (nl_b_sound l1 s0 l p l2 s outs Hb El ER).
Qed.

Lemma reaches_check c pf v l s outs :
  bind (create c pf v) (fun s0 => run s0 l) = Ok (s, outs) -> reaches c pf v l s outs.
Proof.
  intros H. unfold reaches. destruct (create c pf v) as [s0| | |] eqn:E0; try discriminate. exists s0. split; [reflexivity|exact H].
Qed.
