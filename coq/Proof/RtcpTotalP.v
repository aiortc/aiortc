(* Proofs about Model/Rtcp.v, part 4 (for property C05): RtcpPacket.parse returns a value
   or ValueError on EVERY byte string -- never another exception, never out of fuel. *)
From Coq Require Import ZArith List Bool Lia.
From AV Require Import Lib.Bytes Lib.BytesP Lib.RtpX Gen.RtpConst Model.Rtcp Proof.RtpBitsP Proof.RtcpP.
Import ListNotations.
Local Open Scope Z_scope.

Ltac Zify.zify_post_hook ::= Z.to_euclidean_division_equations.

(* ---- report blocks *)
Lemma rinfo_parse_ok data :
  bytes_ok data -> length data = 24%nat -> exists r, rinfo_parse data = Ok r.
Proof.
  intros Hok Hl. unfold rinfo_parse. rewrite Hl. cbn [Nat.eqb negb].
  destruct (u32_some data 0) as [a ->]; [lia|]. destruct (u8_some data 4) as [b ->]; [lia|].
  destruct (u32_some data 8) as [c ->]; [lia|]. destruct (u32_some data 12) as [d ->]; [lia|].
  destruct (u32_some data 16) as [e ->]; [lia|]. destruct (u32_some data 20) as [f ->]; [lia|].
  destruct (unpack_packets_lost_total (slice data 5 8)) as (n & -> & _).
  - now apply bytes_ok_slice.
  - rewrite slice_length, Hl. reflexivity.
  - cbn [bind]. eauto.
Qed.

Lemma rinfos_parse_ok c : forall rest,
  bytes_ok rest -> length rest = (24 * c)%nat -> exists l, rinfos_parse c rest = Ok l.
Proof.
  induction c as [|c IH]; intros rest Hok Hl; cbn [rinfos_parse]; [eauto|].
  destruct (rinfo_parse_ok (firstn 24 rest)) as [r ->].
  - now apply bytes_ok_firstn.
  - rewrite firstn_length. lia.
  - cbn [bind]. destruct (IH (skipn 24 rest)) as [l ->].
    + now apply bytes_ok_skipn.
    + rewrite skipn_length. lia.
    + cbn [bind]. eauto.
Qed.

Lemma sinfo_parse_ok data : length data = 20%nat -> exists s, sinfo_parse data = Ok s.
Proof.
  intros Hl. unfold sinfo_parse. rewrite Hl. cbn [Nat.eqb negb].
  destruct (u64_some data 0) as [a ->]; [lia|]. destruct (u32_some data 8) as [b ->]; [lia|].
  destruct (u32_some data 12) as [c ->]; [lia|]. destruct (u32_some data 16) as [d ->]; [lia|]. eauto.
Qed.

(* ---- per-class parsers *)
Lemma bye_parse_total data count : 0 <= count -> benign (bye_parse data count).
Proof.
  intros Hc. unfold bye_parse. destruct (Z.ltb_spec (len data) (count * 4)) as [|Hge]; [exact I|].
  destruct (u32s_some data 0 (Z.to_nat count)) as [l ->]; [unfold len in Hge; lia|exact I].
Qed.

Lemma psfb_parse_total data fmt : benign (psfb_parse data fmt).
Proof.
  unfold psfb_parse. destruct (Nat.ltb (length data) 8) eqn:Hl; [exact I|].
  apply Nat.ltb_ge in Hl. destruct (u32_some data 0) as [a ->]; [lia|].
  destruct (u32_some data 4) as [b ->]; [lia|]. exact I.
Qed.

Lemma rr_parse_total data count : bytes_ok data -> 0 <= count -> benign (rr_parse data count).
Proof.
  intros Hok Hc. unfold rr_parse.
  destruct (Z.eqb_spec (len data) (4 + count * 24)) as [He|]; cbn [negb]; [|exact I].
  unfold len in He. destruct (u32_some data 0) as [a ->]; [lia|].
  destruct (rinfos_parse_ok (Z.to_nat count) (skipn 4 data)) as [l ->].
  - now apply bytes_ok_skipn.
  - rewrite skipn_length. lia.
  - exact I.
Qed.

Lemma sr_parse_total data count : bytes_ok data -> 0 <= count -> benign (sr_parse data count).
Proof.
  intros Hok Hc. unfold sr_parse.
  destruct (Z.eqb_spec (len data) (24 + count * 24)) as [He|]; cbn [negb]; [|exact I].
  unfold len in He. destruct (u32_some data 0) as [a ->]; [lia|].
  destruct (sinfo_parse_ok (slice data 4 24)) as [s ->]; [rewrite slice_length; lia|]. cbn [bind].
  destruct (rinfos_parse_ok (Z.to_nat count) (skipn 24 data)) as [l ->].
  - now apply bytes_ok_skipn.
  - rewrite skipn_length. lia.
  - exact I.
Qed.

Lemma nack_parse_ok n : forall rest, length rest = (4 * n)%nat -> exists l, nack_parse rest = Ok l.
Proof.
  induction n as [|n IH]; intros rest Hl.
  - destruct rest; [cbn; eauto|cbn in Hl; lia].
  - destruct rest as [|a [|b [|c [|d rest]]]]; cbn [length] in Hl; try lia.
    cbn [nack_parse]. destruct (IH rest) as [l ->]; [lia|]. cbn [bind]. eauto.
Qed.

Lemma rtpfb_parse_total data fmt : benign (rtpfb_parse data fmt).
Proof.
  unfold rtpfb_parse. destruct (Nat.ltb (length data) 8) eqn:Hl; cbn [orb]; [exact I|].
  apply Nat.ltb_ge in Hl.
  destruct (Z.eqb_spec (len data mod 4) 0) as [Hm|]; cbn [negb]; [|exact I].
  destruct (u32_some data 0) as [a ->]; [lia|]. destruct (u32_some data 4) as [b ->]; [lia|].
  destruct (nack_parse_ok ((length data - 8) / 4) (skipn 8 data)) as [l ->]; [|exact I].
  rewrite skipn_length. unfold len in Hm.
  assert (Hd := Nat.div_mod (length data - 8) 4 ltac:(lia)).
  assert ((length data - 8) mod 4 = 0)%nat; [|lia].
  assert (Hz : Z.of_nat ((length data - 8) mod 4) = 0); [|lia].
  rewrite Nat2Z.inj_mod. lia.
Qed.

Lemma sdes_items_parse_total fuel : forall rest,
  (length rest < fuel)%nat -> benign (sdes_items_parse fuel rest).
Proof.
  induction fuel as [|f IH]; intros rest Hf; [lia|].
  cbn [sdes_items_parse]. destruct rest as [|t [|l rest']]; try exact I.
  destruct (Z.ltb_spec (len rest') l); [exact I|].
  destruct (t =? 0); [exact I|].
  apply bind_benign.
  - apply IH. rewrite skipn_length. cbn [length] in Hf. lia.
  - intros [items r] _. exact I.
Qed.

Lemma sdes_chunks_parse_total c : forall rest, benign (sdes_chunks_parse c rest).
Proof.
  induction c as [|c IH]; intros rest; cbn [sdes_chunks_parse]; [exact I|].
  destruct (Nat.ltb (length rest) 4) eqn:Hl; [exact I|]. apply Nat.ltb_ge in Hl.
  destruct (u32_some rest 0) as [a ->]; [lia|].
  apply bind_benign.
  - apply sdes_items_parse_total. rewrite skipn_length. lia.
  - intros [items r] _. apply bind_benign; [apply IH|]. intros cs _. exact I.
Qed.

Lemma rtcp_parse_one_total pt payload count :
  bytes_ok payload -> 0 <= count -> benign (rtcp_parse_one pt payload count).
Proof.
  intros Hok Hc. unfold rtcp_parse_one.
  destruct (pt =? rtp_RTCP_BYE); [apply bind_benign; [now apply bye_parse_total|intros; exact I]|].
  destruct (pt =? rtp_RTCP_SDES).
  { apply bind_benign; [|intros; exact I]. unfold sdes_parse.
    apply bind_benign; [apply sdes_chunks_parse_total|intros; exact I]. }
  destruct (pt =? rtp_RTCP_SR); [apply bind_benign; [now apply sr_parse_total|intros; exact I]|].
  destruct (pt =? rtp_RTCP_RR); [apply bind_benign; [now apply rr_parse_total|intros; exact I]|].
  destruct (pt =? rtp_RTCP_RTPFB); [apply bind_benign; [apply rtpfb_parse_total|intros; exact I]|].
  destruct (pt =? rtp_RTCP_PSFB); [apply bind_benign; [apply psfb_parse_total|intros; exact I]|].
  exact I.
Qed.

Lemma strip_padding_total padding payload :
  bytes_ok payload ->
  benign (strip_padding padding payload) /\
  forall p, strip_padding padding payload = Ok p -> bytes_ok p.
Proof.
  intros Hok. unfold strip_padding. destruct (padding =? 0); [split; [exact I|now intros p [= <-]]|].
  destruct (last_byte payload) as [pl|]; [|split; [exact I|discriminate]].
  destruct ((pl =? 0) || (len payload <? pl)); [split; [exact I|discriminate]|].
  split; [exact I|]. intros p [= <-]. now apply bytes_ok_firstn.
Qed.

(* ---- the compound loop *)
Lemma rtcp_parse_loop_total fuel : forall rest,
  bytes_ok rest -> (length rest < fuel)%nat -> benign (rtcp_parse_loop fuel rest).
Proof.
  induction fuel as [|f IH]; intros rest Hok Hf; [lia|].
  cbn [rtcp_parse_loop]. destruct rest as [|r0 rest0] eqn:Er; [exact I|]. rewrite <- Er in *.
  destruct (Nat.ltb (length rest) 4) eqn:Hl; [exact I|]. apply Nat.ltb_ge in Hl.
  destruct (u8_some rest 0) as [v Hv]; [lia|]. destruct (u8_some rest 1) as [pt Hpt]; [lia|].
  destruct (u16_some rest 2) as [w Hw]; [lia|]. rewrite Hv, Hpt, Hw.
  apply u8_range in Hv; [|exact Hok].
  destruct (negb (Z.shiftr v 6 =? 2)); [exact I|].
  destruct (Nat.ltb (length (skipn 4 rest)) (Z.to_nat (w * 4))) eqn:Hn; [exact I|].
  assert (Hbody : bytes_ok (firstn (Z.to_nat (w * 4)) (skipn 4 rest)))
    by now apply bytes_ok_firstn, bytes_ok_skipn.
  destruct (strip_padding_total (Z.land (Z.shiftr v 5) 1) _ Hbody) as [Hs1 Hs2].
  apply bind_benign; [exact Hs1|]. intros payload Hp.
  apply bind_benign.
  - apply rtcp_parse_one_total; [now apply Hs2|]. rewrite land_31. lia.
  - intros pkt _. apply bind_benign.
    + apply IH; [now apply bytes_ok_skipn, bytes_ok_skipn|].
      rewrite !skipn_length. lia.
    + intros more _. exact I.
Qed.

Theorem rtcp_parse_total b : bytes_ok b -> benign (rtcp_parse b).
Proof. intros H. unfold rtcp_parse. apply rtcp_parse_loop_total; [exact H|lia]. Qed.
