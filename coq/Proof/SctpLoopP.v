(* C02: the acknowledgement assumed by the drain theorem (SctpTxLiveP.drain) is the one the
   receiver model really sends: when the chunks outstanding at the sender arrive in order and
   nothing is lost, the receiver's SACK carries the TSN of the last one and no gap blocks. *)
From Coq Require Import ZArith List Bool Lia ZifyBool.
From AV Require Import Lib.Bytes Gen.Utils Gen.SctpConst Model.SctpRecv Model.SctpTx Proof.SctpDupP Proof.SctpTxP Proof.SctpTxLiveP.
Import ListNotations.
Local Open Scope Z_scope.

Ltac Zify.zify_post_hook ::= Z.to_euclidean_division_equations.

Lemma in_order_mark s t : r32 (last_rx s) -> misordered s = [] -> t = tsn_plus_one (last_rx s) ->
  let '(s', dup) := mark_received s t in dup = false /\ last_rx s' = t /\ misordered s' = [] /\ streams s' = streams s.
Proof.
  intros Hr Hm Ht. unfold mark_received. rewrite Hm. cbn [zmem existsb orb].
  assert (G : uint32_gte (last_rx s) t = false).
  { subst t. unfold uint32_gte, uint32_gt, tsn_plus_one, SCTP_TSN_MODULO, r32, M32 in *. lia. }
  rewrite G. cbn [orb sorted_misordered fold_right insert_by consolidate].
  assert (E : (t =? tsn_plus_one (last_rx s)) = true) by (apply Z.eqb_eq; exact Ht). rewrite E.
  cbn [consolidate filter]. assert (O : is_obsolete t t = false).
  { unfold is_obsolete, uint32_gt. lia. }
  rewrite O. cbn [last_rx misordered streams]. auto.
Qed.

Lemma in_order_data s c s' ms : r32 (last_rx s) -> misordered s = [] -> tsn c = tsn_plus_one (last_rx s) ->
  receive_data s c = ROk s' ms -> last_rx s' = tsn c /\ misordered s' = [].
Proof.
  intros Hr Hm Ht. unfold receive_data.
  set (s0 := mkR (last_rx s) (misordered s) (duplicates s) (streams s) (rwnd s) true).
  assert (Hfa : far_ahead s0 (tsn c) = false).
  { unfold far_ahead, serial_key. cbn [s0 last_rx]. rewrite Ht. unfold tsn_plus_one, SCTP_TSN_MODULO, r32, M32 in *.
    apply andb_false_iff. left. apply Z.leb_gt. lia. }
  rewrite Hfa. pose proof (in_order_mark s0 (tsn c) Hr Hm Ht) as M.
  destruct (mark_received s0 (tsn c)) as [s1 dup]. destruct M as (-> & El & Em & _).
  destruct (add_chunk _ c) as [l|]; [|discriminate].
  destruct (pop_messages l _) as [[l2 seq2] out]. intros [= <- _]. cbn [last_rx misordered]. auto.
Qed.

Lemma tsn_plus_one_r32 t : r32 (tsn_plus_one t).
Proof. apply Z.mod_pos_bound. reflexivity. Qed.

Fixpoint consecutive (t : Z) (l : list Z) : Prop :=
  match l with [] => True | x :: l' => x = tsn_plus_one t /\ consecutive x l' end.

Theorem in_order_sack : forall cs s, r32 (last_rx s) -> misordered s = [] -> consecutive (last_rx s) (map tsn cs) ->
  Forall (fun o => o <> OutAssert) (snd (rrun s (map EvData cs))) ->
  let s' := fst (rrun s (map EvData cs)) in
  last_rx s' = List.last (map tsn cs) (last_rx s) /\ misordered s' = [] /\
  (cs <> [] -> exists ms rw dups,
     List.last (snd (rrun s (map EvData cs))) OutAssert = OutOk ms (Some (mkSack (last_rx s') rw [] dups))).
Proof.
  induction cs as [|c cs IH]; intros s Hr Hm Hc Hna; cbv zeta.
  - cbn [map rrun fst snd List.last]. split; [reflexivity|]. split; [exact Hm|]. intros H. congruence.
  - cbn [map consecutive] in Hc. destruct Hc as [Ht Hc]. cbn [map rrun rstep] in Hna |- *.
    destruct (receive_data s c) as [s1 ms|] eqn:Erd.
    2:{ exfalso. destruct (rrun s (map EvData cs)) as [s2 os]. cbn [snd] in Hna. inversion Hna; subst. congruence. }
    destruct (in_order_data s c s1 ms Hr Hm Ht Erd) as [E1 E2].
    unfold make_sack in Hna |- *. cbn [fst snd] in Hna |- *.
    set (s2 := mkR (last_rx s1) (misordered s1) [] (streams s1) (rwnd s1) false) in *.
    assert (Hr2 : r32 (last_rx s2)) by (cbn [s2 last_rx]; rewrite E1, Ht; apply tsn_plus_one_r32).
    assert (Hm2 : misordered s2 = []) by exact E2.
    assert (Hc2 : consecutive (last_rx s2) (map tsn cs)) by (cbn [s2 last_rx]; rewrite E1; exact Hc).
    specialize (IH s2 Hr2 Hm2 Hc2).
    destruct (rrun s2 (map EvData cs)) as [s3 os] eqn:Er. cbn [fst snd] in *.
    assert (Hna2 : Forall (fun o => o <> OutAssert) os) by (inversion Hna; assumption).
    destruct (IH Hna2) as (I1 & I2 & I3).
    split.
    + rewrite I1. cbn [s2 last_rx]. rewrite E1. cbn [map]. symmetry. apply last_cons_default.
    + split; [exact I2|]. intros _.
      destruct cs as [|c' cs'].
      * cbn [map rrun] in Er. injection Er as <- <-. cbn [List.last]. exists ms, (Z.max 0 (rwnd s1)), (duplicates s1).
        rewrite E2. cbn [sorted_misordered fold_right gap_blocks s2 last_rx]. reflexivity.
      * destruct (I3 ltac:(discriminate)) as (ms' & rw & dups & H). exists ms', rw, dups.
        destruct os as [|o os'].
        { exfalso. cbn [map rrun] in Er. destruct (rstep s2 (EvData c')) as [sa oa]. destruct (rrun sa (map EvData cs')) as [sb ob]. discriminate. }
        change (List.last (?x :: o :: os') OutAssert) with (List.last (o :: os') OutAssert). exact H.
Qed.

Lemma seqfrom_consecutive base N : 0 <= N < 2147483648 -> forall l t, inw base N t -> seqfrom base (off base t) l ->
  off base t + Z.of_nat (length l) <= N -> consecutive t l.
Proof.
  intros HN. induction l as [|x l IH]; intros t Ht Hs Hl; cbn [consecutive]; [exact I|].
  cbn [seqfrom length] in *. destruct Hs as (Hr & Ho & Hs).
  assert (Hx : inw base N x) by (split; [exact Hr|lia]).
  assert (E : x = tsn_plus_one t).
  { destruct (plus_one_off base N HN t Ht ltac:(lia)) as [Hp Eo]. apply (off_inj base N); auto. lia. }
  split; [exact E|]. apply IH; [exact Hx| |lia]. rewrite Ho. exact Hs.
Qed.

(* When everything the sender has outstanding reaches, in order, a receiver that has received
   everything before it, the receiver ends at the highest TSN sent with nothing out of order, and its
   last SACK is (highest TSN sent, no gaps): exactly the input SctpTxLiveP.ideal_input feeds the
   sender in the drain theorem. *)
Theorem outstanding_arrive base N (stx : tx) (cs : list chunk) (r : rstate) :
  r32 base -> 0 <= N < 2147483648 -> ord base N stx -> sentq stx <> [] ->
  map tsn cs = tsns (sentq stx) -> last_rx r = floor stx -> misordered r = [] ->
  Forall (fun o => o <> OutAssert) (snd (rrun r (map EvData cs))) ->
  let r' := fst (rrun r (map EvData cs)) in
  last_rx r' = highest_assigned stx /\ misordered r' = [] /\
  exists ms rw dups,
    List.last (snd (rrun r (map EvData cs))) OutAssert = OutOk ms (Some (mkSack (highest_assigned stx) rw [] dups)).
Proof.
  intros Hb HN O Hne Ecs Elr Hm Hna. pose proof O as [Hl Ha Hs Ht]. destruct (floor_off base N Hb HN stx Hl Ha) as [Hf Ef].
  unfold qs in Hs, Ht. rewrite tsns_app in Hs. apply (seqfrom_app base N HN) in Hs as [Hs1 _]. rewrite app_length in Ht.
  assert (Hr : r32 (last_rx r)) by (rewrite Elr; destruct Hf; assumption).
  assert (Hc : consecutive (last_rx r) (map tsn cs)).
  { rewrite Ecs, Elr. apply (seqfrom_consecutive base N HN); [exact Hf|exact Hs1|rewrite tsns_length; lia]. }
  destruct (in_order_sack cs r Hr Hm Hc Hna) as (E1 & E2 & E3). cbv zeta in *.
  assert (Hcs : cs <> []) by (intros ->; cbn in Ecs; destruct (sentq stx); [congruence|discriminate]).
  rewrite Ecs, Elr, <- highest_assigned_eq in E1.
  split; [exact E1|]. split; [exact E2|]. rewrite <- E1. exact (E3 Hcs).
Qed.

Theorem ideal_sack_is_the_receivers base N (stx : tx) (cs : list chunk) (r : rstate) :
  r32 base -> 0 <= N < 2147483648 -> ord base N stx -> sentq stx <> [] ->
  map tsn cs = tsns (sentq stx) -> last_rx r = floor stx -> misordered r = [] ->
  Forall (fun o => o <> OutAssert) (snd (rrun r (map EvData cs))) ->
  exists ms rw dups,
    List.last (snd (rrun r (map EvData cs))) OutAssert = OutOk ms (Some (mkSack (highest_assigned stx) rw [] dups)).
Proof. intros Hb HN O Hne Ecs Elr Hm Hna. now apply (outstanding_arrive base N stx cs r). Qed.
