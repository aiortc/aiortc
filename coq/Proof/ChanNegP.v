(* C13: out-of-band negotiated channels.  A channel created with negotiated=True and id i opens --
   exactly one `open` event -- as soon as the association is established, whichever comes first;
   it is registered under i, never announced to the peer (no DCEP OPEN is queued), and a second
   channel with the same id is refused. *)
From Coq Require Import ZArith List Bool Lia Arith.
From AV Require Import Lib.Bytes Gen.Utils Gen.SctpConst Model.Chan Proof.ChanP Proof.ChanBufP.
Import ListNotations.
Local Open Scope Z_scope.

Lemma create_used s neg i h0 ordered maxrt maxlt label proto : tget (table s) i = Some h0 ->
  create s neg (Some i) ordered maxrt maxlt label proto = (s, [EvRaise 1]).
Proof. intros H. unfold create. rewrite H. reflexivity. Qed.

Lemma create_negotiated s i ordered maxrt maxlt label proto : tget (table s) i = None ->
  let h := length (chans s) in
  let s' := fst (create s true (Some i) ordered maxrt maxlt label proto) in
  let evs := snd (create s true (Some i) ordered maxrt maxlt label proto) in
  tget (table s') i = Some h /\ ch_id (getc s' h) = Some i /\ ch_neg (getc s' h) = true /\ queue s' = queue s /\
  (if established s then ch_state (getc s' h) = Open /\ evs = [EvOpen h]
   else ch_state (getc s' h) = Connecting /\ evs = []) /\
  (* the id is taken: a second channel with this id is refused *)
  (forall neg' o' r' l' lb' pr', snd (create s' neg' (Some i) o' r' l' lb' pr') = [EvRaise 1]).
Proof.
  intros Ht. cbv zeta. rewrite create_eq. cbv zeta. rewrite Ht.
  set (c := mkChan (Some i) Connecting 0 0 true ordered maxrt maxlt label proto).
  set (n := new_chan s c (queue s)).
  assert (Gn : getc n (length (chans s)) = c) by (unfold n; now rewrite getc_new_chan, Nat.eqb_refl).
  assert (Tn : tget (table n) i = Some (length (chans s))).
  { cbn [table n new_chan set_queue set_table ch_id c]. now rewrite tget_tset_fresh, Z.eqb_refl. }
  assert (Used : forall s', table s' = table n -> forall neg' o' r' l' lb' pr', snd (create s' neg' (Some i) o' r' l' lb' pr') = [EvRaise 1]).
  { intros s' E neg' o' r' l' lb' pr'. rewrite (create_used s' neg' i (length (chans s))); [reflexivity|now rewrite E]. }
  destruct (established s); cbn [fst snd].
  - assert (G : getc (fst (set_ready n (length (chans s)) Open)) (length (chans s)) = with_state c Open).
    { rewrite set_ready_same, Gn; [reflexivity|]. unfold n. rewrite new_chan_length. lia. }
    rewrite set_ready_table, set_ready_queue, G. repeat split; try assumption; try reflexivity.
    + unfold set_ready. now rewrite Gn.
    + apply Used, set_ready_table.
  - rewrite Gn. repeat split; try assumption; try reflexivity. now apply Used.
Qed.

(* one turn of open_negotiated, for the handle h0 *)
Definition open_one (s : st) (h0 : nat) : st * list event :=
  if ch_neg (getc s h0) && rstate_eqb (ch_state (getc s h0)) Connecting then set_ready s h0 Open else (s, []).

Lemma open_one_other s h0 h : h0 <> h ->
  getc (fst (open_one s h0)) h = getc s h /\ opens h (snd (open_one s h0)) = 0%nat.
Proof.
  intros Hne. unfold open_one. destruct (_ && _); [|now split]. split; [now apply set_ready_other|].
  unfold set_ready, opens. destruct (rstate_eqb _ _); [reflexivity|]. cbn. destruct (Nat.eqb_spec h h0); [congruence|reflexivity].
Qed.

Lemma open_negotiated_settled : forall t s h, ch_state (getc s h) <> Connecting ->
  getc (fst (open_negotiated s t)) h = getc s h /\ opens h (snd (open_negotiated s t)) = 0%nat.
Proof.
  induction t as [|[k h0] t IH]; intros s h Hs; cbn [open_negotiated]; [now split|]. fold (open_one s h0).
  assert (E : getc (fst (open_one s h0)) h = getc s h /\ opens h (snd (open_one s h0)) = 0%nat).
  { destruct (Nat.eq_dec h0 h) as [->|Hne]; [|now apply open_one_other]. unfold open_one.
    destruct (rstate_eqb (ch_state (getc s h)) Connecting) eqn:Er; [now apply rstate_eqb_eq in Er|]. rewrite andb_false_r. now split. }
  destruct E as [E1 E2]. destruct (open_one s h0) as [s1 e1]. cbn [fst snd] in *.
  destruct (IH s1 h) as [I1 I2]; [now rewrite E1|]. destruct (open_negotiated s1 t) as [s2 e2]. cbn [fst snd] in *.
  split; [congruence|]. now rewrite opens_app, E2, I2.
Qed.

Lemma open_negotiated_opens : forall t s h, In h (map snd t) -> (h < length (chans s))%nat ->
  ch_neg (getc s h) = true -> ch_state (getc s h) = Connecting ->
  ch_state (getc (fst (open_negotiated s t)) h) = Open /\ opens h (snd (open_negotiated s t)) = 1%nat.
Proof.
  induction t as [|[k h0] t IH]; intros s h Hin Hh Hn Hs; [destruct Hin|]. cbn [open_negotiated]. fold (open_one s h0).
  destruct (Nat.eq_dec h0 h) as [->|Hne].
  - assert (E : open_one s h = (fst (set_ready s h Open), [EvOpen h])).
    { unfold open_one, set_ready. now rewrite Hn, Hs. }
    rewrite E. destruct (open_negotiated_settled t (fst (set_ready s h Open)) h) as [I1 I2].
    { rewrite set_ready_same by exact Hh. discriminate. }
    destruct (open_negotiated _ t) as [s2 e2]. cbn [fst snd] in *. rewrite I1, set_ready_same by exact Hh.
    split; [reflexivity|]. rewrite opens_app, I2. unfold opens. cbn. now rewrite Nat.eqb_refl.
  - destruct (open_one_other s h0 h Hne) as [E1 E2].
    assert (L : length (chans (fst (open_one s h0))) = length (chans s)).
    { unfold open_one. destruct (_ && _); [apply set_ready_length|reflexivity]. }
    destruct (open_one s h0) as [s1 e1]. cbn [fst snd] in *.
    destruct (IH s1 h) as [I1 I2]; [now destruct Hin|now rewrite L|now rewrite E1|now rewrite E1|].
    destruct (open_negotiated s1 t) as [s2 e2]. cbn [fst snd] in *. split; [exact I1|]. now rewrite opens_app, E2, I2.
Qed.

Lemma tget_in_snd t k v : tget t k = Some v -> In v (map snd t).
Proof.
  induction t as [|[a b] t IH]; cbn [tget map snd In]; [discriminate|].
  destruct (Z.eqb k a); [intros [= ->]; now left|intros H; right; now apply IH].
Qed.

Lemma established_opens_negotiated s h i : cinv s -> (h < length (chans s))%nat ->
  ch_neg (getc s h) = true -> ch_state (getc s h) = Connecting -> ch_id (getc s h) = Some i ->
  ch_state (getc (fst (set_established s)) h) = Open /\ opens h (snd (set_established s)) = 1%nat.
Proof.
  intros (_ & _ & T) Hh Hn Hst Hid. pose proof (T h i Hh ltac:(now rewrite Hst) Hid) as Ht.
  unfold set_established. cbv zeta.
  match goal with |- context [open_negotiated ?x ?t] =>
    destruct (open_negotiated_opens t x h (tget_in_snd _ _ _ Ht) Hh Hn Hst) as [A B] end.
  destruct (open_negotiated _ _) as [s' e]. cbn [fst snd] in *. split; [exact A|].
  rewrite opens_app, B. now destruct (rq_queue s').
Qed.
