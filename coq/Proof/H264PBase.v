(* H.264 payload format: facts about the generated constants, the two fields of
   the header byte, and totality of H264PayloadDescriptor.parse (for C05). *)
From Coq Require Import ZArith List Bool Lia.
From AV Require Import Lib.Bytes Lib.BytesP Lib.CodecX Lib.CodecXP Gen.H264Const Model.H264.
Import ListNotations.
Local Open Scope Z_scope.

(* What the proofs need from the GENERATED constants.
   Re-checked by computation whenever h264.py changes them.  Everything below
   uses only these facts, never the concrete value of PACKET_MAX. *)
Lemma consts_ok :
  h264_NAL_HEADER_SIZE = 1 /\
  h264_LENGTH_FIELD_SIZE = 2 /\
  2 <= h264_FU_A_HEADER_SIZE /\
  h264_FU_A_HEADER_SIZE < h264_PACKET_MAX /\
  h264_NAL_HEADER_SIZE + h264_LENGTH_FIELD_SIZE <= h264_STAP_A_HEADER_SIZE /\
  h264_STAP_A_HEADER_SIZE <= h264_PACKET_MAX /\
  h264_PACKET_MAX <= 65535 /\
  h264_NAL_TYPE_FU_A = 28 /\
  h264_NAL_TYPE_STAP_A = 24.
Proof. vm_compute. repeat split; congruence. Qed.

Lemma nal_header_size : h264_NAL_HEADER_SIZE = 1. Proof. apply consts_ok. Qed.
Lemma length_field_size : h264_LENGTH_FIELD_SIZE = 2. Proof. apply consts_ok. Qed.
Lemma type_fu_a : h264_NAL_TYPE_FU_A = 28. Proof. apply consts_ok. Qed.
Lemma type_stap_a : h264_NAL_TYPE_STAP_A = 24. Proof. apply consts_ok. Qed.

(* the NAL unit header byte: F and NRI above, type below *)
Definition nal_type (b : Z) : Z := Z.land b 31.
Definition f_nri (b : Z) : Z := Z.land b 224.

Lemma header_split b : 0 <= b < 256 -> Z.lor (Z.land b 224) (Z.land b 31) = b.
Proof. intros Hb. rewrite <- Z.land_lor_distr_r. apply (fits_land_ones 8); [lia | exact Hb]. Qed.

(* Every round moves pos forward by at least the length field, so fuel above
   len(data) - pos is never exhausted and at most that many offsets come out. *)
Lemma stap_offsets_total : forall fuel data pos,
  bytes_ok data -> 0 <= pos -> (Z.to_nat (len data - pos) < fuel)%nat ->
  match stap_offsets fuel data pos with
  | Ok l => (length l <= Z.to_nat (len data - pos))%nat
  | ValueErr => True
  | _ => False
  end.
Proof.
  induction fuel as [|fuel IH]; intros data pos Hok Hpos Hfuel; [lia|].
  cbn [stap_offsets]. rewrite length_field_size.
  destruct (pos <? len data) eqn:E1; [|cbn [length]; lia].
  apply Z.ltb_lt in E1.
  destruct (len data <? pos + 2) eqn:E2; [exact I|].
  apply Z.ltb_ge in E2.
  destruct (u16_some data (Z.to_nat pos)) as [sz E3]; [unfold len in *; lia|].
  rewrite E3. pose proof (u16_range _ _ _ Hok E3) as Hsz.
  destruct (len data <? pos + 2 + sz) eqn:E4; [exact I|].
  apply Z.ltb_ge in E4.
  specialize (IH data (pos + 2 + sz) Hok ltac:(lia) ltac:(lia)).
  destruct (stap_offsets fuel data (pos + 2 + sz)); cbn [bind length]; try exact IH. lia.
Qed.

(* C05: H264PayloadDescriptor.parse returns a value or ValueError
   for EVERY byte string; the fuel S (length data) is never exhausted and the
   STAP-A loop runs at most len(data) times. *)
Theorem h264_descriptor_parse_total : forall b, bytes_ok b ->
  (exists v, parse b = Ok v) \/ parse b = ValueErr.
Proof.
  intros data Hok. unfold parse.
  destruct (len data <? 2) eqn:E0; [now right|].
  apply Z.ltb_ge in E0.
  destruct (u8_some data 0) as [b0 ->]; [unfold len in *; lia|].
  destruct ((1 <=? Z.land b0 31) && (Z.land b0 31 <? 24)); [left; eauto|].
  destruct (Z.land b0 31 =? h264_NAL_TYPE_FU_A).
  { rewrite nal_header_size, pyidx_nonneg by lia.
    destruct (u8_some data (Z.to_nat 1)) as [b1 ->]; [unfold len in *; lia | left; eauto]. }
  destruct (Z.land b0 31 =? h264_NAL_TYPE_STAP_A); [|now right].
  pose proof (stap_offsets_total (S (length data)) data h264_NAL_HEADER_SIZE Hok) as Ht.
  rewrite nal_header_size in *. specialize (Ht ltac:(lia) ltac:(unfold len; lia)).
  destruct (stap_offsets (S (length data)) data 1); cbn [bind]; try contradiction; [left; eauto | now right].
Qed.

Lemma h264_stap_offsets_linear : forall data l,
  bytes_ok data -> stap_offsets (S (length data)) data h264_NAL_HEADER_SIZE = Ok l ->
  (length l <= length data)%nat.
Proof.
  intros data l Hok H.
  pose proof (stap_offsets_total (S (length data)) data h264_NAL_HEADER_SIZE Hok) as Ht.
  rewrite H, nal_header_size in Ht. unfold len in Ht. lia.
Qed.
