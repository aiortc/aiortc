(* C17: the SCTP receiver (Model/SctpRecv.v) does not depend on the TSN origin:
   shifting every TSN of the initial state and of the arriving chunks by any delta
   (mod 2^32) yields the same deliveries, and SACKs that differ only by that shift.

   Proved for any renaming of TSNs (ft) and of stream sequence numbers (fs) that respects the
   serial arithmetic the receiver uses; the shift of the TSNs is the instance with fs the identity,
   the shift of the stream sequence numbers (SctpSsnShiftP.v) the one with ft the identity. *)
From Coq Require Import ZArith List Bool Lia ZifyBool.
From AV Require Import Lib.Bytes Gen.Utils Gen.SctpConst Model.SctpRecv Proof.SerialP Proof.SctpPopP Proof.SctpRecvP Proof.SctpC01P.
Import ListNotations.
Local Open Scope Z_scope.

Ltac Zify.zify_post_hook ::= Z.to_euclidean_division_equations.

Lemma Forall_filter {A} (P : A -> Prop) (f : A -> bool) l : Forall P l -> Forall P (filter f l).
Proof. intros H. rewrite Forall_forall in *. intros x Hx. apply filter_In in Hx as [Hx _]. auto. Qed.

Lemma Forall_last {A} (P : A -> Prop) l d : Forall P l -> P d -> P (List.last l d).
Proof. induction 1 as [|a l Ha Hl IH]; intros Hd; [exact Hd|]. cbn [List.last]. destruct l; [exact Ha|now apply IH]. Qed.

Section Rename.
Variables ft fs : Z -> Z.
(* where the renamings respect the comparisons *)
Variables Dt Ds : Z -> Prop.
(* the streams that events may name *)
Variable K : Z -> Prop.
Hypothesis ft_eqb : forall a b, Dt a -> Dt b -> (ft a =? ft b) = (a =? b).
Hypothesis ft_gt : forall a b, Dt a -> Dt b -> uint32_gt (ft a) (ft b) = uint32_gt a b.
Hypothesis ft_succ : forall a, tsn_plus_one (ft a) = ft (tsn_plus_one a).
Hypothesis Dt_succ : forall a, Dt (tsn_plus_one a).
Hypothesis ft_key : forall b t, serial_key (ft b) (ft t) = serial_key b t.
Hypothesis fs_eqb : forall a b, Ds a -> Ds b -> (fs a =? fs b) = (a =? b).
Hypothesis fs_gt : forall a b, Ds a -> Ds b -> uint16_gt (fs a) (fs b) = uint16_gt a b.
Hypothesis fs_succ : forall a, uint16_add (fs a) 1 = fs (uint16_add a 1).
Hypothesis Ds_succ : forall a, Ds (uint16_add a 1).
Hypothesis Ds_0 : Ds 0.

Lemma ft_gte a b : Dt a -> Dt b -> uint32_gte (ft a) (ft b) = uint32_gte a b.
Proof. intros Ha Hb. unfold uint32_gte. now rewrite ft_gt, ft_eqb. Qed.
Lemma fs_gte a b : Ds a -> Ds b -> uint16_gte (fs a) (fs b) = uint16_gte a b.
Proof. intros Ha Hb. unfold uint16_gte. now rewrite fs_gt, fs_eqb. Qed.

Lemma rn_insert b t l : insert_by (ft b) (ft t) (map ft l) = map ft (insert_by b t l).
Proof.
  induction l as [|x l IH]; cbn [insert_by map]; [reflexivity|].
  rewrite !ft_key. destruct (_ <=? _); cbn [map]; [reflexivity|]. now rewrite IH.
Qed.
Lemma rn_sorted b l : sorted_misordered (ft b) (map ft l) = map ft (sorted_misordered b l).
Proof.
  unfold sorted_misordered. induction l as [|x l IH]; cbn [fold_right map]; [reflexivity|].
  now rewrite IH, rn_insert.
Qed.
Lemma insert_dom b t l : Dt t -> Forall Dt l -> Forall Dt (insert_by b t l).
Proof.
  intros Ht. induction 1 as [|x l Hx Hl IH]; cbn [insert_by]; [constructor; [exact Ht|constructor]|].
  destruct (_ <=? _); constructor; auto.
Qed.
Lemma sorted_dom b l : Forall Dt l -> Forall Dt (sorted_misordered b l).
Proof. unfold sorted_misordered. induction 1 as [|x l Hx Hl IH]; cbn [fold_right]; [constructor|now apply insert_dom]. Qed.
Lemma rn_consolidate : forall l c, Dt c -> Forall Dt l ->
  consolidate (ft c) (map ft l) = ft (consolidate c l) /\ Dt (consolidate c l).
Proof.
  induction l as [|t l IH]; intros c Hc Hl; cbn [consolidate map]; [auto|].
  inversion Hl as [|? ? Ht Hl']; subst.
  rewrite ft_succ, ft_eqb by auto.
  destruct (t =? tsn_plus_one c); [now apply IH|auto].
Qed.
Lemma rn_filter_obsolete c l : Dt c -> Forall Dt l ->
  filter (is_obsolete (ft c)) (map ft l) = map ft (filter (is_obsolete c) l).
Proof.
  intros Hc. induction 1 as [|x l Hx Hl IH]; cbn [filter map]; [reflexivity|].
  assert (E : is_obsolete (ft c) (ft x) = is_obsolete c x) by (unfold is_obsolete; now apply ft_gt).
  rewrite E. destruct (is_obsolete c x); cbn [map]; now rewrite IH.
Qed.
Lemma rn_zmem t l : Dt t -> Forall Dt l -> zmem (ft t) (map ft l) = zmem t l.
Proof.
  intros Ht. unfold zmem. induction 1 as [|x l Hx Hl IH]; cbn [existsb map]; [reflexivity|].
  now rewrite ft_eqb, IH.
Qed.

Definition rnc (c : chunk) : chunk :=
  mkChunk (ft (tsn c)) (sid c) (fs (sseq c)) (unordered c) (first c) (last c) (ppid c) (udata c).
Definition cdom (c : chunk) : Prop := Dt (tsn c) /\ Ds (sseq c).

Lemma rn_add_scan : forall l c, Forall cdom l -> cdom c ->
  add_scan (map rnc l) (rnc c) = match add_scan l c with AddOk l' => AddOk (map rnc l') | AddAssert => AddAssert end.
Proof.
  induction l as [|r l IH]; intros c Hl Hc; cbn [add_scan map]; [reflexivity|].
  inversion Hl as [|? ? Hr Hl']; subst. cbn [rnc tsn]. rewrite ft_eqb, ft_gt by (apply Hr || apply Hc).
  destruct (tsn r =? tsn c); [reflexivity|]. destruct (uint32_gt (tsn r) (tsn c)); [reflexivity|].
  fold (rnc c). rewrite IH by assumption. destruct (add_scan l c); reflexivity.
Qed.

Lemma last_map_rnc l c : List.last (map rnc l) (rnc c) = rnc (List.last l c).
Proof. induction l as [|a l IH]; [reflexivity|]. cbn [map List.last]. destruct l; [reflexivity|exact IH]. Qed.

Lemma rn_add_chunk l c : Forall cdom l -> cdom c ->
  add_chunk (map rnc l) (rnc c) = match add_chunk l c with AddOk l' => AddOk (map rnc l') | AddAssert => AddAssert end.
Proof.
  intros Hl Hc. unfold add_chunk. destruct l as [|a l0]; [reflexivity|].
  change (map rnc (a :: l0)) with (rnc a :: map rnc l0) at 1.
  change (rnc a :: map rnc l0) with (map rnc (a :: l0)).
  rewrite last_map_rnc. cbn [rnc tsn]. rewrite ft_gt; [|exact (proj1 Hc)|exact (proj1 (Forall_last cdom _ _ Hl Hc))].
  destruct (uint32_gt (tsn c) (tsn (List.last (a :: l0) c))); [now rewrite map_app|].
  fold (rnc c). now apply rn_add_scan.
Qed.

Lemma rn_prune l t : Forall cdom l -> Dt t ->
  prune_chunks (map rnc l) (ft t) = let '(l', n) := prune_chunks l t in (map rnc l', n).
Proof.
  intros Hl Ht. induction Hl as [|c l Hc Hl IH]; cbn [prune_chunks map]; [reflexivity|].
  cbn [rnc tsn udata]. rewrite ft_gte by (assumption || apply Hc).
  destruct (uint32_gte t (tsn c)); [|reflexivity]. fold (rnc c). rewrite IH. destruct (prune_chunks l t). reflexivity.
Qed.

Definition rnrun (r : run_state) : run_state :=
  match r with Some (l, e, o) => Some (map rnc l, ft e, o) | None => None end.
Definition run_dom (r : run_state) : Prop := match r with Some (_, e, _) => Dt e | None => True end.
Definition rnres (res : list chunk * Z * list message) : list chunk * Z * list message :=
  let '(l, s, ms) := res in (map rnc l, fs s, ms).

Lemma join_data_rnc l : join_data (map rnc l) = join_data l.
Proof. unfold join_data. rewrite map_map. reflexivity. Qed.

Lemma retained_rnc kept run rest :
  retained (map rnc kept) (rnrun run) (map rnc rest) = map rnc (retained kept run rest).
Proof.
  unfold retained. destruct run as [[[r e] o]|]; cbn [rnrun]; rewrite !map_app, <- !map_rev; reflexivity.
Qed.

Lemma rn_joins run c seq r e o : joins run c seq r e o -> cdom c -> run_dom run -> Ds seq ->
  joins (rnrun run) (rnc c) (fs seq) (map rnc r) (ft e) o.
Proof.
  destruct run as [[[r' e'] o']|]; cbn [joins rnrun run_dom rnc tsn first unordered sseq].
  - intros [[= -> -> ->] Ht] [Hc _] He _. split; [reflexivity|]. now rewrite ft_eqb.
  - intros (Hf & Hg & -> & -> & ->) [_ Hc] _ Hs. rewrite fs_gt by assumption. auto.
Qed.

Lemma rn_stops run rest seq : stops run rest seq -> Forall cdom rest -> run_dom run -> Ds seq ->
  stops (rnrun run) (map rnc rest) (fs seq).
Proof.
  destruct rest as [|c rest]; [intros; exact I|]. intros H Hr He Hs. apply Forall_inv in Hr as [Hc1 Hc2].
  destruct run as [[[r e] o]|]; cbn [stops rnrun map rnc tsn first unordered sseq run_dom] in *.
  - now rewrite ft_eqb.
  - now rewrite fs_gt.
Qed.

(* the scan over renamed chunks takes the same decisions *)
Lemma rn_pops kept run rest seq res : pops kept run rest seq res -> Forall cdom rest -> run_dom run -> Ds seq ->
  pops (map rnc kept) (rnrun run) (map rnc rest) (fs seq) (rnres res) /\ Ds (snd (fst res)).
Proof.
  induction 1 as [kept run rest seq St|kept c rest seq res Hf Hu _ IH|kept r e c rest seq res Ht _ IH
                 |kept run c rest seq r e o res J El _ IH|kept run c rest seq r e o l s ms J El _ IH]; intros Hr He Hs.
  - split; [|exact Hs]. cbn [rnres]. rewrite <- retained_rnc. apply pops_stop. now apply rn_stops.
  - destruct (IH (Forall_inv_tail Hr) I Hs) as [IH1 IH2]. split; [|exact IH2]. now apply pops_skip.
  - destruct (IH Hr I Hs) as [IH1 IH2]. split; [|exact IH2]. rewrite map_app in IH1. apply pops_restart; [|exact IH1].
    cbn [rnc tsn]. rewrite ft_eqb; [exact Ht|apply (Forall_inv Hr)|exact He].
  - destruct (IH (Forall_inv_tail Hr) (Dt_succ e) Hs) as [IH1 IH2]. split; [|exact IH2].
    cbn [rnrun map] in IH1. rewrite <- ft_succ in IH1.
    exact (pops_more _ _ _ _ _ _ _ _ _ (rn_joins _ _ _ _ _ _ J (Forall_inv Hr) He Hs) El IH1).
  - assert (Hs' : Ds (if o && (sseq c =? seq) then uint16_add seq 1 else seq)) by (destruct (o && _); auto).
    destruct (IH (Forall_inv_tail Hr) I Hs') as [IH1 IH2]. split; [|exact IH2].
    assert (E : fs (if o && (sseq c =? seq) then uint16_add seq 1 else seq) =
                if o && (sseq (rnc c) =? fs seq) then uint16_add (fs seq) 1 else fs seq).
    { cbn [rnc sseq]. rewrite fs_eqb by (assumption || apply (Forall_inv Hr)). destruct (o && _); [now rewrite fs_succ|reflexivity]. }
    cbn [rnres rnrun] in IH1. rewrite E in IH1.
    pose proof (pops_msg _ _ _ _ _ _ _ _ _ _ _ (rn_joins _ _ _ _ _ _ J (Forall_inv Hr) He Hs) El IH1) as P.
    change (rnc c :: map rnc r) with (map rnc (c :: r)) in P. rewrite <- map_rev, join_data_rnc in P. exact P.
Qed.

Lemma rn_pop_messages l seq : Forall cdom l -> Ds seq ->
  pop_messages (map rnc l) (fs seq) = rnres (pop_messages l seq) /\ Ds (snd (fst (pop_messages l seq))).
Proof.
  intros Hl Hs. destruct (rn_pops _ _ _ _ _ (pop_loop_pops l [] None seq) Hl I Hs) as [P D].
  split; [exact (pops_fun _ _ _ _ _ P)|exact D].
Qed.

Definition rnst (st : stream) : stream := mkStream (map rnc (reasm st)) (fs (sseq_expected st)).
Definition rnstrs (l : list (Z * stream)) : list (Z * stream) := map (fun kv => (fst kv, rnst (snd kv))) l.
Definition rns (s : rstate) : rstate :=
  mkR (ft (last_rx s)) (map ft (misordered s)) (map ft (duplicates s)) (rnstrs (streams s)) (rwnd s) (sack_needed s).

Definition st_ok (st : stream) : Prop := Forall cdom (reasm st) /\ Ds (sseq_expected st).
Definition strs_ok (l : list (Z * stream)) : Prop := Forall (fun kv => st_ok (snd kv)) l.
(* a stream that is not there yet is born expecting 0, on both sides *)
Definition covers (l : list (Z * stream)) (id : Z) : Prop := fs 0 = 0 \/ In id (map fst l).

Lemma get_stream_rn l id : covers l id -> get_stream (rnstrs l) id = rnst (get_stream l id).
Proof.
  unfold covers. induction l as [|[k v] l IH]; cbn [rnstrs map get_stream fst snd].
  - intros [E|[]]. unfold rnst. cbn [reasm sseq_expected map]. now rewrite E.
  - destruct (Z.eqb_spec id k) as [->|Hne]; [reflexivity|]. intros [E|[E|H]]; [|congruence|]; apply IH; auto.
Qed.
Lemma set_stream_rn l id v : set_stream (rnstrs l) id (rnst v) = rnstrs (set_stream l id v).
Proof.
  induction l as [|[k w] l IH]; cbn [rnstrs map set_stream fst snd]; [reflexivity|].
  destruct (id =? k); cbn [map fst snd]; [reflexivity|]. f_equal. exact IH.
Qed.
Lemma get_stream_ok l id : strs_ok l -> st_ok (get_stream l id).
Proof.
  induction 1 as [|[k v] l Hv Hl IH]; cbn [get_stream]; [split; [constructor|exact Ds_0]|].
  destruct (id =? k); [exact Hv|exact IH].
Qed.
Lemma set_stream_ok l id v : strs_ok l -> st_ok v -> strs_ok (set_stream l id v).
Proof.
  intros Hl Hv. induction Hl as [|[k w] l Hw Hl IH]; cbn [set_stream]; [constructor; [exact Hv|constructor]|].
  destruct (id =? k); constructor; auto.
Qed.
Lemma covers_set l id v id' : covers l id' -> covers (set_stream l id v) id'.
Proof.
  intros [E|H]; [now left|right]. induction l as [|[k w] l IH]; cbn [set_stream map fst] in *; [destruct H|].
  destruct (id =? k); cbn [map fst In]; [exact H|]. destruct H as [H|H]; [now left|right; now apply IH].
Qed.

(* one stream polled: its queue replaced by l0 first (the arriving chunk inserted, or as it is) *)
Lemma rn_poll_one strs id l0 seq : strs_ok strs -> Forall cdom l0 -> Ds seq ->
  let '(l2, seq2, ms) := pop_messages l0 seq in
  pop_messages (map rnc l0) (fs seq) = (map rnc l2, fs seq2, ms) /\
  set_stream (rnstrs strs) id (mkStream (map rnc l2) (fs seq2)) = rnstrs (set_stream strs id (mkStream l2 seq2)) /\
  strs_ok (set_stream strs id (mkStream l2 seq2)).
Proof.
  intros Hs Hl Hq. destruct (rn_pop_messages l0 seq Hl Hq) as [E D].
  pose proof (pop_messages_retains l0 seq) as Hret.
  destruct (pop_messages l0 seq) as [[l2 seq2] ms]. cbn [fst snd rnres] in *.
  split; [exact E|]. split; [exact (set_stream_rn strs id (mkStream l2 seq2))|].
  apply set_stream_ok; [exact Hs|]. split; [exact (incl_Forall (Hret _ _ _ eq_refl) Hl)|exact D].
Qed.

Definition rnl (strs : list (Z * Z)) : list (Z * Z) := map (fun p => (fst p, fs (snd p))) strs.

(* the stream loops of FORWARD-TSN; g' is what g becomes on renamed streams *)
Lemma rn_poll g g' : (forall st sq, st_ok st -> Ds sq -> g' (rnst st) (fs sq) = fs (g st sq) /\ Ds (g st sq)) ->
  forall l strs, strs_ok strs -> Forall (fun p => Ds (snd p) /\ covers strs (fst p)) l ->
  poll g' (rnstrs strs) (rnl l) = (let '(s2, ms) := poll g strs l in (rnstrs s2, ms)) /\
  strs_ok (fst (poll g strs l)) /\ forall id, covers strs id -> covers (fst (poll g strs l)) id.
Proof.
  intros Hg. induction l as [|[id sq] l IH]; intros strs Hs Hl; cbn [poll rnl map fst snd]; [auto|].
  fold (rnl l). apply Forall_cons_iff in Hl as [[Hq Hcov] Hl']. cbn [fst snd] in Hq, Hcov.
  rewrite get_stream_rn by exact Hcov. destruct (get_stream_ok strs id Hs) as [Hr He].
  destruct (Hg (get_stream strs id) sq (conj Hr He) Hq) as [Eg Dg]. rewrite Eg. cbn [rnst reasm].
  pose proof (rn_poll_one strs id _ _ Hs Hr Dg) as H1.
  destruct (pop_messages (reasm (get_stream strs id)) (g (get_stream strs id) sq)) as [[l2 seq2] ms].
  destruct H1 as (E1 & E2 & Hs2). rewrite E1, E2.
  destruct (IH (set_stream strs id (mkStream l2 seq2)) Hs2) as (E & Hok & Hc).
  { eapply Forall_impl; [|exact Hl']. intros p [Hp1 Hp2]. split; [exact Hp1|now apply covers_set]. }
  rewrite E. destruct (poll g (set_stream strs id (mkStream l2 seq2)) l) as [s2 ms2]. cbn [fst] in *.
  split; [reflexivity|]. split; [exact Hok|]. intros id' H. now apply Hc, covers_set.
Qed.

Lemma rn_prune_all t : Dt t -> forall strs, strs_ok strs ->
  prune_all (rnstrs strs) (ft t) = (let '(s2, n) := prune_all strs t in (rnstrs s2, n)) /\
  strs_ok (fst (prune_all strs t)) /\ map fst (fst (prune_all strs t)) = map fst strs.
Proof.
  intros Ht. induction 1 as [|[k v] strs [Hv1 Hv2] Hs IH]; cbn [prune_all rnstrs map fst snd]; [split; [reflexivity|split; [constructor|reflexivity]]|].
  cbn [rnst reasm sseq_expected]. rewrite rn_prune by assumption.
  pose proof (prune_chunks_incl (reasm v) t) as Hi.
  destruct (prune_chunks (reasm v) t) as [r size]. cbn [fst] in Hi.
  destruct IH as (E & Hok & Hk). fold (rnstrs strs). rewrite E.
  destruct (prune_all strs t) as [l2 size2]. cbn [fst map] in *.
  split; [reflexivity|]. split; [|now rewrite Hk].
  constructor; [|exact Hok]. split; [exact (incl_Forall Hi Hv1)|exact Hv2].
Qed.

Definition wft (s : rstate) : Prop := Dt (last_rx s) /\ Forall Dt (misordered s) /\ Forall Dt (duplicates s).
Definition wfs (l : list (Z * stream)) : Prop := strs_ok l /\ forall id, K id -> covers l id.
Definition wf (s : rstate) : Prop := wft s /\ wfs (streams s).

Lemma rn_mark_received s t : wft s -> Dt t ->
  mark_received (rns s) (ft t) = (rns (fst (mark_received s t)), snd (mark_received s t)) /\
  wft (fst (mark_received s t)).
Proof.
  intros (H1 & H2 & H3) Ht. unfold mark_received. cbn [rns last_rx misordered duplicates streams rwnd sack_needed].
  rewrite ft_gte, rn_zmem by assumption.
  destruct (uint32_gte (last_rx s) t || zmem t (misordered s)); cbn [fst snd].
  - split; [unfold rns; cbn [last_rx misordered duplicates streams rwnd sack_needed]; now rewrite map_app|].
    split; [exact H1|]. split; [exact H2|]. apply Forall_app. split; [exact H3|constructor; [exact Ht|constructor]].
  - assert (Hm : Forall Dt (t :: misordered s)) by (constructor; assumption).
    change (ft t :: map ft (misordered s)) with (map ft (t :: misordered s)). rewrite rn_sorted.
    destruct (rn_consolidate (sorted_misordered (last_rx s) (t :: misordered s)) (last_rx s) H1 (sorted_dom _ _ Hm)) as [Ec Hc].
    rewrite Ec. split.
    + unfold rns. cbn [last_rx misordered duplicates streams rwnd sack_needed].
      rewrite !rn_filter_obsolete by assumption. reflexivity.
    + split; [exact Hc|]. split; now apply Forall_filter.
Qed.

Definition rnev (e : revent) : revent :=
  match e with EvData c => EvData (rnc c) | EvFwd cum strs => EvFwd (ft cum) (rnl strs) end.
Definition ev_dom (e : revent) : Prop :=
  match e with
  | EvData c => cdom c /\ K (sid c)
  | EvFwd cum strs => Dt cum /\ Forall (fun p => Ds (snd p) /\ K (fst p)) strs
  end.
Definition rnsack (k : sack) : sack := mkSack (ft (s_cum k)) (s_rwnd k) (s_gaps k) (map ft (s_dups k)).
Definition rnout (o : rout) : rout :=
  match o with OutOk ms (Some k) => OutOk ms (Some (rnsack k)) | other => other end.

Lemma rn_far_ahead s t : far_ahead (rns s) (ft t) = far_ahead s t.
Proof. unfold far_ahead. cbn [rns last_rx]. now rewrite ft_key. Qed.

Lemma rn_receive_data s c : wf s -> cdom c -> K (sid c) ->
  receive_data (rns s) (rnc c) = match receive_data s c with ROk s' ms => ROk (rns s') ms | RAssert => RAssert end /\
  match receive_data s c with ROk s' _ => wf s' | RAssert => True end.
Proof.
  intros [Hw [Hok Hcov]] Hc Hk. unfold receive_data.
  set (s0 := mkR (last_rx s) (misordered s) (duplicates s) (streams s) (rwnd s) true).
  change (mkR (last_rx (rns s)) (misordered (rns s)) (duplicates (rns s)) (streams (rns s)) (rwnd (rns s)) true) with (rns s0).
  cbn [rnc tsn sid udata]. rewrite rn_far_ahead.
  destruct (far_ahead s0 (tsn c)); [split; [reflexivity|split; [exact Hw|split; assumption]]|].
  destruct (rn_mark_received s0 (tsn c) Hw (proj1 Hc)) as [Em Hw1]. rewrite Em.
  pose proof (mark_received_streams s0 (tsn c)) as Hst.
  destruct (mark_received s0 (tsn c)) as [s1 dup]. cbn [fst snd streams s0] in *.
  assert (W1 : wf s1) by (split; [exact Hw1|rewrite Hst; split; assumption]).
  destruct dup; [split; [reflexivity|exact W1]|].
  cbn [rns streams]. rewrite Hst. rewrite get_stream_rn by auto. cbn [rnst reasm sseq_expected].
  destruct (get_stream_ok (streams s) (sid c) Hok) as [Hg Hq].
  fold (rnc c). rewrite rn_add_chunk by assumption.
  destruct (add_chunk (reasm (get_stream (streams s) (sid c))) c) as [l|] eqn:Ea; [|split; [reflexivity|exact I]].
  assert (Hl : Forall cdom l) by (apply (incl_Forall (add_chunk_incl _ _ _ Ea)); constructor; assumption).
  pose proof (rn_poll_one (streams s) (sid c) l _ Hok Hl Hq) as H1.
  destruct (pop_messages l (sseq_expected (get_stream (streams s) (sid c)))) as [[l2 seq2] ms].
  destruct H1 as (E1 & E2 & Hs2). rewrite E1.
  split.
  - f_equal. unfold rns. cbn [last_rx misordered duplicates streams rwnd sack_needed]. now rewrite E2.
  - split; [exact Hw1|]. cbn [streams]. split; [exact Hs2|]. intros id Hid. now apply covers_set, Hcov.
Qed.

Lemma rn_receive_forward_tsn s cum strs : wf s -> Dt cum -> Forall (fun p => Ds (snd p) /\ K (fst p)) strs ->
  receive_forward_tsn (rns s) (ft cum) (rnl strs) =
    (rns (fst (receive_forward_tsn s cum strs)), snd (receive_forward_tsn s cum strs)) /\
  wf (fst (receive_forward_tsn s cum strs)).
Proof.
  intros [(H1 & H2 & H3) [Hok Hcov]] Hc Hl. unfold receive_forward_tsn.
  cbn [rns last_rx misordered duplicates streams rwnd sack_needed].
  rewrite ft_gte by assumption.
  destruct (uint32_gte (last_rx s) cum).
  { cbn [fst snd]. split; [reflexivity|]. split; [split; [exact H1|split; assumption]|split; assumption]. }
  rewrite rn_filter_obsolete by assumption.
  pose proof (Forall_filter Dt (is_obsolete cum) _ H2) as Hm1.
  rewrite rn_sorted.
  destruct (rn_consolidate (sorted_misordered cum (filter (is_obsolete cum) (misordered s))) cum Hc (sorted_dom _ _ Hm1)) as [Ec Hc2].
  rewrite Ec. rewrite !rn_filter_obsolete by assumption.
  assert (Hl1 : forall l, (forall id, K id -> covers l id) -> Forall (fun p => Ds (snd p) /\ covers l (fst p)) strs).
  { intros l Hcl. eapply Forall_impl; [|exact Hl]. intros p [Hp1 Hp2]. auto. }
  rewrite !fwd_streams_poll.
  destruct (rn_poll fwd_seq fwd_seq) with (l := strs) (strs := streams s) as (Ef & Hok2 & Hcov2); auto.
  { intros st sq [_ Hse] Hsq. unfold fwd_seq. cbn [rnst sseq_expected]. rewrite fs_gte by assumption.
    destruct (uint16_gte sq (sseq_expected st)); [rewrite fs_succ|]; auto. }
  rewrite Ef.
  destruct (poll fwd_seq (streams s) strs) as [strs2 ms]. cbn [fst] in Hok2, Hcov2.
  destruct (rn_prune_all cum Hc strs2 Hok2) as (Ep & Hok3 & Hk3). rewrite Ep.
  destruct (prune_all strs2 cum) as [strs3 pruned]. cbn [fst] in Hok3, Hk3.
  assert (Hcov3 : forall id, K id -> covers strs3 id).
  { intros id Hid. destruct (Hcov2 id (Hcov id Hid)) as [E|H]; [now left|right; now rewrite Hk3]. }
  rewrite !repop_streams_poll.
  destruct (rn_poll (fun st _ => sseq_expected st) (fun st _ => sseq_expected st)) with (l := strs) (strs := strs3) as (Er & Hok4 & Hcov4); auto.
  { intros st sq [_ Hse] _. cbn [rnst sseq_expected]. auto. }
  rewrite Er.
  destruct (poll _ strs3 strs) as [strs4 ms']. cbn [fst snd] in *.
  split; [reflexivity|].
  split; [split; [exact Hc2|split; now apply Forall_filter]|]. split; [exact Hok4|]. intros id Hid. now apply Hcov4, Hcov3.
Qed.

Definition rncur (cur : option (Z * Z * Z)) : option (Z * Z * Z) :=
  match cur with Some (a, b, n) => Some (a, b, ft n) | None => None end.

Lemma rn_gap_blocks cum : forall l cur, Forall Dt l ->
  match cur with Some (_, _, n) => Dt n | None => True end ->
  gap_blocks (ft cum) (map ft l) (rncur cur) = gap_blocks cum l cur.
Proof.
  induction l as [|t l IH]; intros cur Hl Hn; cbn [gap_blocks map].
  - destruct cur as [[[a b] n]|]; reflexivity.
  - inversion Hl as [|? ? Ht Hl']; subst. rewrite ft_key, ft_succ.
    destruct cur as [[[a b] n]|]; cbn [rncur].
    + rewrite ft_eqb by assumption. destruct (t =? n).
      * exact (IH (Some (a, serial_key cum t, tsn_plus_one t)) Hl' (Dt_succ t)).
      * f_equal. exact (IH (Some (serial_key cum t, serial_key cum t, tsn_plus_one t)) Hl' (Dt_succ t)).
    + exact (IH (Some (serial_key cum t, serial_key cum t, tsn_plus_one t)) Hl' (Dt_succ t)).
Qed.

Lemma rn_make_sack s : wf s ->
  make_sack (rns s) = (rnsack (fst (make_sack s)), rns (snd (make_sack s))) /\ wf (snd (make_sack s)).
Proof.
  intros [(H1 & H2 & H3) H4]. unfold make_sack. cbn [rns last_rx misordered duplicates streams rwnd sack_needed fst snd].
  split.
  - f_equal. unfold rnsack. cbn [s_cum s_rwnd s_gaps s_dups]. f_equal.
    rewrite rn_sorted. exact (rn_gap_blocks (last_rx s) _ None (sorted_dom _ _ H2) I).
  - split; [split; [exact H1|split; [exact H2|constructor]]|exact H4].
Qed.

Lemma rn_rstep s e : wf s -> ev_dom e ->
  rstep (rns s) (rnev e) = (rns (fst (rstep s e)), rnout (snd (rstep s e))) /\ wf (fst (rstep s e)).
Proof.
  intros Hw He. destruct e as [c|cum strs]; cbn [rstep rnev ev_dom] in *.
  - destruct (rn_receive_data s c Hw (proj1 He) (proj2 He)) as [E Hw1]. rewrite E.
    destruct (receive_data s c) as [s1 ms|]; [|cbn [fst snd rnout]; auto].
    destruct (rn_make_sack s1 Hw1) as [Em Hw2]. rewrite Em.
    destruct (make_sack s1) as [sk s2]. cbn [fst snd rnout] in *. auto.
  - destruct (rn_receive_forward_tsn s cum strs Hw (proj1 He) (proj2 He)) as [E Hw1]. rewrite E.
    destruct (receive_forward_tsn s cum strs) as [s1 ms]. cbn [fst snd] in *.
    destruct (rn_make_sack s1 Hw1) as [Em Hw2]. rewrite Em.
    destruct (make_sack s1) as [sk s2]. cbn [fst snd rnout] in *. auto.
Qed.

(* Running the receiver on the renamed state and the renamed events gives the renamed state and
   the same outputs up to the renaming of the SACK's cumulative TSN and duplicate list: same
   deliveries, same gap blocks. *)
Theorem rename_invariant : forall es s, wf s -> Forall ev_dom es ->
  rrun (rns s) (map rnev es) = (rns (fst (rrun s es)), map rnout (snd (rrun s es))).
Proof.
  induction es as [|e es IH]; intros s Hw Hes; [reflexivity|].
  inversion Hes as [|? ? He Hrest]; subst. cbn [map]. rewrite !rrun_cons.
  destruct (rn_rstep s e Hw He) as [E Hw1]. rewrite E. cbn [fst snd].
  rewrite (IH _ Hw1 Hrest). reflexivity.
Qed.
End Rename.

Section Shift.
Variable d : Z.

Definition sh (t : Z) : Z := (t + d) mod 4294967296.
Definition r32 (t : Z) : Prop := 0 <= t < 4294967296.

Lemma sh_r32 t : r32 (sh t). Proof. unfold sh, r32. lia. Qed.
Lemma sh_inj a b : r32 a -> r32 b -> sh a = sh b -> a = b.
Proof. unfold sh, r32. lia. Qed.
Lemma sh_eqb a b : r32 a -> r32 b -> (sh a =? sh b) = (a =? b).
Proof.
  intros Ha Hb. destruct (Z.eqb_spec a b) as [->|Hne]; [apply Z.eqb_refl|].
  apply Z.eqb_neq. intros E. apply Hne. now apply sh_inj.
Qed.
Lemma sh_gt a b : r32 a -> r32 b -> uint32_gt (sh a) (sh b) = uint32_gt a b.
Proof. unfold sh. rewrite <- !uint32_add_mod. apply uint32_gt_shift. Qed.
Lemma sh_gte a b : r32 a -> r32 b -> uint32_gte (sh a) (sh b) = uint32_gte a b.
Proof. unfold sh. rewrite <- !uint32_add_mod. apply uint32_gte_shift. Qed.
Lemma sh_plus_one a : tsn_plus_one (sh a) = sh (tsn_plus_one a).
Proof. unfold sh, tsn_plus_one, SCTP_TSN_MODULO. rewrite !Zplus_mod_idemp_l. f_equal. lia. Qed.
Lemma sh_key b t : serial_key (sh b) (sh t) = serial_key b t.
Proof. unfold sh, serial_key, SCTP_TSN_MODULO. rewrite Zminus_mod_idemp_l, Zminus_mod_idemp_r. f_equal. lia. Qed.
Lemma plus_one_r32 a : r32 (tsn_plus_one a).
Proof. unfold r32, tsn_plus_one, SCTP_TSN_MODULO. lia. Qed.

Definition shc (c : chunk) : chunk :=
  mkChunk (sh (tsn c)) (sid c) (sseq c) (unordered c) (first c) (last c) (ppid c) (udata c).
Definition cok (c : chunk) : Prop := r32 (tsn c).

Definition shst (st : stream) : stream := mkStream (map shc (reasm st)) (sseq_expected st).
Definition shstrs (l : list (Z * stream)) : list (Z * stream) := map (fun kv => (fst kv, shst (snd kv))) l.
Definition shs (s : rstate) : rstate :=
  mkR (sh (last_rx s)) (map sh (misordered s)) (map sh (duplicates s)) (shstrs (streams s)) (rwnd s) (sack_needed s).

Definition shsack (k : sack) : sack := mkSack (sh (s_cum k)) (s_rwnd k) (s_gaps k) (map sh (s_dups k)).
Definition shout (o : rout) : rout :=
  match o with OutOk ms (Some k) => OutOk ms (Some (shsack k)) | other => other end.
Definition shev (e : revent) : revent :=
  match e with EvData c => EvData (shc c) | EvFwd cum strs => EvFwd (sh cum) strs end.
Definition ev_r32 (e : revent) : Prop :=
  match e with EvData c => cok c | EvFwd cum _ => r32 cum end.

(* every TSN of the state is a 32-bit number; nothing is asked of stream sequence numbers or stream ids *)
Definition wfst (s : rstate) : Prop := wf (fun x => x) r32 (fun _ => True) (fun _ => True) s.

Lemma shev_rnev e : shev e = rnev sh (fun x => x) e.
Proof.
  destruct e as [c|cum strs]; [reflexivity|]. cbn [shev rnev]. f_equal. unfold rnl.
  induction strs as [|[a b] strs IH]; [reflexivity|]. cbn [map fst snd]. now rewrite <- IH.
Qed.

(* For every event list with 32-bit TSNs: running the receiver on the shifted state and
   shifted events gives the shifted state and the same outputs up to the shift of the
   SACK's cumulative TSN and duplicate list -- same deliveries, same gap blocks. *)
Theorem receiver_shift_invariant : forall es s, wfst s -> Forall ev_r32 es ->
  rrun (shs s) (map shev es) = (shs (fst (rrun s es)), map shout (snd (rrun s es))).
Proof.
  intros es s Hw Hes. rewrite (map_ext _ _ shev_rnev).
  apply (rename_invariant sh (fun x => x) r32 (fun _ => True) (fun _ => True) sh_eqb sh_gt sh_plus_one plus_one_r32 sh_key
           (fun _ _ _ _ => eq_refl) (fun _ _ _ _ => eq_refl) (fun _ => eq_refl) (fun _ => I) I es s Hw).
  eapply Forall_impl; [|exact Hes]. intros [c|cum strs] He; cbn [ev_r32 ev_dom] in *; [exact (conj (conj He I) I)|].
  split; [exact He|]. apply Forall_forall. intros p _. exact (conj I I).
Qed.

Lemma wfst_rinit base : r32 base -> wfst (rinit base).
Proof. intros H. split; [split; [exact H|split; constructor]|]. split; [constructor|]. intros id _. now left. Qed.

Lemma shs_rinit base : shs (rinit base) = rinit (sh base).
Proof. reflexivity. Qed.

Lemma out_msgs_shout o : AV.Proof.SctpC01P.out_msgs (shout o) = AV.Proof.SctpC01P.out_msgs o.
Proof. destruct o as [ms [k|]|]; reflexivity. Qed.

End Shift.
