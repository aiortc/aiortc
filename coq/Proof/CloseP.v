(* Proofs about Model/Close.v (property C19), part 1: list helpers, `step` taken apart
   component by component (`step_view`), the decreasing measure. *)
From Coq Require Import ZArith List Bool Arith Lia.
From AV Require Import Lib.Sx Model.Close.
Import ListNotations.

Lemma nth_error_upd {A} (l : list A) i j x :
  nth_error (upd l j x) i =
  if Nat.eqb i j then match nth_error l j with Some _ => Some x | None => None end
  else nth_error l i.
Proof.
  revert i j. induction l as [|y l IH]; intros i j.
  - cbn [upd]. destruct (Nat.eqb i j); destruct i, j; cbn; reflexivity.
  - destruct j as [|j]; destruct i as [|i]; cbn [upd nth_error Nat.eqb]; try reflexivity.
    apply IH.
Qed.

Lemma nth_error_upd_same {A} (l : list A) i x y :
  nth_error l i = Some y -> nth_error (upd l i x) i = Some x.
Proof. intros H. rewrite nth_error_upd, Nat.eqb_refl, H. reflexivity. Qed.

Lemma nth_error_upd_other {A} (l : list A) i j x :
  i <> j -> nth_error (upd l j x) i = nth_error l i.
Proof. intros H. rewrite nth_error_upd. destruct (Nat.eqb_spec i j); [contradiction|reflexivity]. Qed.

Lemma length_upd {A} (l : list A) i x : length (upd l i x) = length l.
Proof. revert i; induction l as [|y l IH]; intros [|i]; cbn [upd length]; auto. Qed.

Definition pointwise {A} (R : nat -> A -> A -> Prop) (l l' : list A) : Prop :=
  forall i, match nth_error l i, nth_error l' i with
            | Some x, Some x' => R i x x'
            | None, None => True
            | _, _ => False
            end.

Lemma pointwise_map {A} (R : nat -> A -> A -> Prop) f l :
  (forall i x, nth_error l i = Some x -> R i x (f x)) -> pointwise R l (map f l).
Proof. intros H i. rewrite nth_error_map. destruct (nth_error l i) eqn:E; cbn; auto. Qed.

Lemma pointwise_refl {A} (R : nat -> A -> A -> Prop) l :
  (forall i x, nth_error l i = Some x -> R i x x) -> pointwise R l l.
Proof. intros H i. destruct (nth_error l i) eqn:E; auto. Qed.

Lemma pointwise_upd {A} (R : nat -> A -> A -> Prop) l i x x' :
  nth_error l i = Some x -> R i x x' -> (forall j y, nth_error l j = Some y -> R j y y) ->
  pointwise R l (upd l i x').
Proof.
  intros Hn Hx Hr j. rewrite nth_error_upd. destruct (Nat.eqb_spec j i) as [->|Hne].
  - rewrite Hn. exact Hx.
  - destruct (nth_error l j) eqn:E; auto.
Qed.

Lemma pointwise_nth {A} (R : nat -> A -> A -> Prop) l l' i x' :
  pointwise R l l' -> nth_error l' i = Some x' -> exists x, nth_error l i = Some x /\ R i x x'.
Proof. intros H Hn. specialize (H i). rewrite Hn in H. destruct (nth_error l i); [eauto|contradiction]. Qed.

Lemma op_eqb_eq a b : op_eqb a b = true -> a = b.
Proof.
  destruct a, b; cbn [op_eqb]; intros H; try discriminate; try reflexivity;
    apply Nat.eqb_eq in H; subst; reflexivity.
Qed.

Lemma op_eqb_refl a : op_eqb a a = true.
Proof. destruct a; cbn [op_eqb]; auto using Nat.eqb_refl. Qed.

Lemma head_main c o s : head c = Some (o, s) -> exists id todo, c_main c = Some (id, o :: todo, s).
Proof.
  unfold head. destruct (c_main c) as [[[id todo] u]|]; [|discriminate].
  destruct todo as [|o' todo]; [discriminate|]. intros H. injection H as -> ->. eauto.
Qed.

Lemma main_head c id o todo s : c_main c = Some (id, o :: todo, s) -> head c = Some (o, s).
Proof. intros H. unfold head. rewrite H. reflexivity. Qed.

Ltac some_cases H :=
  repeat first
  [ discriminate H
  | match type of H with
    | match ?x with _ => _ end = Some _ => let E := fresh "E" in destruct x eqn:E
    | (if ?x then _ else _) = Some _ => let E := fresh "E" in destruct x eqn:E
    end ];
  try (injection H as H; subst).
Definition map_trx (c : cfg) (f : trx -> trx) : cfg :=
  mkCfg (map f (c_trx c)) (c_tps c) (c_sctp c) (c_closed c) (c_main c) (c_waiters c) (c_sig_closed c).

(* _handle_disconnect() of a receiver routed through transport t *)
Definition disconnect (t : nat) (x : trx) : trx :=
  if Nat.eqb (t_tp x) t then with_r x (stop_decoder (t_r x)) else x.

(* the task of kind k of a transceiver (KPump is not one of them: it never begins, ends or is set) *)
Definition task_of (k : kind) (x : trx) : tstate :=
  match k with
  | KSRtp => s_rtp (t_s x) | KSRtcp => s_rtcp (t_s x) | KRRtcp => r_rtcp (t_r x) | KPump => TNone
  end.
Definition set_task (k : kind) (x : trx) (st : tstate) : trx :=
  match k with
  | KSRtp => with_s x (mkS (s_started (t_s x)) st (s_rtcp (t_s x)))
  | KSRtcp => with_s x (mkS (s_started (t_s x)) (s_rtp (t_s x)) st)
  | KRRtcp => with_r x (mkR (r_started (t_r x)) st (r_dec (t_r x)) (r_eos (t_r x)))
  | KPump => x
  end.

(* the events that touch one transceiver and read nothing else *)
Definition ev_trx (e : ev) : option nat :=
  match e with ETaskBegin _ i | ETaskEnd _ i _ | ERemoteBye i => Some i | _ => None end.
Definition trx_step (fx : bool) (e : ev) (x : trx) : option trx :=
  match e with
  | ETaskBegin k _ => match task_of k x with TCreated => Some (set_task k x TRunning) | _ => None end
  | ETaskEnd k _ ex =>
      option_map (set_task k x) (task_end fx (match k with KSRtp => false | _ => true end) (task_of k x) ex)
  | ERemoteBye _ => Some (with_r x (stop_decoder (t_r x)))
  | _ => None
  end.

(* the events that touch one transport and read nothing else (a pump ending in
   ConnectionError also disconnects the receivers: see step_view) *)
Definition ev_tp (e : ev) : option nat :=
  match e with
  | EIceStart t | EIceStartRet t _ | EDtlsStart t | EDtlsStartRet t _ | EPumpEnd t _ | EMonEnd t
  | EIceLost t | ECandEnd t => Some t
  | _ => None
  end.
Definition pump_fin (tp : transport) : transport :=
  mkTp DClosed PDone (d_ref tp) (i_state tp) (i_mon tp) (i_starting tp) (i_cclosed tp) (i_consent tp) (i_candend tp).
Definition tp_step (fx : bool) (e : ev) (tp : transport) : option transport :=
  match e with
  | EIceStart _ =>
      match i_state tp, i_mon tp with
      | IClosed, _ => None
      | _, MNone => Some (mkTp (d_state tp) (d_pump tp) (d_ref tp) IChecking MWaiting true
                               (i_cclosed tp) (i_consent tp) (i_candend tp))
      | _, _ => None
      end
  | EIceStartRet _ ok =>
      if i_starting tp && (ok || i_candend tp) then
        let closed := match i_state tp with IClosed => true | _ => false end in
        Some (mkTp (d_state tp) (d_pump tp) (d_ref tp)
                   (if closed && fx then IClosed else if ok then ICompleted else IFailed) (i_mon tp) false
                   (i_cclosed tp) (if ok then negb (closed && fx) else i_consent tp) (i_candend tp))
      else None
  | EDtlsStart _ =>
      match d_state tp with
      | DNew => Some (mkTp DConnecting (d_pump tp) (d_ref tp) (i_state tp) (i_mon tp)
                           (i_starting tp) (i_cclosed tp) (i_consent tp) (i_candend tp))
      | _ => None
      end
  | EDtlsStartRet _ ok =>
      match d_state tp with
      | DConnecting =>
          if ok then Some (mkTp DConnected PRunning true (i_state tp) (i_mon tp)
                                (i_starting tp) (i_cclosed tp) (i_consent tp) (i_candend tp))
          else Some (mkTp DFailed (d_pump tp) (d_ref tp) (i_state tp) (i_mon tp)
                          (i_starting tp) (i_cclosed tp) (i_consent tp) (i_candend tp))
      | _ => None
      end
  | EPumpEnd _ how =>
      match d_pump tp, how with
      | PCancelling, 0 | PRunning, 2 => Some (pump_fin tp)
      | _, _ => None
      end
  | EMonEnd _ =>
      match i_mon tp with
      | MWaiting =>
          if i_cclosed tp then
            Some (mkTp (d_state tp) (d_pump tp) (d_ref tp)
                       (match i_state tp with ICompleted => IFailed | s => s end)
                       MDone (i_starting tp) (i_cclosed tp) (i_consent tp) (i_candend tp))
          else None
      | _ => None
      end
  | EIceLost _ =>
      if i_consent tp then
        Some (mkTp (d_state tp) (d_pump tp) (d_ref tp) (i_state tp) (i_mon tp)
                   (i_starting tp) true false (i_candend tp))
      else None
  | ECandEnd _ =>
      Some (mkTp (d_state tp) (d_pump tp) (d_ref tp) (i_state tp) (i_mon tp)
                 (i_starting tp) (i_cclosed tp) (i_consent tp) true)
  | _ => None
  end.

(* the calls __connect makes; on a component started before they do nothing *)
Definition ev_connect (e : ev) : bool :=
  match e with ESend _ | EReceive _ | ESctpStart => true | _ => false end.

(* __connect may start a component on transport t *)
Definition may_start (fx : bool) (c : cfg) (t : nat) : Prop :=
  exists tp, nth_error (c_tps c) t = Some tp /\ dconnected tp && (negb fx || is_open c) = true.

(* stop_call fx c o = Some (set_sub c1 s) *)
Inductive stop_called (fx : bool) (c : cfg) : op -> cfg -> sub -> Prop :=
| SC_recv i x (Hx : nth_error (c_trx c) i = Some x) (Hr : r_started (t_r x) = true) :
    stop_called fx c (ORecvStop i) (set_trx c i (with_r x (stop_decoder (t_r x)))) SWaitStarted
| SC_recv_unstarted i x (Hx : nth_error (c_trx c) i = Some x) (Hr : r_started (t_r x) = false) :
    stop_called fx c (ORecvStop i)
      (set_trx c i (with_r x (mkR false (r_rtcp (t_r x)) (r_dec (t_r x)) (r_eos (t_r x) || fx)))) SDone
| SC_send i x (Hx : nth_error (c_trx c) i = Some x) :
    stop_called fx c (OSendStop i) c (if s_started (t_s x) then SWaitStarted else SDone)
| SC_sctp sc (Hsc : c_sctp c = Some sc) :
    stop_called fx c OSctpStop (set_sctp c (Some (mkSc (sc_tp sc) (sc_started sc) true false 0))) SDone
| SC_dtls t tp (Ht : nth_error (c_tps c) t = Some tp) :
    stop_called fx c (ODtlsStop t) c (if d_ref tp then SNeedCancel else SDone)
| SC_ice_closed t tp (Ht : nth_error (c_tps c) t = Some tp) (Hi : i_state tp = IClosed) :
    stop_called fx c (OIceStop t) c SDone
| SC_ice t tp (Ht : nth_error (c_tps c) t = Some tp) (Hi : i_state tp <> IClosed) :
    stop_called fx c (OIceStop t)
      (set_tp c t (mkTp (d_state tp) (d_pump tp) (d_ref tp) IClosed (i_mon tp) (i_starting tp)
                        (i_cclosed tp) (i_consent tp) (i_candend tp || fx))) SIceClosing.

Lemma stop_call_view fx c o c' :
  stop_call fx c o = Some c' -> exists c1 s, c' = set_sub c1 s /\ stop_called fx c o c1 s.
Proof.
  unfold stop_call. intros H. destruct o; some_cases H; do 2 eexists; (split; [reflexivity|]).
  all: try (econstructor; eauto; fail).
  all: apply SC_ice; [exact E|congruence].
Qed.

Inductive step_view (fx : bool) (c : cfg) : ev -> cfg -> Prop :=
| V_tp e t tp tp' (He : ev_tp e = Some t) (Ht : nth_error (c_tps c) t = Some tp)
    (Hs : tp_step fx e tp = Some tp') :
    step_view fx c e (set_tp c t tp')
| V_pump_err t tp (Ht : nth_error (c_tps c) t = Some tp) (Hp : d_pump tp = PRunning) :
    step_view fx c (EPumpEnd t 1) (map_trx (set_tp c t (pump_fin tp)) (disconnect t))
| V_trx e i x x' (He : ev_trx e = Some i) (Hx : nth_error (c_trx c) i = Some x)
    (Hs : trx_step fx e x = Some x') :
    step_view fx c e (set_trx c i x')
| V_started e (He : ev_connect e = true) :
    step_view fx c e c
| V_send i x (Hx : nth_error (c_trx c) i = Some x) (Hs : s_started (t_s x) = false)
    (Hg : may_start fx c (t_tp x)) :
    step_view fx c (ESend i) (set_trx c i (with_s x (mkS true TCreated TCreated)))
| V_receive i x (Hx : nth_error (c_trx c) i = Some x) (Hs : r_started (t_r x) = false)
    (Hg : may_start fx c (t_tp x)) :
    step_view fx c (EReceive i) (set_trx c i (with_r x (mkR true TCreated true (r_eos (t_r x)))))
| V_sctp_start sc (Hsc : c_sctp c = Some sc) (Hs : sc_started sc = false) (Hg : may_start fx c (sc_tp sc)) :
    step_view fx c ESctpStart (set_sctp c (Some (mkSc (sc_tp sc) true (sc_stopped sc) true (sc_chans sc))))
| V_nego (Hg : negb fx || is_open c = true) :
    step_view fx c ENegoSig (mkCfg (c_trx c) (c_tps c) (c_sctp c) (c_closed c) (c_main c) (c_waiters c) false)
| V_chan sc (Hsc : c_sctp c = Some sc) (Hg : is_open c || negb (sc_stopped sc) = true) :
    step_view fx c EChanNew
      (set_sctp c (Some (mkSc (sc_tp sc) (sc_started sc) (sc_stopped sc) (sc_timers sc) (S (sc_chans sc)))))
| V_sctp_down sc (Hsc : c_sctp c = Some sc) :
    step_view fx c ESctpDown (set_sctp c (Some (mkSc (sc_tp sc) (sc_started sc) true false 0)))
| V_close id (Hc : c_closed c = FNone) :
    step_view fx c (ECloseCall id)
      (mkCfg (c_trx c) (c_tps c) (c_sctp c) FPending (Some (id, plan c, SIdle)) (c_waiters c) true)
| V_close_again id (Hc : c_closed c <> FNone) :
    step_view fx c (ECloseCall id)
      (mkCfg (c_trx c) (c_tps c) (c_sctp c) (c_closed c) (c_main c) (id :: c_waiters c) (c_sig_closed c))
| V_close_ret id (Hm : c_main c = Some (id, [], SIdle)) :
    step_view fx c (ECloseRet id)
      (mkCfg (c_trx c) (c_tps c) (c_sctp c) FDone None (c_waiters c) (c_sig_closed c))
| V_waiter_ret id (Hc : c_closed c = FDone) (Hm : forall id', c_main c <> Some (id', [], SIdle)) :
    step_view fx c (ECloseRet id)
      (mkCfg (c_trx c) (c_tps c) (c_sctp c) (c_closed c) (c_main c)
             (filter (fun x => negb (Nat.eqb id x)) (c_waiters c)) (c_sig_closed c))
| V_stop_call o id todo c1 s (Hm : c_main c = Some (id, o :: todo, SIdle)) (Hsc : stop_called fx c o c1 s) :
    step_view fx c (EStopCall o) (set_sub c1 s)
| V_stop_ret o id todo s (Hm : c_main c = Some (id, o :: todo, s)) (Hr : stop_ret c o s = true) :
    step_view fx c (EStopRet o) (set_main c (Some (id, todo, SIdle)))
| V_cancel_recv i id todo x (Hm : c_main c = Some (id, ORecvStop i :: todo, SWaitStarted))
    (Hx : nth_error (c_trx c) i = Some x) (Hst : started_set (r_rtcp (t_r x)) = true) :
    step_view fx c (ECancel KRRtcp i)
      (set_sub (set_trx c i (set_task KRRtcp x (cancel (r_rtcp (t_r x))))) SWaitExited)
| V_cancel_rtp i id todo x (Hm : c_main c = Some (id, OSendStop i :: todo, SWaitStarted))
    (Hx : nth_error (c_trx c) i = Some x)
    (Hst : started_set (s_rtp (t_s x)) = true) (Hst2 : started_set (s_rtcp (t_s x)) = true) :
    step_view fx c (ECancel KSRtp i)
      (set_sub (set_trx c i (set_task KSRtp x (cancel (s_rtp (t_s x))))) SCancel1)
| V_cancel_rtcp i id todo x (Hm : c_main c = Some (id, OSendStop i :: todo, SCancel1))
    (Hx : nth_error (c_trx c) i = Some x) :
    step_view fx c (ECancel KSRtcp i)
      (set_sub (set_trx c i (set_task KSRtcp x (cancel (s_rtcp (t_s x))))) SWaitExited)
| V_cancel_pump t id todo tp (Hm : c_main c = Some (id, ODtlsStop t :: todo, SNeedCancel))
    (Ht : nth_error (c_tps c) t = Some tp) :
    step_view fx c (ECancel KPump t)
      (set_sub (set_tp c t (mkTp (d_state tp) (match d_pump tp with PRunning => PCancelling | p => p end)
                                 false (i_state tp) (i_mon tp) (i_starting tp) (i_cclosed tp) (i_consent tp)
                                 (i_candend tp))) SDone)
| V_ice_conn_closed t id todo tp (Hm : c_main c = Some (id, OIceStop t :: todo, SIceClosing))
    (Ht : nth_error (c_tps c) t = Some tp) :
    step_view fx c (EIceConnClosed t)
      (set_sub (set_tp c t (mkTp (d_state tp) (d_pump tp) (d_ref tp) (i_state tp) (i_mon tp)
                                 (i_starting tp) true false (i_candend tp)))
               (match i_mon tp with MNone => SDone | _ => SWaitMon end)).

(* step's ECloseRet branch matches c_main against (id, [], SIdle); taken apart constructor by
   constructor, its other branch would come back sixteen times *)
Lemma main_returning (m : option (nat * list op * sub)) :
  (exists id, m = Some (id, [], SIdle)) \/
  forall A (f : nat -> A) (g : A), match m with Some (id, [], SIdle) => f id | _ => g end = g.
Proof. destruct m as [[[id [|o todo]] []]|]; eauto. Qed.

Lemma step_cases fx c e c' : step fx c e = Some c' -> step_view fx c e c'.
Proof.
  intros HS. destruct e; cbn [step] in HS.
  - some_cases HS; eapply V_tp; eauto; cbn [tp_step]; rewrite E0, E1; reflexivity.
  - some_cases HS. eapply V_tp; eauto. cbn [tp_step]. rewrite E0. reflexivity.
  - some_cases HS. eapply V_tp; eauto. cbn [tp_step]. rewrite E0. reflexivity.
  - some_cases HS; (eapply V_tp; eauto); cbn [tp_step]; rewrite E0; reflexivity.
  - some_cases HS; [apply V_started; reflexivity|eapply V_send; eauto; exists t0; eauto].
  - some_cases HS; [apply V_started; reflexivity|eapply V_receive; eauto; exists t0; eauto].
  - some_cases HS; [apply V_started; reflexivity|eapply V_sctp_start; eauto; exists t; eauto].
  - some_cases HS; (eapply V_trx; [reflexivity|exact E|]); cbn [trx_step task_of]; rewrite E1; reflexivity.
  - some_cases HS; (eapply V_trx; [reflexivity|exact E|]); cbn [trx_step task_of]; rewrite E1; reflexivity.
  - some_cases HS.
    + apply V_pump_err; assumption.
    + eapply V_tp; eauto. cbn [tp_step]. rewrite E0. reflexivity.
    + eapply V_tp; eauto. cbn [tp_step]. rewrite E0. reflexivity.
  - some_cases HS. eapply V_tp; eauto. cbn [tp_step]. rewrite E0, E1. reflexivity.
  - some_cases HS. eapply V_trx; eauto.
  - some_cases HS. eapply V_tp; eauto. cbn [tp_step]. rewrite E0. reflexivity.
  - some_cases HS. apply V_nego. exact E.
  - some_cases HS. apply V_chan; assumption.
  - some_cases HS. apply V_sctp_down. exact E.
  - some_cases HS. eapply V_tp; eauto.
  - some_cases HS; [apply V_close; exact E|rewrite <- E|rewrite <- E]; apply V_close_again; congruence.
  - destruct (main_returning (c_main c)) as [[id' Em]|Hd].
    + rewrite Em in HS. some_cases HS. apply Nat.eqb_eq in E. subst. apply V_close_ret. exact Em.
    + rewrite Hd in HS. destruct (c_closed c) eqn:Ec; some_cases HS. rewrite <- Ec. apply V_waiter_ret; [exact Ec|].
      intros id' Em. rewrite Em in Hd. discriminate (Hd bool (fun _ => true) false).
  - destruct (head c) as [[o' []]|] eqn:Eh; try discriminate.
    destruct (op_eqb o o') eqn:Eo; [|discriminate]. apply op_eqb_eq in Eo. subst o'.
    apply head_main in Eh. destruct Eh as (id & todo & Em).
    apply stop_call_view in HS. destruct HS as (c1 & s & -> & HS). eapply V_stop_call; eauto.
  - destruct (head c) as [[o' s]|] eqn:Eh; [|discriminate].
    destruct (op_eqb o o') eqn:Eo; [|discriminate]. apply op_eqb_eq in Eo. subst o'.
    apply head_main in Eh. destruct Eh as (id & todo & Em).
    unfold pop_main in HS. rewrite Em in HS. some_cases HS. eapply V_stop_ret; eauto.
  - unfold do_cancel in HS. some_cases HS.
    all: apply head_main in E; destruct E as (id & todo & Em); apply Nat.eqb_eq in E4; subst.
    + eapply V_cancel_recv; eauto.
    + apply andb_prop in E6. destruct E6. eapply V_cancel_rtp; eauto.
    + eapply V_cancel_rtcp; eauto.
    + eapply V_cancel_pump; eauto.
  - some_cases HS. apply head_main in E. destruct E as (id & todo & Em). apply Nat.eqb_eq in E3. subst.
    eapply V_ice_conn_closed; eauto.
Qed.

Lemma run_inv fx (P : cfg -> Prop) :
  (forall c e c', P c -> step fx c e = Some c' -> P c') ->
  forall evs c c', P c -> run fx c evs = Some c' -> P c'.
Proof.
  intros HP. induction evs as [|e evs IH]; intros c c' Hc HR; cbn [run] in HR.
  - injection HR as <-. exact Hc.
  - destruct (step fx c e) as [c1|] eqn:HS; [|discriminate]. eauto.
Qed.

Lemma run_app fx c c1 c2 l1 l2 :
  run fx c l1 = Some c1 -> run fx c1 l2 = Some c2 -> run fx c (l1 ++ l2) = Some c2.
Proof.
  revert c. induction l1 as [|e l1 IH]; intros c H1 H2; cbn [run app] in *.
  - injection H1 as ->. exact H2.
  - destruct (step fx c e); [eauto|discriminate].
Qed.

Lemma helps_main_none c e : c_main c = None -> helps c e = false.
Proof. intros H. unfold helps. rewrite H. reflexivity. Qed.

Definition trx_le (x' x : trx) : Prop :=
  begin_cost (s_rtp (t_s x')) <= begin_cost (s_rtp (t_s x)) /\
  begin_cost (s_rtcp (t_s x')) <= begin_cost (s_rtcp (t_s x)) /\
  begin_cost (r_rtcp (t_r x')) <= begin_cost (r_rtcp (t_r x)) /\
  end_cost (s_rtp (t_s x')) <= end_cost (s_rtp (t_s x)) /\
  end_cost (s_rtcp (t_s x')) <= end_cost (s_rtcp (t_s x)) /\
  end_cost (r_rtcp (t_r x')) <= end_cost (r_rtcp (t_r x)).
Definition trxs_le (l l' : list trx) : Prop := pointwise (fun _ x x' => trx_le x' x) l l'.
Definition tps_le (l l' : list transport) : Prop :=
  pointwise (fun _ tp tp' => mon_cost (i_mon tp') <= mon_cost (i_mon tp)) l l'.

Lemma trx_le_refl x : trx_le x x.
Proof. unfold trx_le; repeat split; lia. Qed.

Lemma trxs_le_refl l : trxs_le l l.
Proof. apply pointwise_refl. intros. apply trx_le_refl. Qed.

Lemma tps_le_refl l : tps_le l l.
Proof. apply pointwise_refl. intros. lia. Qed.

(* residual only reads the task states of c_trx and the monitors of c_tps *)
Lemma residual_le c c' o s :
  trxs_le (c_trx c) (c_trx c') -> tps_le (c_tps c) (c_tps c') -> residual c' o s <= residual c o s.
Proof.
  intros Ht Hp. unfold residual.
  destruct s; try lia; destruct o as [i|i| |t|t]; try lia.
  all: try (specialize (Ht i); destruct (nth_error (c_trx c') i) as [x'|], (nth_error (c_trx c) i) as [x|];
            try contradiction; try lia; unfold trx_le in Ht; lia).
  all: try (specialize (Hp t); destruct (nth_error (c_tps c') t) as [x'|], (nth_error (c_tps c) t) as [x|];
            try contradiction; lia).
Qed.

Lemma measure_main c id o todo s :
  c_main c = Some (id, o :: todo, s) -> measure c = residual c o s + sum_cost todo + 1.
Proof. intros Hm. unfold measure. rewrite Hm. reflexivity. Qed.

Lemma measure_le c c' :
  c_main c' = c_main c -> trxs_le (c_trx c) (c_trx c') -> tps_le (c_tps c) (c_tps c') ->
  measure c' <= measure c.
Proof.
  intros Hm Ht Hp. unfold measure. rewrite Hm.
  destruct (c_main c) as [[[id [|o todo]] s]|]; try lia.
  pose proof (residual_le c c' o s Ht Hp). lia.
Qed.

Lemma measure_set_trx c i x x' :
  nth_error (c_trx c) i = Some x -> trx_le x' x -> measure (set_trx c i x') <= measure c.
Proof.
  intros Hn Hle. apply measure_le; [reflexivity| |apply tps_le_refl].
  apply pointwise_upd with x; auto using trx_le_refl.
Qed.

Lemma measure_set_tp c t x x' :
  nth_error (c_tps c) t = Some x -> mon_cost (i_mon x') <= mon_cost (i_mon x) ->
  measure (set_tp c t x') <= measure c.
Proof.
  intros Hn Hle. apply measure_le; [reflexivity|apply trxs_le_refl|].
  apply pointwise_upd with x; auto.
Qed.

(* the close() coroutine moves to await point s' of its current stop(), after a change of components *)
Lemma measure_move c c1 id o todo s s' :
  c_main c = Some (id, o :: todo, s) -> c_main c1 = c_main c -> residual c1 o s' < residual c o s ->
  measure (set_sub c1 s') < measure c.
Proof.
  intros Hm H1 Hr. rewrite (measure_main _ _ _ _ _ Hm). unfold set_sub, measure. rewrite H1, Hm.
  cbn [c_main set_main]. change (residual c1 o s' + sum_cost todo + 1 < residual c o s + sum_cost todo + 1). lia.
Qed.

Lemma trx_le_set_task k x b :
  begin_cost b <= begin_cost (task_of k x) -> end_cost b <= end_cost (task_of k x) -> trx_le (set_task k x b) x.
Proof. intros. destruct k; unfold trx_le; cbn in *; repeat split; lia. Qed.

Lemma trx_le_stop_decoder x : trx_le (with_r x (stop_decoder (t_r x))) x.
Proof. unfold stop_decoder, trx_le. destruct (r_dec (t_r x)); cbn; repeat split; lia. Qed.

Lemma task_end_done fx rtcp st ex st' :
  task_end fx rtcp st ex = Some st' -> (st = TRunning \/ st = TCancelling) /\ (st' = TExited \/ st' = TFailed).
Proof. unfold task_end. destruct st, rtcp, fx, ex; cbn; intros H; try discriminate; injection H as <-; auto. Qed.

Lemma trx_step_le fx e x x' : trx_step fx e x = Some x' -> trx_le x' x.
Proof.
  destruct e; try discriminate; cbn [trx_step].
  - destruct (task_of k x) eqn:Et; try discriminate. intros [= <-].
    apply trx_le_set_task; rewrite Et; cbn; lia.
  - destruct (task_end _ _ _ _) as [b|] eqn:Et; try discriminate. intros [= <-].
    apply task_end_done in Et. destruct Et as [[Ha | Ha] [-> | ->]]; apply trx_le_set_task; rewrite Ha; cbn; lia.
  - intros [= <-]. apply trx_le_stop_decoder.
Qed.

Lemma tp_step_mon fx e tp tp' : tp_step fx e tp = Some tp' -> mon_cost (i_mon tp') <= mon_cost (i_mon tp).
Proof.
  destruct e; try discriminate; cbn [tp_step]; intros H.
  (* only EIceStart and EMonEnd touch the monitor *)
  1, 6: destruct (i_mon tp) eqn:Em.
  all: some_cases H; cbn [i_mon]; rewrite ?Em; cbn; lia.
Qed.

(* a sender / receiver that was not started has no task (part of the invariant, see CloseInvP.inv) *)
Definition unstarted_ok (x : trx) : Prop :=
  (s_started (t_s x) = false -> s_rtp (t_s x) = TNone /\ s_rtcp (t_s x) = TNone) /\
  (r_started (t_r x) = false -> r_rtcp (t_r x) = TNone /\ r_dec (t_r x) = false).
Definition wfA (c : cfg) : Prop := forall i x, nth_error (c_trx c) i = Some x -> unstarted_ok x.

Lemma residual_pos c o s : 1 <= residual c o s.
Proof.
  unfold residual. destruct s, o; cbn [op_cost]; try lia.
  all: match goal with |- context [nth_error ?l ?i] => destruct (nth_error l i) as [x|]; lia end.
Qed.

Lemma task_cost_le t : begin_cost t <= 1 /\ end_cost t <= 1.
Proof. destruct t; cbn; lia. Qed.

Lemma mon_cost_le m : mon_cost m <= 1.
Proof. destruct m; cbn; lia. Qed.

Lemma residual_lt_cost c o s : s <> SIdle -> residual c o s < op_cost o.
Proof.
  intros Hs. unfold residual. destruct s, o; cbn [op_cost]; try lia; try congruence.
  13: destruct (nth_error (c_tps c) t) as [tp|]; [pose proof (mon_cost_le (i_mon tp))|]; lia.
  all: destruct (nth_error (c_trx c) i) as [x|]; [|lia].
  all: pose proof (task_cost_le (r_rtcp (t_r x))); pose proof (task_cost_le (s_rtp (t_s x)));
    pose proof (task_cost_le (s_rtcp (t_s x))); lia.
Qed.

Lemma task_end_fixed rtcp st ex st' :
  task_end true rtcp st ex = Some st' -> (st = TRunning \/ st = TCancelling) /\ st' = TExited /\ ex = true.
Proof.
  unfold task_end. destruct st, rtcp, ex; cbn; intros H; try discriminate; injection H as <-; auto.
Qed.

Lemma measure_lt c c' id o todo s s' :
  c_main c = Some (id, o :: todo, s) -> c_main c' = Some (id, o :: todo, s') ->
  residual c' o s' < residual c o s -> measure c' < measure c.
Proof. intros H H' Hr. rewrite (measure_main _ _ _ _ _ H), (measure_main _ _ _ _ _ H'). lia. Qed.

Lemma trx_step_progress e x x' :
  trx_step true e x = Some x' ->
  match e with
  | ETaskBegin k _ => begin_cost (task_of k x') < begin_cost (task_of k x)
  | ETaskEnd k _ _ => end_cost (task_of k x') < end_cost (task_of k x)
  | _ => True
  end.
Proof.
  destruct e; try exact (fun _ => I); cbn [trx_step].
  - destruct (task_of k x) eqn:Et; try discriminate. intros [= <-]. destruct k; try discriminate; cbn; lia.
  - destruct (task_end _ _ _ _) as [b|] eqn:Et; try discriminate. intros [= <-].
    apply task_end_fixed in Et. destruct Et as ([Ha|Ha] & -> & _); rewrite Ha; destruct k; try discriminate; cbn; lia.
Qed.

Lemma lt_le_and (P : Prop) a b : a < b -> a <= b /\ (P -> a < b).
Proof. intros H. split; [apply Nat.lt_le_incl|intros _]; exact H. Qed.

Ltac no_help :=
  let Hh := fresh "Hh" in
  intros Hh; unfold helps in Hh;
  repeat match type of Hh with
         | match ?x with _ => _ end = true => destruct x; try discriminate Hh
         end.

Lemma step_measure c e c' :
  step true c e = Some c' -> c_closed c <> FNone -> wfA c ->
  measure c' <= measure c /\ (helps c e = true -> measure c' < measure c).
Proof.
  intros HS Hcl HA. apply step_cases in HS.
  destruct HS.
  - (* V_tp *) split; [eapply measure_set_tp; eauto using tp_step_mon|].
    intros Hh. unfold helps in Hh. destruct (c_main c) as [[[id todo] s]|] eqn:Em; [|discriminate].
    destruct e; try discriminate. destruct todo as [|[] todo]; try discriminate. destruct s; try discriminate.
    apply Nat.eqb_eq in Hh. injection He as <-. subst.
    eapply measure_lt; [exact Em|exact Em|]. unfold residual. cbn [c_tps set_tp].
    rewrite (nth_error_upd_same _ _ _ _ Ht), Ht. cbn [tp_step] in Hs. some_cases Hs. cbn. lia.
  - (* V_pump_err *) split; [|no_help]. apply measure_le; [reflexivity|apply pointwise_map|eapply pointwise_upd; eauto].
    intros i x _. unfold disconnect. destruct (t_tp x =? t); [apply trx_le_stop_decoder|apply trx_le_refl].
  - (* V_trx *) split; [eapply measure_set_trx; eauto using trx_step_le|].
    intros Hh. unfold helps in Hh. destruct (c_main c) as [[[id todo] s]|] eqn:Em; [|discriminate].
    destruct e; try discriminate; destruct todo as [|[] todo]; try discriminate; destruct s; try discriminate.
    all: apply andb_prop in Hh; destruct Hh as [Hk Hh]; apply Nat.eqb_eq in Hh; injection He as <-; subst.
    all: (eapply measure_lt; [exact Em|exact Em|]); unfold residual; cbn [c_trx set_trx].
    all: rewrite (nth_error_upd_same _ _ _ _ Hx), Hx; pose proof (trx_step_le _ _ _ _ Hs) as Hle.
    all: apply trx_step_progress in Hs; unfold trx_le in Hle; destruct k; try discriminate Hk; cbn [task_of] in Hs; lia.
  - (* V_started *) split; [apply Nat.le_refl|]. destruct e; try discriminate He; no_help.
  - (* V_send *) split; [|no_help]. eapply measure_set_trx; eauto.
    destruct (HA _ _ Hx) as [[H1 H2] _]; auto. unfold trx_le; cbn. rewrite H1, H2. cbn. lia.
  - (* V_receive *) split; [|no_help]. eapply measure_set_trx; eauto.
    destruct (HA _ _ Hx) as [_ [H1 _]]; auto. unfold trx_le; cbn. rewrite H1. cbn. lia.
  - (* V_sctp_start *) split; [|no_help]. apply Nat.le_refl.
  - (* V_nego *) split; [|no_help]. apply Nat.le_refl.
  - (* V_chan *) split; [|no_help]. apply Nat.le_refl.
  - (* V_sctp_down *) split; [|no_help]. apply Nat.le_refl.
  - (* V_close *) contradiction.
  - (* V_close_again *) split; [|no_help]. apply Nat.le_refl.
  - (* V_close_ret *) unfold measure. cbn [c_main]. rewrite Hm. lia.
  - (* V_waiter_ret *) split; [apply Nat.le_refl|]. intros Hh. unfold helps in Hh.
    destruct (c_main c) as [[[id0 [|]] []]|]; try discriminate. now destruct (Hm id0).
  - (* V_stop_call *) apply lt_le_and. eapply measure_move; [exact Hm|destruct Hsc; reflexivity|].
    apply residual_lt_cost. destruct Hsc; try discriminate.
    + destruct (s_started (t_s x)); discriminate.
    + destruct (d_ref tp); discriminate.
  - (* V_stop_ret *) apply lt_le_and. rewrite (measure_main _ _ _ _ _ Hm). unfold measure. cbn [c_main set_main].
    pose proof (residual_pos c o s). destruct todo as [|o2 todo]; [lia|].
    cbn [residual]. unfold sum_cost in *. cbn [fold_right]. lia.
  - (* V_cancel_recv *) apply lt_le_and. eapply measure_move; [exact Hm|reflexivity|]. unfold residual. cbn [c_trx set_trx].
    rewrite (nth_error_upd_same _ _ _ _ Hx), Hx. destruct (r_rtcp (t_r x)); cbn; lia.
  - (* V_cancel_rtp *) apply lt_le_and. eapply measure_move; [exact Hm|reflexivity|]. unfold residual. cbn [c_trx set_trx].
    rewrite (nth_error_upd_same _ _ _ _ Hx), Hx. destruct (s_rtp (t_s x)); cbn; lia.
  - (* V_cancel_rtcp *) apply lt_le_and. eapply measure_move; [exact Hm|reflexivity|]. unfold residual. cbn [c_trx set_trx].
    rewrite (nth_error_upd_same _ _ _ _ Hx), Hx. destruct (s_rtcp (t_s x)); cbn; lia.
  - (* V_cancel_pump *) apply lt_le_and. eapply measure_move; [exact Hm|reflexivity|]. cbn. lia.
  - (* V_ice_conn_closed *) apply lt_le_and. eapply measure_move; [exact Hm|reflexivity|]. unfold residual. cbn [c_tps set_tp].
    rewrite (nth_error_upd_same _ _ _ _ Ht). destruct (i_mon tp); cbn; lia.
Qed.
