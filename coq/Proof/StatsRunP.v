(* Proofs about Model/Stats.v (property C18), part 2: arbitrary event histories. *)
From Coq Require Import ZArith List Bool Lia.
From AV Require Import Lib.Bytes Lib.BytesP Gen.Utils Gen.RtpConst Model.Stats Proof.SerialP Proof.StatsP.
Import ListNotations.
Local Open Scope Z_scope.

Definition pkt := (Z * Z * Z)%type.             (* sequence number, RTP timestamp, arrival clock *)
Definition p_seq (p : pkt) : Z := fst (fst p).
Definition p_ts (p : pkt) : Z := snd (fst p).
Definition p_arr (p : pkt) : Z := snd p.

Fixpoint pkts (evs : list ev) : list pkt :=
  match evs with
  | [] => []
  | Rtp seq ts arr :: evs' => (seq, ts, arr) :: pkts evs'
  | _ :: evs' => pkts evs'
  end.

(* sequence numbers come off the wire *)
Definition ev_ok (e : ev) : Prop :=
  match e with Rtp seq _ _ => 0 <= seq < 65536 | _ => True end.

(* The reference figures are functions of the packet list only.
   Highest sequence number (wire value) after the packets l, starting from m: *)
Fixpoint top_from (m : Z) (l : list pkt) : Z :=
  match l with
  | [] => m
  | p :: l' => top_from (if uint16_gt (p_seq p) m then p_seq p else m) l'
  end.

(* sum of the forward serial steps taken by the highest sequence number *)
Fixpoint fwd_from (m : Z) (l : list pkt) : Z :=
  match l with
  | [] => 0
  | p :: l' => if uint16_gt (p_seq p) m then (p_seq p - m) mod 65536 + fwd_from (p_seq p) l'
               else fwd_from m l'
  end.

(* the packets that advance the highest sequence number ("in order") *)
Fixpoint inorder_from (m : Z) (l : list pkt) : list pkt :=
  match l with
  | [] => []
  | p :: l' => if uint16_gt (p_seq p) m then p :: inorder_from (p_seq p) l' else inorder_from m l'
  end.

(* RFC 3550 A.8 recurrence over successive packets, (lt, la) = previous packet *)
Fixpoint jit (J lt la : Z) (l : list pkt) : Z :=
  match l with
  | [] => J
  | p :: l' => jit (new_jit J la lt (p_ts p) (p_arr p)) (p_ts p) (p_arr p) l'
  end.

Definition first_seq (h : list pkt) : Z := match h with [] => 0 | p :: _ => p_seq p end.
Definition fwd (h : list pkt) : Z := match h with [] => 0 | p :: l => fwd_from (p_seq p) l end.
Definition top (h : list pkt) : Z := match h with [] => 0 | p :: l => top_from (p_seq p) l end.
Definition inorder (h : list pkt) : list pkt :=
  match h with [] => [] | p :: l => p :: inorder_from (p_seq p) l end.
Definition jitter_ref (h : list pkt) : Z :=
  match inorder h with [] => 0 | p :: l => jit 0 (p_ts p) (p_arr p) l end.
Definition expected_ref (h : list pkt) : Z := match h with [] => 0 | _ => fwd h + 1 end.
Definition count (h : list pkt) : Z := Z.of_nat (length h).

Fixpoint has_report (evs : list ev) : bool :=
  match evs with
  | [] => false
  | Report _ :: _ => true
  | _ :: evs' => has_report evs'
  end.

Fixpoint upto_last_report (evs : list ev) : list ev :=
  match evs with
  | [] => []
  | e :: evs' =>
      if has_report evs' then e :: upto_last_report evs'
      else match e with Report _ => [e] | _ => [] end
  end.

(* the last sender report of SSRC S: (ntp, time of reception) *)
Fixpoint last_sr (S : Z) (evs : list ev) : option (Z * Z) :=
  match evs with
  | [] => None
  | e :: evs' =>
      match last_sr S evs' with
      | Some x => Some x
      | None => match e with
                | SrEv ssrc ntp now => if ssrc =? S then Some (ntp, now) else None
                | _ => None
                end
      end
  end.

Lemma upto_none evs : has_report evs = false -> upto_last_report evs = [].
Proof.
  induction evs as [|e evs IH]; [reflexivity|].
  intros H. cbn [upto_last_report]. destruct e; cbn [has_report] in H; try discriminate;
    rewrite H; reflexivity.
Qed.

Lemma pkts_upto_skip e evs :
  pkts [e] = [] -> pkts (upto_last_report (e :: evs)) = pkts (upto_last_report evs).
Proof.
  intros He. cbn [upto_last_report]. destruct (has_report evs) eqn:Hr.
  - destruct e; try discriminate He; reflexivity.
  - rewrite (upto_none _ Hr). destruct e; try discriminate He; reflexivity.
Qed.

Lemma run_cons_fst S rs r e evs :
  fst (run S rs r (e :: evs)) = fst (run S rs (fst (step S rs r e)) evs).
Proof.
  cbn [run]. destruct (step S rs r e) as [r1 o]. cbn [fst snd]. destruct (run S rs r1 evs) as [r2 os]. reflexivity.
Qed.

Lemma run_cons_snd S rs r e evs :
  snd (run S rs r (e :: evs)) = snd (step S rs r e) :: snd (run S rs (fst (step S rs r e)) evs).
Proof.
  cbn [run]. destruct (step S rs r e) as [r1 o]. cbn [fst snd]. destruct (run S rs r1 evs) as [r2 os]. reflexivity.
Qed.

Lemma run_app_fst S rs evs1 : forall r evs2,
  fst (run S rs r (evs1 ++ evs2)) = fst (run S rs (fst (run S rs r evs1)) evs2).
Proof.
  induction evs1 as [|e evs1 IH]; intros r evs2; [reflexivity|].
  rewrite <- app_comm_cons, !run_cons_fst. apply IH.
Qed.

Lemma run_app_snd S rs evs1 : forall r evs2,
  snd (run S rs r (evs1 ++ evs2)) =
  snd (run S rs r evs1) ++ snd (run S rs (fst (run S rs r evs1)) evs2).
Proof.
  induction evs1 as [|e evs1 IH]; intros r evs2; [reflexivity|].
  rewrite <- app_comm_cons, !run_cons_snd, run_cons_fst, IH. reflexivity.
Qed.

Lemma run_length S rs evs : forall r, length (snd (run S rs r evs)) = length evs.
Proof.
  induction evs as [|e evs IH]; intros r; [reflexivity|].
  rewrite run_cons_snd. cbn [length]. rewrite IH. reflexivity.
Qed.

Lemma step_sr_stream S rs r ssrc ntp now : stream (fst (step S rs r (SrEv ssrc ntp now))) = stream r.
Proof. cbn [step]. destruct (ssrc =? S); reflexivity. Qed.

Definition report_info (S : Z) (r : recv) (s : stats) (b m now : Z) : rinfo :=
  let E := cycles s + m - b + 1 in
  mkInfo S
         (rfc_fraction (E - expected_prior s) (packets_received s - received_prior s))
         (rtp_clamp_packets_lost (E - packets_received s))
         ((cycles s + m) mod 4294967296)
         (jitter_q4 s / 16)
         (fst (lsr_dlsr r now)) (snd (lsr_dlsr r now)).

Lemma report_some S rs r s b m now :
  stream r = Some s -> base_seq s = Some b -> max_seq s = Some m ->
  report S rs r now =
  (mkRecv (Some (with_priors s (cycles s + m - b + 1) (packets_received s))) (lsr r) (lsr_time r),
   OReport (report_info S r s b m now) (rr_bytes rs (report_info S r s b m now))).
Proof.
  intros Hs Hb Hm. unfold report, report_info. rewrite Hs.
  destruct (lsr_dlsr r now) as [l d]. rewrite (fraction_lost_some s b m Hb Hm).
  rewrite (packets_lost_some (with_priors s _ _) b m Hb Hm). cbn [with_priors max_seq]. rewrite Hm.
  unfold jitter. rewrite shiftr_4, land_ffffffff. reflexivity.
Qed.

Lemma run_est S rs : forall evs r s b m la lt,
  stream r = Some s -> est s b m la lt -> Forall ev_ok evs ->
  exists s' la' lt',
    stream (fst (run S rs r evs)) = Some s' /\
    est s' b (top_from m (pkts evs)) la' lt' /\
    packets_received s' = packets_received s + count (pkts evs) /\
    cycles s' + top_from m (pkts evs) = cycles s + m + fwd_from m (pkts evs) /\
    jitter_q4 s' = jit (jitter_q4 s) lt la (inorder_from m (pkts evs)) /\
    expected_prior s' =
      (if has_report evs then cycles s + m + fwd_from m (pkts (upto_last_report evs)) - b + 1
       else expected_prior s) /\
    received_prior s' =
      (if has_report evs then packets_received s + count (pkts (upto_last_report evs))
       else received_prior s).
Proof.
  unfold count.
  induction evs as [|e evs IH]; intros r s b m la lt Hs He Hok.
  - exists s, la, lt. cbn. split; [exact Hs|]. split; [exact He|]. repeat split; lia.
  - inversion Hok as [|? ? Hok1 Hok2]; subst. rewrite run_cons_fst.
    destruct e as [seq ts arr|ssrc ntp now|now|].
    + (* RTP packet: one step of each reference recurrence *)
      destruct (add_est s b m la lt seq ts arr He Hok1) as (s1 & Ha & He1 & Hr1 & Hep1 & Hrp1 & Hc1 & Hj1).
      cbn [step]. rewrite Hs, Ha. cbn [fst].
      destruct (IH (mkRecv (Some s1) (lsr r) (lsr_time r)) s1 b _ _ _ eq_refl He1 Hok2)
        as (s' & la' & lt' & H1 & H2 & H3 & H4 & H5 & H6 & H7).
      exists s', la', lt'. cbn [pkts has_report upto_last_report top_from fwd_from inorder_from p_seq fst].
      split; [exact H1|]. split; [exact H2|]. split; [cbn [length]; lia|]. rewrite H5, H6, H7, Hj1.
      (* the remaining equations are arithmetic, whether or not seq advanced the highest number *)
      destruct (uint16_gt seq m) eqn:G; cbn [jit p_ts p_arr fst snd].
      all: split; [lia|]. all: split; [reflexivity|].
      all: destruct (has_report evs); cbn [pkts fwd_from p_seq fst length]; rewrite ?G; split; lia.
    + rewrite pkts_upto_skip by reflexivity.
      apply IH; [rewrite step_sr_stream; exact Hs|exact He|exact Hok2].
    + (* report: the priors become the current figures *)
      cbn [step]. rewrite (report_some S rs r s b m now Hs (e_base He) (e_max He)). cbn [fst].
      destruct (IH (mkRecv (Some _) (lsr r) (lsr_time r)) _ b m la lt eq_refl (est_with_priors _ _ _ _ _ He) Hok2)
        as (s' & la' & lt' & H1 & H2 & H3 & H4 & H5 & H6 & H7).
      rewrite pkts_upto_skip by reflexivity. cbn [pkts has_report].
      exists s', la', lt'. split; [exact H1|]. split; [exact H2|]. split; [exact H3|]. split; [exact H4|].
      split; [exact H5|]. rewrite H6, H7. unfold with_priors. proj.
      destruct (has_report evs) eqn:Hr; [split; reflexivity|].
      rewrite (upto_none _ Hr). cbn [pkts fwd_from length]. split; lia.
    + rewrite pkts_upto_skip by reflexivity. apply IH; assumption.
Qed.

(* the fields of the object are the reference figures of the history *)
Definition tracks (s : stats) (evs : list ev) : Prop :=
  let h := pkts evs in
  exists la lt,
    est s (first_seq h) (top h) la lt /\
    packets_received s = count h /\
    cycles s + top h = first_seq h + fwd h /\
    jitter_q4 s = jitter_ref h /\
    expected_prior s = expected_ref (pkts (upto_last_report evs)) /\
    received_prior s = count (pkts (upto_last_report evs)).

Lemma run_fresh S rs : forall evs r,
  stream r = None -> Forall ev_ok evs ->
  match pkts evs with
  | [] => stream (fst (run S rs r evs)) = None
  | _ => exists s, stream (fst (run S rs r evs)) = Some s /\ tracks s evs
  end.
Proof.
  induction evs as [|e evs IH]; intros r Hs Hok; [exact Hs|].
  inversion Hok as [|? ? Hok1 Hok2]; subst. rewrite run_cons_fst. unfold tracks.
  destruct e as [seq ts arr|ssrc ntp now|now|].
  - cbn [step]. rewrite Hs, add_init. cbn [fst pkts].
    destruct (run_est S rs evs (mkRecv (Some _) (lsr r) (lsr_time r)) _ seq seq arr ts eq_refl
                      (est_first seq ts arr Hok1) Hok2)
      as (s & la & lt & H1 & H2 & H3 & H4 & H5 & H6 & H7).
    proj_in H3. proj_in H4. proj_in H5. proj_in H6. proj_in H7. unfold count in *.
    exists s. split; [exact H1|]. exists la, lt.
    cbn [first_seq top fwd jitter_ref inorder p_seq p_ts p_arr fst snd].
    split; [exact H2|]. split; [cbn [length]; lia|]. split; [lia|]. split; [exact H5|].
    cbn [upto_last_report]. destruct (has_report evs).
    + cbn [pkts expected_ref fwd p_seq fst length]. split; lia.
    + cbn [pkts expected_ref length]. split; lia.
  - rewrite pkts_upto_skip by reflexivity. apply IH; [rewrite step_sr_stream; exact Hs|exact Hok2].
  - rewrite pkts_upto_skip by reflexivity. apply IH; [|exact Hok2].
    cbn [step]. unfold report. rewrite Hs. exact Hs.
  - rewrite pkts_upto_skip by reflexivity. apply IH; assumption.
Qed.

Definition mid32 (ntp : Z) : Z := (ntp / 65536) mod 4294967296.

Lemma run_lsr S rs : forall evs r,
  let r' := fst (run S rs r evs) in
  match last_sr S evs with
  | None => lsr r' = lsr r /\ lsr_time r' = lsr_time r
  | Some (ntp, t) => lsr r' = Some (mid32 ntp) /\ lsr_time r' = t
  end.
Proof.
  induction evs as [|e evs IH]; intros r; cbv zeta; [cbn; auto|].
  rewrite run_cons_fst. cbn [last_sr]. specialize (IH (fst (step S rs r e))). cbv zeta in IH.
  destruct (last_sr S evs) as [[ntp t]|]; [exact IH|].
  destruct IH as [IH1 IH2]. rewrite IH1, IH2.
  destruct e as [seq ts arr|ssrc ntp now|now|].
  - cbn [step]. destruct (add _ seq ts arr); auto.
  - cbn [step]. destruct (ssrc =? S); cbn [fst lsr lsr_time]; [|auto].
    unfold mid32. rewrite land_ffffffff, shiftr_16. auto.
  - cbn [step]. unfold report. destruct (stream r) as [s|]; [|auto].
    destruct (lsr_dlsr r now) as [l d]. destruct (fraction_lost s) as [[fl s1]| | |]; [|auto|auto|auto].
    destruct (packets_lost s1), (max_seq s1); auto.
  - cbn [step]. auto.
Qed.

Definition lsr_ok (r : recv) : Prop :=
  match lsr r with Some l => 0 <= l < 4294967296 | None => True end.

Definition good (r : recv) : Prop :=
  lsr_ok r /\
  match stream r with None => True | Some s => exists b m la lt, est s b m la lt end.

Definition out_fits (o : out) : Prop :=
  match o with
  | ORtpCrash | OReportCrash => False
  | OProbe v => exists l, v = Ok l
  | OReport i b => info_fits i /\ exists l, b = Ok l /\ length l = 32%nat /\ bytes_ok l
  | _ => True
  end.

Lemma lsr_dlsr_range r now :
  lsr_ok r ->
  0 <= fst (lsr_dlsr r now) < 4294967296 /\ 0 <= snd (lsr_dlsr r now) < 4294967296.
Proof.
  unfold lsr_ok, lsr_dlsr. destruct (lsr r) as [l|]; intros H; cbn [fst snd]; [|lia].
  split; [exact H|]. destruct (_ && _) eqn:E; lia.
Qed.

Lemma report_info_fits S r s b m la lt now :
  est s b m la lt -> lsr_ok r -> info_fits (report_info S r s b m now).
Proof.
  intros He Hl. pose proof (fraction_est_range _ _ _ _ _ He) as Hf.
  destruct (lsr_dlsr_range r now Hl) as [H1 H2].
  pose proof (e_J He) as HJ.
  unfold info_fits, report_info. cbv zeta. cbn [ri_fraction ri_lost ri_highest ri_jitter ri_lsr ri_dlsr].
  pose proof (clamp_range (cycles s + m - b + 1 - packets_received s)).
  repeat split; try lia.
Qed.

Lemma step_good S rs r e :
  0 <= S < 4294967296 -> 0 <= rs < 4294967296 -> good r -> ev_ok e ->
  good (fst (step S rs r e)) /\ out_fits (snd (step S rs r e)).
Proof.
  intros HS Hrs [Hl Hst] Hok. destruct e as [seq ts arr|ssrc ntp now|now|].
  - destruct (stream r) as [s|] eqn:Hs.
    + destruct Hst as (b & m & la & lt & He).
      destruct (add_est s b m la lt seq ts arr He Hok) as (s' & Ha & He' & _).
      cbn [step]. rewrite Hs, Ha. cbn [fst snd out_fits]. split; [|exact I]. split; [exact Hl|]. cbn [stream]. eauto.
    + cbn [step]. rewrite Hs, add_init. cbn [fst snd out_fits]. split; [|exact I].
      split; [exact Hl|]. cbn [stream]. exists seq, seq, arr, ts. apply est_first. exact Hok.
  - cbn [step]. destruct (ssrc =? S); cbn [fst snd out_fits]; split; try exact I; [|split; assumption].
    split; [|exact Hst]. unfold lsr_ok. cbn [lsr]. rewrite land_ffffffff. lia.
  - cbn [step]. destruct (stream r) as [s|] eqn:Hs.
    + destruct Hst as (b & m & la & lt & He).
      rewrite (report_some S rs r s b m now Hs (e_base He) (e_max He)). cbn [fst snd out_fits].
      pose proof (est_with_priors _ _ _ _ _ He) as He1.
      pose proof (report_info_fits S r s b m la lt now He Hl) as Hfit.
      split; [split; [exact Hl|cbn [stream]; eauto]|]. split; [exact Hfit|].
      apply rr_bytes_ok; [exact Hrs| |exact Hfit]. unfold report_info. cbn [ri_ssrc]. exact HS.
    + unfold report. rewrite Hs. cbn [fst snd out_fits]. split; [|exact I]. split; [exact Hl|]. rewrite Hs. exact I.
  - cbn [step fst snd]. split; [split; assumption|]. unfold probe.
    destruct (stream r) as [s|] eqn:Hs; [|cbn; eauto].
    destruct Hst as (b & m & la & lt & He).
    rewrite (packets_expected_some s b m (e_base He) (e_max He)), (packets_lost_some s b m (e_base He) (e_max He)).
    cbn. eauto.
Qed.

Lemma good_recv0 : good recv0.
Proof. split; exact I. Qed.

Lemma run_good S rs : forall evs r,
  0 <= S < 4294967296 -> 0 <= rs < 4294967296 -> good r -> Forall ev_ok evs ->
  good (fst (run S rs r evs)) /\ Forall out_fits (snd (run S rs r evs)).
Proof.
  induction evs as [|e evs IH]; intros r HS Hrs Hg Hok; [split; [exact Hg|constructor]|].
  inversion Hok as [|? ? Hok1 Hok2]; subst.
  destruct (step_good S rs r e HS Hrs Hg Hok1) as [Hg1 Ho1].
  destruct (IH _ HS Hrs Hg1 Hok2) as [Hg2 Ho2].
  rewrite run_cons_fst, run_cons_snd. split; [exact Hg2|constructor; assumption].
Qed.
