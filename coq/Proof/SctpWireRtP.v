(* Lemmas about Model/SctpWire.v, part 2: every well-formed chunk of every type
   parses back to itself; packets round-trip. *)
From Coq Require Import ZArith List Bool Lia ZifyBool.
From AV Require Import Lib.Bytes Lib.BytesP Gen.SctpConst Model.Crc32c Model.SctpWire
  Proof.Crc32cP Proof.SctpWireP.
Import ListNotations.
Local Open Scope Z_scope.

Ltac Zify.zify_post_hook ::= Z.to_euclidean_division_equations.

Definition wire_body (c : chunk) : bytes :=
  match c with
  | CData _ tsn stream_id stream_seq protocol user_data =>
      be32 tsn ++ be16 stream_id ++ be16 stream_seq ++ be32 protocol ++ user_data
  | CSack _ cumulative_tsn advertised_rwnd gaps duplicates =>
      (be32 cumulative_tsn ++ be32 advertised_rwnd ++ be16 (Z.of_nat (length gaps))
       ++ be16 (Z.of_nat (length duplicates))) ++ flat_map pair_bytes gaps ++ flat_map be32 duplicates
  | CForwardTsn _ cumulative_tsn streams => be32 cumulative_tsn ++ flat_map pair_bytes streams
  | _ => chunk_body c
  end.

Lemma wire_body_fwd f t s : chunk_body (CForwardTsn f t s) = wire_body (CForwardTsn f t s).
Proof. apply fold_left_app_flat. Qed.

Lemma wire_body_length c :
  len (wire_body c) =
  match c with
  | CData _ _ _ _ _ user_data => 12 + len user_data
  | CSack _ _ _ gaps duplicates => 12 + (Z.of_nat (length gaps) + Z.of_nat (length duplicates)) * 4
  | CForwardTsn _ _ streams => 4 + Z.of_nat (length streams) * 4
  | _ => len (chunk_body c)
  end.
Proof.
  destruct c; try reflexivity; cbn [wire_body chunk_body]; unfold len; rewrite !app_length;
    rewrite ?(flat_map_length_const pair_bytes 4), ?(flat_map_length_const be32 4) by reflexivity;
    cbn [length be32 be16 app]; lia.
Qed.

(* every serialised chunk is header, wire body, padding; DATA and SACK, which have their own
   __bytes__, included (a SACK is always a multiple of 4 long) *)
Lemma chunk_bytes_canon c :
  chunk_bytes c = generic_bytes (chunk_type c) (chunk_flags c) (wire_body c).
Proof.
  destruct c as [f tsn sid sseq proto ud|ty f a b c d e ps|f ctsn rwnd gaps dups|ty f ps|f ctsn
                 |ty f body|f ctsn streams]; try reflexivity.
  - unfold generic_bytes. rewrite wire_body_length. cbn [chunk_bytes chunk_type chunk_flags wire_body].
    replace (padl (12 + len ud)) with (padl (16 + len ud)) by (rewrite <- (padl_add4 (12 + len ud)); f_equal; lia).
    replace (12 + len ud + 4) with (16 + len ud) by lia.
    destruct ((16 + len ud) mod 4 =? 0) eqn:E; [|reflexivity].
    rewrite padl_0 by lia. cbn [negb zpad zeros Z.to_nat repeat]. now rewrite app_nil_r.
  - unfold generic_bytes. rewrite wire_body_length. cbn [chunk_bytes chunk_type chunk_flags wire_body].
    rewrite !fold_left_app_flat. set (n := Z.of_nat (length gaps) + Z.of_nat (length dups)).
    rewrite padl_0 by lia. replace (12 + n * 4 + 4) with (16 + n * 4) by lia.
    cbn [zpad zeros Z.to_nat repeat]. now rewrite <- !app_assoc, app_nil_r.
  - cbn [chunk_bytes chunk_type chunk_flags]. now rewrite wire_body_fwd.
Qed.

Lemma parse_chunks_shift fuel : forall pre b k,
  parse_chunks fuel (pre ++ b) (length pre + k) = parse_chunks fuel b k.
Proof.
  induction fuel as [|f IH]; intros pre b k; [reflexivity|].
  cbn [parse_chunks]. rewrite <- !Nat.add_assoc, !u8_app_r, u16_app_r, len_app, Nat2Z.inj_add. fold (len pre).
  replace (len pre + Z.of_nat k <=? len pre + len b - SCTP_CHUNK_HEADER_LENGTH)
    with (Z.of_nat k <=? len b - SCTP_CHUNK_HEADER_LENGTH) by lia.
  destruct (u16 b (k + 2)) as [cl|]; [|reflexivity].
  replace (len pre + Z.of_nat k + cl >? len pre + len b) with (Z.of_nat k + cl >? len b) by lia.
  now rewrite <- !Nat.add_assoc, !slice_app_r, !IH.
Qed.

Lemma generic_bytes_length ty fl body :
  length (generic_bytes ty fl body) = (4 + length body + Z.to_nat (padl (len body)))%nat.
Proof. unfold generic_bytes. rewrite !app_length, zpad_length. cbn [be8 be16 length]. lia. Qed.

Lemma generic_bytes_ok ty fl body : bytes_ok body -> bytes_ok (generic_bytes ty fl body).
Proof. unfold generic_bytes. auto 6 with bytes. Qed.

Lemma parse_chunks_generic fuel ty fl body rest :
  in_u8 ty = true -> in_u8 fl = true -> in_u16 (len body + 4) = true ->
  parse_chunks (S fuel) (generic_bytes ty fl body ++ rest) 0 =
  match chunk_ctor ty fl body with
  | Some r => if negb (nonempty body) && has_fixed_part ty then ValueErr
              else bind r (fun c => bind (parse_chunks fuel rest 0) (fun cs => Ok (c :: cs)))
  | None => parse_chunks fuel rest 0
  end.
Proof.
  unfold in_u8, in_u16. intros Hty Hfl Hl.
  pose proof (len_nonneg body) as Hb0. pose proof (padl_range (len body)) as Hpad. pose proof (len_nonneg rest) as Hr0.
  pose proof (generic_bytes_length ty fl body) as Lg.
  set (data := generic_bytes ty fl body ++ rest).
  assert (D : data = be8 ty ++ be8 fl ++ be16 (len body + 4) ++ body ++ zpad (padl (len body)) ++ rest)
    by (subst data; unfold generic_bytes; now rewrite <- !app_assoc).
  assert (R1 : u8 data 0 = Some ty) by (rewrite D; apply u8_be8; lia).
  assert (R2 : u8 data 1 = Some fl) by (rewrite D; apply (u8_at (be8 ty)); lia).
  assert (R3 : u16 data 2 = Some (len body + 4)) by (rewrite D; apply (u16_at (be8 ty ++ be8 fl)); lia).
  assert (R4 : slice data 4 (Z.to_nat (len body + 4)) = body).
  { rewrite D. apply (slice_mid (be8 ty ++ be8 fl ++ be16 (len body + 4))); [reflexivity|unfold len; lia]. }
  assert (Ldata : len data = 4 + len body + padl (len body) + len rest).
  { subst data. unfold len in *. rewrite app_length, Lg. lia. }
  cbn [parse_chunks Nat.add]. rewrite R1, R2, R3, Ldata. unfold SCTP_CHUNK_HEADER_LENGTH.
  destruct (Z.of_nat 0 <=? _) eqn:E1; [|lia]. destruct (_ || _) eqn:E2; [lia|].
  change (Z.to_nat 4) with 4%nat. rewrite R4.
  replace (Z.to_nat (len body + 4 + padl (len body + 4))) with (length (generic_bytes ty fl body) + 0)%nat
    by (rewrite Lg, padl_add4; unfold len in *; lia).
  subst data. now rewrite parse_chunks_shift.
Qed.

Lemma ctor_data f tsn sid sseq proto ud :
  chunk_okb (CData f tsn sid sseq proto ud) = true ->
  data_ctor f (wire_body (CData f tsn sid sseq proto ud)) = Ok (CData f tsn sid sseq proto ud).
Proof.
  unfold chunk_okb, in_u32, in_u16. intros H. pose proof (len_nonneg ud) as Hu.
  unfold data_ctor. rewrite wire_body_length. cbn [wire_body]. set (body := be32 tsn ++ _).
  assert (R1 : u32 body 0 = Some tsn) by (apply u32_be32; lia).
  assert (R2 : u16 body 4 = Some sid) by (apply (u16_at (be32 tsn)); lia).
  assert (R3 : u16 body 6 = Some sseq) by (apply (u16_at (be32 tsn ++ be16 sid)); lia).
  assert (R4 : u32 body 8 = Some proto) by (apply (u32_at (be32 tsn ++ be16 sid ++ be16 sseq)); lia).
  rewrite R1, R2, R3, R4. destruct (12 + len ud <? 12) eqn:E; [lia|reflexivity].
Qed.

Lemma ctor_init ty f a b c d e ps :
  chunk_okb (CInit ty f a b c d e ps) = true ->
  init_ctor ty f (wire_body (CInit ty f a b c d e ps)) = Ok (CInit ty f a b c d e ps).
Proof.
  unfold chunk_okb, in_u32, in_u16. intros H. pose proof (len_nonneg (encode_params ps)) as Hp.
  destruct (params_okb ps) eqn:Hps; [|lia].
  unfold init_ctor. cbn [wire_body chunk_body]. rewrite len_app. change (len (be32 a ++ _)) with 16.
  set (body := (be32 a ++ _) ++ _).
  assert (R1 : u32 body 0 = Some a) by (apply u32_be32; lia).
  assert (R2 : u32 body 4 = Some b) by (apply (u32_at (be32 a)); lia).
  assert (R3 : u16 body 8 = Some c) by (apply (u16_at (be32 a ++ be32 b)); lia).
  assert (R4 : u16 body 10 = Some d) by (apply (u16_at (be32 a ++ be32 b ++ be16 c)); lia).
  assert (R5 : u32 body 12 = Some e) by (apply (u32_at (be32 a ++ be32 b ++ be16 c ++ be16 d)); lia).
  rewrite R1, R2, R3, R4, R5. change (from body 16) with (encode_params ps).
  rewrite decode_encode_params by exact Hps. destruct (16 + len (encode_params ps) <? 16) eqn:E; [lia|reflexivity].
Qed.

Lemma ctor_sack f ctsn rwnd gaps dups :
  chunk_okb (CSack f ctsn rwnd gaps dups) = true ->
  sack_ctor f (wire_body (CSack f ctsn rwnd gaps dups)) = Ok (CSack f ctsn rwnd gaps dups).
Proof.
  unfold chunk_okb. intros H.
  destruct (forallb pair_okb gaps) eqn:Hg; [|lia]. destruct (forallb in_u32 dups) eqn:Hd; [|lia].
  unfold in_u32, in_u16 in H.
  unfold sack_ctor. rewrite wire_body_length. cbn [wire_body].
  set (ng := Z.of_nat (length gaps)) in *. set (nd := Z.of_nat (length dups)) in *.
  set (hdr := be32 ctsn ++ be32 rwnd ++ be16 ng ++ be16 nd).
  rewrite <- (app_nil_r (flat_map be32 dups)). set (body := hdr ++ _).
  assert (R1 : u32 body 0 = Some ctsn) by (apply u32_be32; lia).
  assert (R2 : u32 body 4 = Some rwnd) by (apply (u32_at (be32 ctsn)); lia).
  assert (R3 : u16 body 8 = Some ng) by (apply (u16_at (be32 ctsn ++ be32 rwnd)); lia).
  assert (R4 : u16 body 10 = Some nd) by (apply (u16_at (be32 ctsn ++ be32 rwnd ++ be16 ng)); lia).
  rewrite R1, R2, R3, R4. subst ng nd. rewrite !Nat2Z.id.
  assert (R5 : read_pairs body 12 (length gaps) = Some gaps).
  { subst body. rewrite (read_pairs_shift _ hdr _ 0). now apply read_pairs_flat. }
  assert (R6 : read_u32s body (12 + length gaps * 4) (length dups) = Some dups).
  { subst body. rewrite app_assoc.
    replace (12 + length gaps * 4)%nat with (length (hdr ++ flat_map pair_bytes gaps) + 0)%nat
      by (rewrite app_length, (flat_map_length_const pair_bytes 4) by reflexivity; cbn; lia).
    rewrite read_u32s_shift. now apply read_u32s_flat. }
  rewrite R5, R6. destruct (_ <? 12) eqn:E1; [lia|]. destruct (_ >? _) eqn:E2; [lia|reflexivity].
Qed.

Lemma ctor_params ty f ps :
  chunk_okb (CParams ty f ps) = true ->
  params_ctor ty f (wire_body (CParams ty f ps)) = Ok (CParams ty f ps).
Proof.
  unfold chunk_okb. intros H. destruct (params_okb ps) eqn:Hps; [|lia].
  cbn [wire_body chunk_body]. unfold params_ctor. rewrite decode_encode_params by exact Hps.
  destruct (encode_params ps) eqn:E; [|reflexivity]. now rewrite (encode_params_nil_inv ps E).
Qed.

Lemma ctor_shutdown f ctsn :
  chunk_okb (CShutdown f ctsn) = true ->
  shutdown_ctor f (wire_body (CShutdown f ctsn)) = Ok (CShutdown f ctsn).
Proof.
  unfold chunk_okb, in_u32. intros H. cbn [wire_body chunk_body]. unfold shutdown_ctor.
  now rewrite <- (app_nil_r (be32 ctsn)), u32_be32 by lia.
Qed.

Lemma ctor_fwd f ctsn streams :
  chunk_okb (CForwardTsn f ctsn streams) = true ->
  fwd_ctor f (wire_body (CForwardTsn f ctsn streams)) = Ok (CForwardTsn f ctsn streams).
Proof.
  unfold chunk_okb, in_u32. intros H.
  destruct (forallb pair_okb streams) eqn:Hs; [|lia].
  unfold fwd_ctor. rewrite wire_body_length. cbn [wire_body].
  assert (L : length (be32 ctsn ++ flat_map pair_bytes streams) = (4 + 4 * length streams)%nat).
  { rewrite app_length, (flat_map_length_const pair_bytes 4); reflexivity. }
  rewrite u32_be32, (fwd_loop_read_pairs _ _ _ (length streams)) by lia.
  rewrite <- (app_nil_r (flat_map _ _)), (read_pairs_shift _ (be32 ctsn) _ 0), read_pairs_flat by exact Hs.
  destruct (_ || _) eqn:E; [lia|reflexivity].
Qed.

Lemma chunk_okb_type c : chunk_okb c = true -> in_u8 (chunk_type c) = true /\ in_u8 (chunk_flags c) = true.
Proof. unfold chunk_okb, in_u8. intros H. destruct c; cbn [chunk_type chunk_flags] in *; lia. Qed.

Lemma chunk_ctor_wire c :
  chunk_okb c = true -> chunk_ctor (chunk_type c) (chunk_flags c) (wire_body c) = Some (Ok c).
Proof.
  intros H. destruct c as [f tsn sid sseq proto ud|ty f a b c d e ps|f ctsn rwnd gaps dups|ty f ps|f ctsn
                           |ty f body|f ctsn streams]; cbn [chunk_type chunk_flags].
  - exact (f_equal Some (ctor_data _ _ _ _ _ _ H)).
  - assert (T : ty = 1 \/ ty = 2) by (unfold chunk_okb in H; lia).
    destruct T as [-> | ->]; exact (f_equal Some (ctor_init _ _ _ _ _ _ _ _ H)).
  - exact (f_equal Some (ctor_sack _ _ _ _ _ H)).
  - assert (T : ty = 4 \/ ty = 5 \/ ty = 6 \/ ty = 9 \/ ty = 130) by (unfold chunk_okb in H; lia).
    destruct T as [-> | [-> | [-> | [-> | ->]]]]; exact (f_equal Some (ctor_params _ _ _ H)).
  - exact (f_equal Some (ctor_shutdown _ _ H)).
  - assert (T : ty = 8 \/ ty = 10 \/ ty = 11 \/ ty = 14) by (unfold chunk_okb in H; lia).
    destruct T as [-> | [-> | [-> | ->]]]; reflexivity.
  - exact (f_equal Some (ctor_fwd _ _ _ H)).
Qed.

Lemma wire_body_len c : chunk_okb c = true -> in_u16 (len (wire_body c) + 4) = true.
Proof.
  unfold chunk_okb, in_u16. intros H.
  destruct c; [rewrite wire_body_length| |rewrite wire_body_length| |reflexivity| |rewrite <- wire_body_fwd];
    cbn [wire_body chunk_body] in *; lia.
Qed.

#[export] Hint Resolve encode_params_ok : bytes.

Lemma wire_body_ok c : chunk_okb c = true -> bytes_ok (wire_body c).
Proof.
  unfold chunk_okb. intros H.
  destruct c as [f tsn sid sseq proto ud|ty f a b c d e ps|f ctsn rwnd gaps dups|ty f ps|f ctsn
                 |ty f body|f ctsn streams]; cbn [wire_body chunk_body].
  - destruct (bytes_okb ud) eqn:Hu; [|lia]. auto 6 with bytes.
  - destruct (params_okb ps) eqn:Hps; [|lia]. auto 8 with bytes.
  - auto 8 with bytes.
  - destruct (params_okb ps) eqn:Hps; [|lia]. auto with bytes.
  - auto with bytes.
  - destruct (bytes_okb body) eqn:Hb; [|lia]. auto with bytes.
  - auto with bytes.
Qed.

Lemma chunk_bytes_ok c : chunk_okb c = true -> bytes_ok (chunk_bytes c).
Proof. intros H. rewrite chunk_bytes_canon. apply generic_bytes_ok, wire_body_ok, H. Qed.

Lemma wire_body_fixed_nonempty c :
  chunk_okb c = true -> negb (nonempty (wire_body c)) && has_fixed_part (chunk_type c) = false.
Proof.
  unfold chunk_okb. intros H.
  destruct c; try reflexivity; apply andb_false_iff; right; cbn [chunk_type]; unfold has_fixed_part; lia.
Qed.

Definition chunks_bytes (cs : list chunk) : bytes := flat_map chunk_bytes cs.

Lemma parse_chunks_bundle cs : forall fuel,
  forallb chunk_okb cs = true -> (length cs < fuel)%nat ->
  parse_chunks fuel (chunks_bytes cs) 0 = Ok cs.
Proof.
  induction cs as [|c cs IH]; intros [|f] H Hf; cbn [length] in Hf; try lia; [reflexivity|].
  apply andb_true_iff in H. destruct H as [Hc Hcs]. destruct (chunk_okb_type c Hc) as [Hty Hfl].
  unfold chunks_bytes. cbn [flat_map]. rewrite chunk_bytes_canon.
  rewrite parse_chunks_generic by (assumption || now apply wire_body_len).
  rewrite chunk_ctor_wire, wire_body_fixed_nonempty by exact Hc. cbn [bind].
  fold (chunks_bytes cs). now rewrite IH by (assumption || lia).
Qed.

Lemma chunks_bytes_count cs : (4 * length cs <= length (chunks_bytes cs))%nat.
Proof.
  induction cs as [|c cs IH]; [cbn; lia|]. unfold chunks_bytes in *. cbn [flat_map length].
  rewrite app_length, chunk_bytes_canon, generic_bytes_length. lia.
Qed.

Lemma chunks_bytes_ok cs : forallb chunk_okb cs = true -> bytes_ok (chunks_bytes cs).
Proof.
  induction cs as [|c cs IH]; intros H; [constructor|].
  apply andb_true_iff in H. destruct H as [Hc Hcs]. apply bytes_ok_app_i; [now apply chunk_bytes_ok|now apply IH].
Qed.

Definition checksum_okb (data : bytes) : bool :=
  match u32le data 8 with
  | Some c => c =? crc32c (checksum_input data)
  | None => false
  end.

Lemma packet_bytes_ok sp dp tag body : bytes_ok body -> bytes_ok (packet_bytes sp dp tag body).
Proof. unfold packet_bytes. auto 6 with bytes. Qed.

Lemma packet_bytes_length sp dp tag body : length (packet_bytes sp dp tag body) = (12 + length body)%nat.
Proof. unfold packet_bytes. now rewrite !app_length. Qed.

Lemma packet_bytes_checksum_ok sp dp tag body : checksum_okb (packet_bytes sp dp tag body) = true.
Proof.
  unfold checksum_okb.
  change (checksum_input (packet_bytes sp dp tag body)) with ((be16 sp ++ be16 dp ++ be32 tag) ++ [0; 0; 0; 0] ++ body).
  unfold packet_bytes. cbv zeta. set (crc := crc32c _).
  assert (R : u32le ((be16 sp ++ be16 dp ++ be32 tag) ++ le32 crc ++ body) 8 = Some crc)
    by apply (u32le_at (be16 sp ++ be16 dp ++ be32 tag)), crc32c_range.
  rewrite R. apply Z.eqb_refl.
Qed.

Lemma parse_packet_checksum_okb data :
  SCTP_PACKET_MINIMUM_LENGTH <= len data -> checksum_okb data = true ->
  parse_packet data =
  match u16 data 0, u16 data 2, u32 data 4 with
  | Some sp, Some dp, Some tag =>
      bind (parse_chunks (S (length data)) data 12) (fun chunks => Ok (sp, dp, tag, chunks))
  | _, _, _ => Crash
  end.
Proof.
  intros Hl Hc. unfold parse_packet. destruct (len data <? SCTP_PACKET_MINIMUM_LENGTH) eqn:E; [lia|].
  unfold checksum_okb in Hc.
  destruct (u16 data 0); [|reflexivity]. destruct (u16 data 2); [|reflexivity].
  destruct (u32 data 4); [|reflexivity]. destruct (u32le data 8); [|discriminate].
  now rewrite Hc.
Qed.

Lemma parse_packet_bad_checksum data : checksum_okb data = false -> parse_packet data = ValueErr.
Proof.
  intros Hc. unfold parse_packet. destruct (len data <? SCTP_PACKET_MINIMUM_LENGTH) eqn:E; [reflexivity|].
  unfold SCTP_PACKET_MINIMUM_LENGTH, len in E.
  destruct (u16_some data 0) as [sp ->]; [lia|]. destruct (u16_some data 2) as [dp ->]; [lia|].
  destruct (u32_some data 4) as [tag ->]; [lia|]. unfold checksum_okb in Hc.
  destruct (u32le_some data 8) as [c Ec]; [lia|]. rewrite Ec in *. now rewrite Hc.
Qed.

Lemma parse_packet_bytes sp dp tag body :
  in_u16 sp = true -> in_u16 dp = true -> in_u32 tag = true -> (4 <= length body)%nat ->
  parse_packet (packet_bytes sp dp tag body) =
  bind (parse_chunks (S (12 + length body)) body 0) (fun chunks => Ok (sp, dp, tag, chunks)).
Proof.
  unfold in_u16, in_u32. intros Hsp Hdp Htag Hl.
  rewrite parse_packet_checksum_okb, packet_bytes_length.
  2:{ unfold len. rewrite packet_bytes_length. unfold SCTP_PACKET_MINIMUM_LENGTH. lia. }
  2:{ apply packet_bytes_checksum_ok. }
  unfold packet_bytes. cbv zeta. set (crc := crc32c _). set (hdr := be16 sp ++ be16 dp ++ be32 tag).
  assert (R1 : u16 (hdr ++ le32 crc ++ body) 0 = Some sp) by (apply u16_be16; lia).
  assert (R2 : u16 (hdr ++ le32 crc ++ body) 2 = Some dp) by (apply (u16_at (be16 sp)); lia).
  assert (R3 : u32 (hdr ++ le32 crc ++ body) 4 = Some tag) by (apply (u32_at (be16 sp ++ be16 dp)); lia).
  now rewrite R1, R2, R3, app_assoc, (parse_chunks_shift _ (hdr ++ le32 crc) body 0).
Qed.

Lemma parse_packet_bundle sp dp tag cs :
  in_u16 sp = true -> in_u16 dp = true -> in_u32 tag = true ->
  forallb chunk_okb cs = true -> cs <> [] ->
  parse_packet (packet_bytes sp dp tag (chunks_bytes cs)) = Ok (sp, dp, tag, cs).
Proof.
  intros Hsp Hdp Htag Hcs Hne. pose proof (chunks_bytes_count cs) as Hcount.
  assert (0 < length cs)%nat by (destruct cs; [congruence|cbn [length]; lia]).
  rewrite parse_packet_bytes, parse_chunks_bundle by (assumption || lia). reflexivity.
Qed.

(* the statement for serialize_packet (one chunk, as the implementation sends) *)
Lemma chunk_roundtrip sp dp tag c :
  in_u16 sp = true -> in_u16 dp = true -> in_u32 tag = true -> chunk_okb c = true ->
  exists data,
    serialize_packet sp dp tag c = Ok data /\ bytes_ok data /\
    parse_packet data = Ok (sp, dp, tag, [c]).
Proof.
  intros Hsp Hdp Htag Hc. exists (packet_bytes sp dp tag (chunk_bytes c)). split; [|split].
  - unfold serialize_packet. now rewrite Hsp, Hdp, Htag, Hc.
  - apply packet_bytes_ok, chunk_bytes_ok, Hc.
  - rewrite <- (app_nil_r (chunk_bytes c)). apply (parse_packet_bundle sp dp tag [c]); try assumption; [|discriminate].
    cbn [forallb]. now rewrite Hc.
Qed.

Lemma chunk_ctor_fixed ty fl body : has_fixed_part ty = true -> chunk_ctor ty fl body <> None.
Proof.
  unfold has_fixed_part. intros H.
  assert (T : ty = 0 \/ ty = 1 \/ ty = 2 \/ ty = 3 \/ ty = 7 \/ ty = 192) by lia.
  destruct T as [-> | [-> | [-> | [-> | [-> | ->]]]]]; discriminate.
Qed.

(* a received chunk of a class with mandatory fields and an empty body (length field 4) is
   rejected instead of being given default field values *)
Lemma empty_fixed_chunk_rejected sp dp tag ty fl rest :
  in_u16 sp = true -> in_u16 dp = true -> in_u32 tag = true ->
  has_fixed_part ty = true -> in_u8 fl = true ->
  parse_packet (packet_bytes sp dp tag (generic_bytes ty fl [] ++ rest)) = ValueErr.
Proof.
  intros Hsp Hdp Htag Hty Hfl.
  assert (Hty8 : in_u8 ty = true) by (unfold has_fixed_part in Hty; unfold in_u8; lia).
  rewrite parse_packet_bytes by (assumption || (rewrite app_length, generic_bytes_length; lia)).
  rewrite parse_chunks_generic, Hty by (assumption || reflexivity).
  pose proof (chunk_ctor_fixed ty fl [] Hty) as Hc. now destruct (chunk_ctor ty fl []).
Qed.
