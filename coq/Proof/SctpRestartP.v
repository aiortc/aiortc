(* C06: a gap inside a run of unordered fragments does not hide the message that follows it.
   (Before the repair in /repo the chunk at which the gap showed was skipped, so a complete
   unordered message that followed the fragments of an abandoned one was never delivered.) *)
From Coq Require Import ZArith List Bool.
From AV Require Import Lib.Bytes Gen.Utils Gen.SctpConst Model.SctpRecv.
Import ListNotations.
Local Open Scope Z_scope.

(* the scan gives the incomplete run up and looks at the same chunk again, with no candidate run *)
Lemma gap_restarts kept r e c rest seq : (tsn c =? e) = false ->
  pop_loop kept (Some (r, e, false)) (c :: rest) seq = pop_loop (r ++ kept) None (c :: rest) seq.
Proof. intros E. cbn [pop_loop]. rewrite E. reflexivity. Qed.

Lemma complete_unordered_head kept c rest seq : unordered c = true -> first c = true -> last c = true ->
  exists l s ms, pop_loop kept None (c :: rest) seq = (l, s, (sid c, ppid c, join_data [c]) :: ms).
Proof.
  intros U F L. cbn [pop_loop]. rewrite U, F, L. cbn [negb andb rev app].
  destruct (pop_loop kept None rest seq) as [[l s] ms]. exists l, s, ms. reflexivity.
Qed.

Theorem message_after_gap_delivered kept r e c rest seq :
  (tsn c =? e) = false -> unordered c = true -> first c = true -> last c = true ->
  exists l s ms, pop_loop kept (Some (r, e, false)) (c :: rest) seq = (l, s, (sid c, ppid c, join_data [c]) :: ms).
Proof. intros E U F L. rewrite (gap_restarts _ _ _ _ _ _ E). now apply complete_unordered_head. Qed.

(* the history that used to lose the message: fragments 100, 101 of a message whose last fragment is
   lost, the complete message 103, the FORWARD-TSN that abandons the first message *)
Definition delivered (os : list rout) : list message :=
  flat_map (fun o => match o with OutOk ms _ => ms | OutAssert => [] end) os.

Example message_after_gap_example :
  let evs := [EvData (mkChunk 100 2 0 true true false 53 [1]); EvData (mkChunk 101 2 0 true false false 53 [2]);
              EvData (mkChunk 103 2 0 true true true 53 [9]); EvFwd 102 []] in
  delivered (snd (rrun (rinit 99) evs)) = [(2, 53, [9])] /\
  map (fun kv => (fst kv, reasm (snd kv))) (streams (fst (rrun (rinit 99) evs))) = [(2, [])].
Proof. vm_compute. split; reflexivity. Qed.
