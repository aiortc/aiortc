(* The chunks in the reassembly queues of Model/SctpRecv.v (C01, C06).  A poll (pop_messages) yields the
   messages of complete runs - B fragment, consecutive TSNs, E fragment - and every chunk it was given
   is afterwards in the queue or in exactly one of these runs.  The same account is kept over all queues
   of the receiver for a DATA chunk and for a FORWARD-TSN chunk; what is queued or delivered was there
   before, or is the chunk that has just been admitted. *)
From Coq Require Import ZArith List Bool Lia.
From AV Require Import Lib.Bytes Gen.Utils Gen.SctpConst Model.SctpRecv Proof.SctpPopP.
Import ListNotations.
Local Open Scope Z_scope.

(* A run of fragments, oldest first: h carries the B flag, TSNs are consecutive, p is the newest
   fragment and none before it carries the E flag. *)
Inductive chain (h : chunk) : list chunk -> chunk -> Prop :=
| chain_first : first h = true -> chain h [h] h
| chain_next f p c : chain h f p -> last p = false -> tsn c = tsn_plus_one (tsn p) -> chain h (f ++ [c]) c.

Lemma chain_hd h f p : chain h f p -> exists f', f = h :: f'.
Proof. induction 1 as [|f p c _ [f' ->]]; [now exists []|now exists (f' ++ [c])]. Qed.

Lemma chain_first_flag h f p : chain h f p -> first h = true.
Proof. induction 1; assumption. Qed.

(* a whole message: the newest fragment carries the E flag *)
Definition complete (f : list chunk) : Prop := exists h p, chain h f p /\ last p = true.

(* the run the scan is collecting (pop_loop keeps it newest first), begun with h: no E flag yet, and
   the TSN that would continue it is expected *)
Definition run_from (h : chunk) (run : run_state) : Prop :=
  match run with
  | Some (p :: r, e, _) => chain h (rev (p :: r)) p /\ last p = false /\ e = tsn_plus_one (tsn p)
  | _ => False
  end.

Definition run_ok (run : run_state) : Prop := run = None \/ exists h, run_from h run.

Definition run_chunks (run : run_state) : list chunk :=
  match run with Some (r, _, _) => r | None => [] end.

(* `retained kept run rest` is the whole queue in its original order, wherever the scan stands:
   the steps that deliver nothing leave it as it is, a delivery takes the run out of it. *)
Lemma retained_skip kept c rest : retained (c :: kept) None rest = retained kept None (c :: rest).
Proof. unfold retained. cbn [rev app]. now rewrite <- app_assoc. Qed.

Lemma retained_restart kept r e o rest : retained (r ++ kept) None rest = retained kept (Some (r, e, o)) rest.
Proof. unfold retained. cbn [app]. now rewrite rev_app_distr, <- app_assoc. Qed.

Lemma retained_joins kept run c seq r e o rest : joins run c seq r e o ->
  retained kept run (c :: rest) = rev kept ++ rev (c :: r) ++ rest.
Proof.
  unfold retained. cbn [rev]. rewrite <- app_assoc. destruct run as [[[r' e'] o']|]; cbn [joins].
  - intros [[= -> -> ->] _]. reflexivity.
  - intros (_ & _ & -> & _). reflexivity.
Qed.

Lemma retained_more kept run c seq r e o rest e' : joins run c seq r e o ->
  retained kept (Some (c :: r, e', o)) rest = retained kept run (c :: rest).
Proof. intros J. now rewrite (retained_joins _ _ _ _ _ _ _ _ J). Qed.

Lemma retained_incl kept run rest : incl (retained kept run rest) (rev kept ++ rev (run_chunks run) ++ rest).
Proof. unfold retained. destruct run as [[[r e] o]|]; cbn [run_chunks]; apply incl_refl. Qed.

Lemma joins_chunks run c seq r e o : joins run c seq r e o -> run_chunks run = r.
Proof. destruct run as [[[r' e'] o']|]; cbn [joins run_chunks]; [intros [[= -> _ _] _]|intros (_ & _ & -> & _)]; reflexivity. Qed.

(* a chunk that joins the run becomes its newest fragment *)
Lemma joins_chain run c seq r e o : run_ok run -> joins run c seq r e o ->
  e = tsn c /\ exists h, chain h (rev (c :: r)) c /\ (run = None /\ h = c \/ run_from h run).
Proof.
  destruct run as [[[r' e'] o']|]; cbn [joins].
  - intros [[=]|(h & Hr)] [[= -> -> ->] Et]. apply Z.eqb_eq in Et. destruct r as [|p r]; [destruct Hr|].
    destruct Hr as (Hc & Hl & ->). split; [now symmetry|]. exists h. split; [|right; cbn; auto].
    change (rev (c :: p :: r)) with (rev (p :: r) ++ [c]). exact (chain_next h _ p c Hc Hl Et).
  - intros _ (Hf & _ & -> & -> & _). split; [reflexivity|]. exists c. split; [exact (chain_first c Hf)|now left].
Qed.

Lemma joins_partial run c seq r e o : run_ok run -> joins run c seq r e o -> last c = false ->
  run_ok (Some (c :: r, tsn_plus_one e, o)).
Proof. intros Hok J El. destruct (joins_chain _ _ _ _ _ _ Hok J) as (-> & h & Hc & _). right. exists h. cbn [run_from]. auto. Qed.

Lemma joins_complete run c seq r e o : run_ok run -> joins run c seq r e o -> last c = true -> complete (rev (c :: r)).
Proof. intros Hok J El. destruct (joins_chain _ _ _ _ _ _ Hok J) as (_ & h & Hc & _). now exists h, c. Qed.

Lemma chunk_eq_dec : forall a b : chunk, {a = b} + {a <> b}.
Proof. decide equality; try apply Z.eq_dec; try apply bool_dec; apply (list_eq_dec Z.eq_dec). Qed.

Notation cnt := (count_occ chunk_eq_dec).

Lemma cnt_cons c l x : cnt (c :: l) x = ((if chunk_eq_dec c x then 1 else 0) + cnt l x)%nat.
Proof. cbn [count_occ]. destruct (chunk_eq_dec c x); reflexivity. Qed.

(* occurrences in a list built with ++, rev and :: as a sum over its parts, for lia *)
Ltac cnt_norm := repeat (rewrite count_occ_app || rewrite count_occ_rev || rewrite cnt_cons); cbn [count_occ].

Lemma cnt_retained kept run rest x : cnt (retained kept run rest) x = cnt (kept ++ run_chunks run ++ rest) x.
Proof. unfold retained. destruct run as [[[r e] o]|]; cbn [run_chunks]; cnt_norm; lia. Qed.

Lemma cnt_incl a b : (forall x, (cnt a x <= cnt b x)%nat) -> incl a b.
Proof.
  intros H x Hx. apply (count_occ_In chunk_eq_dec). apply (count_occ_In chunk_eq_dec) in Hx. specialize (H x). lia.
Qed.

(* the message that a run of fragments, oldest first, makes: stream and ppid of its last fragment.
   SctpOrderP.dchunk and SctpOrderP.msgf are the same two definitions. *)
Definition no_chunk : chunk := mkChunk 0 0 0 false false false 0 [].
Definition run_msg (f : list chunk) : message := let c := List.last f no_chunk in (sid c, ppid c, join_data f).

Lemma run_msg_rev c r : run_msg (rev (c :: r)) = (sid c, ppid c, join_data (rev (c :: r))).
Proof. unfold run_msg. cbn [rev]. now rewrite last_last. Qed.

Lemma pops_runs kept run rest seq res : pops kept run rest seq res -> run_ok run ->
  exists D, snd res = map run_msg D /\ Forall complete D /\
    forall x, cnt (kept ++ run_chunks run ++ rest) x = cnt (fst (fst res) ++ concat D) x.
Proof.
  induction 1 as [kept run rest seq _|kept c rest seq res _ _ _ IH|kept r e c rest seq res _ _ IH
                 |kept run c rest seq r e o res J El _ IH|kept run c rest seq r e o l s ms J El _ IH]; intros Hok.
  - exists []. split; [reflexivity|]. split; [constructor|]. intros x. cbn [fst concat]. now rewrite app_nil_r, cnt_retained.
  - destruct (IH (or_introl eq_refl)) as (D & Em & Hc & Hn). exists D. split; [exact Em|]. split; [exact Hc|].
    intros x. rewrite <- Hn. cbn [run_chunks]. cnt_norm. lia.
  - destruct (IH (or_introl eq_refl)) as (D & Em & Hc & Hn). exists D. split; [exact Em|]. split; [exact Hc|].
    intros x. rewrite <- Hn. cbn [run_chunks]. cnt_norm. lia.
  - rewrite (joins_chunks _ _ _ _ _ _ J). destruct (IH (joins_partial _ _ _ _ _ _ Hok J El)) as (D & Em & Hc & Hn).
    exists D. split; [exact Em|]. split; [exact Hc|]. intros x. rewrite <- Hn. cbn [run_chunks]. cnt_norm. lia.
  - rewrite (joins_chunks _ _ _ _ _ _ J).
    destruct (IH (or_introl eq_refl)) as (D & Em & Hc & Hn). cbn [fst snd] in *. exists (rev (c :: r) :: D).
    split; [cbn [map]; now rewrite run_msg_rev, Em|]. split.
    + constructor; [exact (joins_complete _ _ _ _ _ _ Hok J El)|exact Hc].
    + intros x. specialize (Hn x). revert Hn. cbn [run_chunks concat]. cnt_norm. lia.
Qed.

(* ms are the messages of the complete runs D, and no chunk occurs more often in `after` and in D
   together than in `before`: the runs are drawn from `before`, each chunk used at most once *)
Definition releases (before after : list chunk) (ms : list message) (D : list (list chunk)) : Prop :=
  ms = map run_msg D /\ Forall complete D /\
  forall x, (cnt after x + cnt (concat D) x <= cnt before x)%nat.

Lemma releases_nil l : releases l l [] [].
Proof. split; [reflexivity|]. split; [constructor|]. intros x. cbn [concat count_occ]. lia. Qed.

Lemma releases_app a b c ms1 D1 ms2 D2 :
  releases a b ms1 D1 -> releases b c ms2 D2 -> releases a c (ms1 ++ ms2) (D1 ++ D2).
Proof.
  intros (-> & H1 & N1) (-> & H2 & N2). split; [now rewrite map_app|]. split; [now apply Forall_app|].
  intros x. specialize (N1 x). specialize (N2 x). rewrite concat_app, count_occ_app. lia.
Qed.

Lemma releases_le a b b' ms D : releases a b ms D -> (forall x, (cnt b' x <= cnt b x)%nat) -> releases a b' ms D.
Proof. intros (Em & Hc & Hn) Hle. split; [exact Em|]. split; [exact Hc|]. intros x. specialize (Hn x). specialize (Hle x). lia. Qed.

Lemma releases_incl a b ms D : releases a b ms D -> incl (b ++ concat D) a.
Proof. intros (_ & _ & Hn). apply cnt_incl. intros x. rewrite count_occ_app. apply Hn. Qed.

Lemma pop_messages_releases l seq :
  exists D, releases l (fst (fst (pop_messages l seq))) (snd (pop_messages l seq)) D.
Proof.
  destruct (pops_runs _ _ _ _ _ (pop_loop_pops l [] None seq) (or_introl eq_refl)) as (D & Em & Hc & Hn).
  exists D. split; [exact Em|]. split; [exact Hc|]. intros x. specialize (Hn x).
  cbn [run_chunks app] in Hn. rewrite count_occ_app in Hn. unfold pop_messages. lia.
Qed.

Theorem pop_messages_retains l seq l' s' ms : pop_messages l seq = (l', s', ms) -> incl l' l.
Proof.
  intros H. destruct (pop_messages_releases l seq) as (D & R). rewrite H in R.
  exact (incl_tran (incl_appl _ (incl_refl _)) (releases_incl _ _ _ _ R)).
Qed.

(* add_chunk inserts the chunk once or, when add_scan finds no later chunk, not at all *)
Lemma add_scan_cnt c x : forall l l', add_scan l c = AddOk l' -> (cnt l' x <= cnt (c :: l) x)%nat.
Proof.
  induction l as [|r l IH]; intros l' H; cbn [add_scan] in H; [injection H as <-; cbn [count_occ]; lia|].
  destruct (tsn r =? tsn c); [discriminate|]. destruct (uint32_gt (tsn r) (tsn c)); [injection H as <-; lia|].
  destruct (add_scan l c) as [l2|]; [|discriminate]. injection H as <-. specialize (IH l2 eq_refl). revert IH. cnt_norm. lia.
Qed.

Lemma add_chunk_cnt c x l l' : add_chunk l c = AddOk l' -> (cnt l' x <= cnt (c :: l) x)%nat.
Proof.
  unfold add_chunk. destruct l as [|a l0]; [intros [= <-]; lia|]. destruct (uint32_gt _ _); [|apply add_scan_cnt].
  intros [= <-]. cnt_norm. lia.
Qed.

Lemma add_chunk_incl l c l' : add_chunk l c = AddOk l' -> incl l' (c :: l).
Proof. intros H. apply cnt_incl. intros x. exact (add_chunk_cnt c x l l' H). Qed.

Lemma prune_chunks_cnt x t : forall l, (cnt (fst (prune_chunks l t)) x <= cnt l x)%nat.
Proof.
  induction l as [|c l IH]; cbn [prune_chunks]; [cbn [fst]; lia|]. destruct (uint32_gte t (tsn c)); [|cbn [fst]; lia].
  rewrite (surjective_pairing (prune_chunks l t)). cbn [fst]. rewrite cnt_cons. lia.
Qed.

Lemma prune_chunks_incl l t : incl (fst (prune_chunks l t)) l.
Proof. apply cnt_incl. intros x. apply prune_chunks_cnt. Qed.

Definition allr (strs : list (Z * stream)) : list chunk := concat (map (fun kv => reasm (snd kv)) strs).

Lemma get_stream_allr l id : incl (reasm (get_stream l id)) (allr l).
Proof.
  induction l as [|[k w] l IH]; cbn [get_stream allr map concat snd]; [apply incl_refl|].
  destruct (id =? k); [apply incl_appl, incl_refl|apply incl_appr, IH].
Qed.

Lemma get_set_same l id v : get_stream (set_stream l id v) id = v.
Proof.
  induction l as [|[k w] l IH]; cbn [set_stream get_stream]; [now rewrite Z.eqb_refl|].
  destruct (Z.eqb_spec id k) as [->|Hne]; cbn [get_stream]; [now rewrite Z.eqb_refl|].
  destruct (Z.eqb_spec id k); [contradiction|exact IH].
Qed.
Lemma get_set_other l id v id' : id' <> id -> get_stream (set_stream l id v) id' = get_stream l id'.
Proof.
  intros Hne. induction l as [|[k w] l IH]; cbn [set_stream get_stream].
  - destruct (Z.eqb_spec id' id); [contradiction|reflexivity].
  - destruct (Z.eqb_spec id k) as [->|Hk]; cbn [get_stream].
    + destruct (Z.eqb_spec id' k); [contradiction|reflexivity].
    + destruct (Z.eqb_spec id' k); [reflexivity|exact IH].
Qed.

Lemma cnt_set_stream x : forall l id v,
  (cnt (allr (set_stream l id v)) x + cnt (reasm (get_stream l id)) x = cnt (allr l) x + cnt (reasm v) x)%nat.
Proof.
  induction l as [|[k w] l IH]; intros id v; cbn [set_stream get_stream allr map concat snd].
  - rewrite !count_occ_app. cbn [reasm count_occ]. lia.
  - destruct (id =? k); cbn [allr map concat snd]; rewrite !count_occ_app.
    + fold (allr l). lia.
    + fold (allr l) (allr (set_stream l id v)). specialize (IH id v). lia.
Qed.

(* a stream's queue, replaced by a list l0 that holds nothing beyond `before`, is polled *)
Lemma releases_stream before strs id l0 seq :
  (forall x, (cnt l0 x + cnt (allr strs) x <= cnt before x + cnt (reasm (get_stream strs id)) x)%nat) ->
  exists D, releases before
    (allr (set_stream strs id (mkStream (fst (fst (pop_messages l0 seq))) (snd (fst (pop_messages l0 seq))))))
    (snd (pop_messages l0 seq)) D.
Proof.
  intros H. destruct (pop_messages_releases l0 seq) as (D & Em & Hc & Hn). exists D. split; [exact Em|]. split; [exact Hc|].
  intros x. specialize (H x). specialize (Hn x).
  pose proof (cnt_set_stream x strs id (mkStream (fst (fst (pop_messages l0 seq))) (snd (fst (pop_messages l0 seq))))) as Hs.
  cbn [reasm] in Hs. lia.
Qed.

Lemma poll_releases g : forall l strs, exists D, releases (allr strs) (allr (fst (poll g strs l))) (snd (poll g strs l)) D.
Proof.
  induction l as [|[id sq] l IH]; intros strs; cbn [poll]; [exists []; apply releases_nil|].
  destruct (releases_stream (allr strs) strs id (reasm (get_stream strs id)) (g (get_stream strs id) sq)) as (D1 & H1); [intros x; lia|].
  destruct (pop_messages _ _) as [[l2 seq2] ms]. cbn [fst snd] in H1.
  destruct (IH (set_stream strs id (mkStream l2 seq2))) as (D2 & H2).
  destruct (poll g _ l) as [strs2 ms2]. exists (D1 ++ D2). exact (releases_app _ _ _ _ _ _ _ H1 H2).
Qed.

Lemma prune_all_cnt x t : forall strs, (cnt (allr (fst (prune_all strs t))) x <= cnt (allr strs) x)%nat.
Proof.
  induction strs as [|[k v] strs IH]; cbn [prune_all]; [cbn [fst]; lia|]. pose proof (prune_chunks_cnt x t (reasm v)) as Hp.
  rewrite (surjective_pairing (prune_chunks (reasm v) t)), (surjective_pairing (prune_all strs t)).
  cbn [fst allr map concat snd reasm]. rewrite !count_occ_app. fold (allr strs) (allr (fst (prune_all strs t))). lia.
Qed.

Lemma receive_forward_tsn_releases s cum strs :
  exists D, releases (allr (streams s)) (allr (streams (fst (receive_forward_tsn s cum strs))))
                     (snd (receive_forward_tsn s cum strs)) D.
Proof.
  unfold receive_forward_tsn. cbn [last_rx misordered duplicates streams rwnd sack_needed].
  destruct (uint32_gte (last_rx s) cum); [exists []; apply releases_nil|].
  rewrite fwd_streams_poll. destruct (poll_releases fwd_seq strs (streams s)) as (D1 & H1).
  destruct (poll fwd_seq (streams s) strs) as [strs2 ms]. pose proof (fun x => prune_all_cnt x cum strs2) as Hp.
  destruct (prune_all strs2 cum) as [strs3 pruned]. rewrite repop_streams_poll.
  destruct (poll_releases (fun st _ => sseq_expected st) strs strs3) as (D2 & H2).
  destruct (poll _ strs3 strs) as [strs4 ms']. cbn [fst snd streams] in *.
  exists (D1 ++ D2). exact (releases_app _ _ _ _ _ _ _ (releases_le _ _ _ _ _ H1 Hp) H2).
Qed.

Lemma mark_received_streams s t : streams (fst (mark_received s t)) = streams s.
Proof. unfold mark_received. destruct (_ || _); reflexivity. Qed.

(* the two tests a DATA chunk passes before _receive_data_chunk queues it: not too far ahead of the
   cumulative TSN, not received before *)
Definition admits (s : rstate) (c : chunk) : bool :=
  let s0 := mkR (last_rx s) (misordered s) (duplicates s) (streams s) (rwnd s) true in
  negb (far_ahead s0 (tsn c)) && negb (snd (mark_received s0 (tsn c))).

(* the chunk an event puts into a reassembly queue, if any *)
Definition admitted (s : rstate) (e : revent) : list chunk :=
  match e with EvData c => if admits s c then [c] else [] | EvFwd _ _ => [] end.

Lemma receive_data_eq s c :
  receive_data s c =
  let s0 := mkR (last_rx s) (misordered s) (duplicates s) (streams s) (rwnd s) true in
  let s1 := fst (mark_received s0 (tsn c)) in
  if admits s c then
    match add_chunk (reasm (get_stream (streams s) (sid c))) c with
    | AddAssert => RAssert
    | AddOk l =>
        let '(l2, seq2, ms) := pop_messages l (sseq_expected (get_stream (streams s) (sid c))) in
        ROk (mkR (last_rx s1) (misordered s1) (duplicates s1) (set_stream (streams s) (sid c) (mkStream l2 seq2))
                 (rwnd s1 - len (udata c) + msgs_len ms) true) ms
    end
  else ROk (if far_ahead s0 (tsn c) then s0 else s1) [].
Proof.
  unfold receive_data, admits. cbv zeta. destruct (far_ahead _ (tsn c)); [reflexivity|].
  pose proof (mark_received_streams (mkR (last_rx s) (misordered s) (duplicates s) (streams s) (rwnd s) true) (tsn c)) as Hs.
  destruct (mark_received _ (tsn c)) as [s1 dup]. cbn [fst snd streams negb andb] in *. destruct dup; [reflexivity|].
  now rewrite Hs.
Qed.

Lemma receive_data_releases s c s' ms : receive_data s c = ROk s' ms ->
  exists D, releases (admitted s (EvData c) ++ allr (streams s)) (allr (streams s')) ms D.
Proof.
  rewrite receive_data_eq. cbv zeta. cbn [admitted]. destruct (admits s c).
  - destruct (add_chunk (reasm (get_stream (streams s) (sid c))) c) as [l|] eqn:Ea; [|discriminate].
    destruct (releases_stream ([c] ++ allr (streams s)) (streams s) (sid c) l (sseq_expected (get_stream (streams s) (sid c)))) as (D & H).
    { intros x. pose proof (add_chunk_cnt c x _ _ Ea). cbn [app]. rewrite !cnt_cons in *. lia. }
    destruct (pop_messages l _) as [[l2 seq2] ms0]. intros [= <- <-]. exists D. exact H.
  - intros [= <- <-]. exists []. destruct (far_ahead _ _); [|rewrite mark_received_streams]; apply releases_nil.
Qed.

Lemma receive_data_queued s c s' ms : receive_data s c = ROk s' ms -> incl (allr (streams s')) (c :: allr (streams s)).
Proof.
  intros E. destruct (receive_data_releases _ _ _ _ E) as (D & R). intros x Hx.
  pose proof (releases_incl _ _ _ _ R x (in_or_app _ _ _ (or_introl Hx))) as H.
  apply in_app_or in H as [H|H]; [left|now right]. cbn [admitted] in H.
  destruct (admits s c); [destruct H as [H|[]]; exact H|destruct H].
Qed.

Lemma receive_forward_tsn_queued s cum strs : incl (allr (streams (fst (receive_forward_tsn s cum strs)))) (allr (streams s)).
Proof.
  destruct (receive_forward_tsn_releases s cum strs) as (D & R).
  exact (incl_tran (incl_appl _ (incl_refl _)) (releases_incl _ _ _ _ R)).
Qed.
