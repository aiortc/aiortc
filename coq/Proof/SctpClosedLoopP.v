(* C02: the closed loop of sender and receiver in the fault-free suffix.  From ANY reachable
   sender state and a receiver that has received everything before the outstanding chunks:
   the outstanding chunks arrive in order, the receiver answers with the SACK its model
   computes, the sender processes that SACK and runs its pending transmit task, and so on -
   within 2 * (outstanding + queued) such rounds the sender is quiescent (nothing outstanding,
   nothing queued, flight size 0) and the receiver has cumulatively received every TSN that was
   outstanding or queued. *)
From Coq Require Import ZArith List Bool Lia ZifyBool.
From AV Require Import Lib.Bytes Gen.Utils Gen.SctpConst Model.SctpRecv Model.SctpTx Proof.SctpC01P Proof.SctpDupP Proof.SctpTxP
  Proof.SctpTxLiveP Proof.SctpLoopP.
Import ListNotations.
Local Open Scope Z_scope.

Ltac Zify.zify_post_hook ::= Z.to_euclidean_division_equations.

Section Loop.
Variable base N : Z.
Hypothesis Hbase : r32 base.
Hypothesis HN : 0 <= N < 2147483648.

Notation offb := (off base).
Notation inwb := (inw base N).
Notation ord := (ord base N).
Notation floor := SctpTxLiveP.floor.

Lemma rrun_inv : forall es r, SctpDupP.inv base N r -> Forall (data_ev base N) es -> SctpDupP.inv base N (fst (rrun r es)).
Proof.
  induction es as [|e es IH]; intros r Hi Hes; [exact Hi|]. inversion Hes as [|? ? He Hrest]; subst.
  rewrite rrun_cons. cbn [fst]. destruct e as [c|]; [|destruct He]. cbn [data_ev] in He.
  destruct (rstep_data_inv base N Hbase HN r c Hi He) as (H1 & _). now apply IH.
Qed.

Variable wire : sc -> chunk.                     (* what a queued chunk looks like on the wire *)
Hypothesis wire_tsn : forall c, tsn (wire c) = c_tsn c.
Variable now : Z.                                (* the clock value handed to the SACK handler *)

Definition last_sack (outs : list rout) : option sack :=
  match List.last outs OutAssert with OutOk _ (Some k) => Some k | _ => None end.

Definition sync (s : tx) (r : rstate) : Prop :=
  SctpDupP.inv base N r /\ last_rx r = floor s /\ misordered r = [].

Definition arrive (s : tx) : list revent := map (fun c => EvData (wire c)) (sentq s).

Fixpoint loop (fuel : nat) (s : tx) (r : rstate) : tx * rstate :=
  match fuel with
  | O => (s, r)
  | S f =>
      match sentq s with
      | _ :: _ =>
          let r' := fst (rrun r (arrive s)) in
          match last_sack (snd (rrun r (arrive s))) with
          | Some k => loop f (fst (step s (ISack (s_cum k) (s_gaps k) now))) r'
          | None => (s, r')
          end
      | [] => match outq s with _ :: _ => loop f (fst (step s IRunTransmit)) r | [] => (s, r) end
      end
  end.

Lemma delivery_round s r : SctpTxP.inv s -> ord s -> sync s r -> sentq s <> [] ->
  exists k, last_sack (snd (rrun r (arrive s))) = Some k /\
    let s' := fst (step s (ISack (s_cum k) (s_gaps k) now)) in
    let r' := fst (rrun r (arrive s)) in
    SctpTxP.inv s' /\ ord s' /\ sync s' r' /\ (measure s' < measure s)%nat /\ top base s' = top base s.
Proof.
  intros I O (Ri & Rl & Rm) Hne. pose proof O as [Hl Ha Hs Ht].
  unfold qs in Hs, Ht. rewrite tsns_app in Hs. apply (seqfrom_app base N HN) in Hs as [Hs1 _]. rewrite app_length in Ht.
  set (cs := map wire (sentq s)).
  assert (Ecs : map tsn cs = tsns (sentq s)).
  { unfold cs, tsns. rewrite map_map. apply map_ext. intros c. apply wire_tsn. }
  assert (Earr : arrive s = map EvData cs) by (unfold arrive, cs; now rewrite map_map).
  assert (Hdata : Forall (data_ev base N) (map EvData cs)).
  { apply Forall_forall. intros e He. apply in_map_iff in He as (c & <- & Hc'). cbn [data_ev].
    assert (Hin : In (tsn c) (tsns (sentq s))) by (rewrite <- Ecs; now apply in_map).
    pose proof (seqfrom_inw base N _ _ Hs1 ltac:(rewrite tsns_length; lia) (off_nonneg base _)) as Fw.
    rewrite Forall_forall in Fw. now apply Fw. }
  destruct (outstanding_arrive base N s cs r Hbase HN O Hne Ecs Rl Rm (no_assert base N Hbase HN _ r Ri Hdata))
    as (E1 & E2 & ms & rw & dups & H).
  rewrite Earr. exists (mkSack (highest_assigned s) rw [] dups).
  split; [unfold last_sack; now rewrite H|]. cbn [s_cum s_gaps].
  destruct (sack_round base N Hbase HN s now I O Hne) as (I1 & O1 & M1 & T1 & F1).
  split; [exact I1|]. split; [exact O1|]. split; [|split; [exact M1|exact T1]].
  split; [apply rrun_inv; assumption|]. split; [now rewrite F1|exact E2].
Qed.

Theorem closed_loop : forall fuel s r, SctpTxP.inv s -> ord s -> sync s r -> (measure s <= fuel)%nat ->
  let s' := fst (loop fuel s r) in let r' := snd (loop fuel s r) in
  sentq s' = [] /\ outq s' = [] /\ flight s' = 0 /\
  sync s' r' /\ offb (last_rx r') = top base s.
Proof.
  assert (Hidle : forall s r, SctpTxP.inv s -> sync s r -> sentq s = [] -> outq s = [] ->
            flight s = 0 /\ offb (last_rx r) = top base s).
  { intros s r I (_ & Rl & _) Es Eo. pose proof (i_fl s I) as F. rewrite Es in F. cbn in F.
    split; [lia|]. rewrite Rl. unfold top, qs. rewrite Es, Eo. cbn [app length]. lia. }
  induction fuel as [|f IH]; intros s r I O Y Hm; cbv zeta; cbn [loop].
  - cbn [fst snd]. unfold measure, qs in Hm. rewrite app_length in Hm.
    destruct (sentq s) as [|c sq] eqn:Es; destruct (outq s) as [|d oq] eqn:Eo; cbn [length] in Hm; try lia.
    destruct (Hidle s r I Y Es Eo). auto 6.
  - destruct (sentq s) as [|c sq] eqn:Es.
    + destruct (outq s) as [|d oq] eqn:Eo; [destruct (Hidle s r I Y Es Eo); auto 6|].
      destruct (kick base N Hbase HN s I O Es ltac:(rewrite Eo; discriminate)) as (I1 & O1 & M1 & T1 & F1).
      rewrite <- T1. apply IH; auto; [|lia]. destruct Y as (Ri & Rl & Rm). split; [exact Ri|]. split; [congruence|exact Rm].
    + destruct (delivery_round s r I O Y ltac:(rewrite Es; discriminate)) as (k & Ek & I1 & O1 & Y1 & M1 & T1).
      rewrite Ek, <- T1. apply IH; auto. lia.
Qed.
End Loop.

(* From EVERY reachable sender state (any history of sends, SACKs, T3 expiries, transmit runs) and
   a receiver in sync with it. *)
Theorem closed_loop_reachable base N t rw ins wire now r :
  r32 base -> 0 <= N < 2147483648 -> inw base N (tsn_minus_one t) ->
  Forall wf_input ins -> wf_ord_run base N (init t rw) ins ->
  (forall c, tsn (wire c) = c_tsn c) ->
  let s := fst (run (init t rw) ins) in
  sync base N s r ->
  let fin := loop wire now (2 * length (sentq s ++ outq s)) s r in
  sentq (fst fin) = [] /\ outq (fst fin) = [] /\ flight (fst fin) = 0 /\
  sync base N (fst fin) (snd fin) /\ off base (last_rx (snd fin)) = top base s.
Proof.
  intros Hb HN Ht Hw Ho Hwire s Y fin.
  pose proof (inv_reachable t rw ins Hw) as I. pose proof (ord_reachable base N Hb HN t rw ins Ht Ho) as O.
  assert (Hm : (measure s <= 2 * length (sentq s ++ outq s))%nat) by (unfold measure, qs; lia).
  exact (closed_loop base N Hb HN wire Hwire now _ s r I O Y Hm).
Qed.

(* a wire image for examples: payload of the booked size *)
Definition wire_of (c : sc) : chunk :=
  mkChunk (c_tsn c) (c_sid c) (c_sseq c) (c_unord c) (c_first c) (c_last c) 53 (repeat 7 (Z.to_nat (c_book c))).

Definition closed_loop_example_statement : Prop :=
  let c t := mkSc t 1 (t - 10) false true true 3 false false false 0 0 None None in
  let ins := [ISendMsg [c 10; c 11; c 12]; ISendMsg [c 13; c 14]; ISack 10 [(2, 2)] 0; IT3 5] in
  let s := fst (run (init 10 1048576) ins) in
  let r := fst (rrun (rinit 9) [EvData (wire_of (c 10))]) in
  let fin := loop wire_of 0 (2 * length (sentq s ++ outq s)) s r in
  (length (sentq s), length (outq s), last_rx r) = (4%nat, 0%nat, 10) /\
  (sentq (fst fin), outq (fst fin), flight (fst fin), last_rx (snd fin)) = ([], [], 0, 14).
Lemma closed_loop_example : closed_loop_example_statement.
Proof. vm_compute. split; reflexivity. Qed.
