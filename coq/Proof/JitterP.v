(* Proofs about Model/Jitter.v, part 1: the WINDOW view of the ring, the list of the `capacity`
   slots read from `_origin` onwards.  `ring c o sl w` relates a ring to the window it shows;
   every loop of the model acts on the window like a simple list function (w_remove, w_smart,
   w_rf), so that add() refines a window-level add (a_add, `add_refines`) and the remaining
   proofs never mention ring positions; `start` and `a_add_cases` then say in which ways a_add
   reaches its common tail. *)
From Coq Require Import ZArith List Bool Lia Znumtheory.
From AV Require Import Lib.Sx Lib.Bytes Gen.Utils Gen.JbConst Model.Jitter.
Import ListNotations.
Local Open Scope Z_scope.

Definition M16 : Z := 65536.

(* Proof/SerialP.v has the first four laws too.  It is not imported here: it switches on lia's
   preprocessing of div and mod for its importers, and every lia below would then take the ring
   indices `x mod capacity` apart. *)
Lemma uint16_add_mod a b : uint16_add a b = (a + b) mod 65536.
Proof. unfold uint16_add. change 65535 with (Z.ones 16). rewrite Z.land_ones by lia. reflexivity. Qed.

Lemma uint16_add_range a b : 0 <= uint16_add a b < 65536.
Proof. rewrite uint16_add_mod. apply Z.mod_pos_bound. lia. Qed.

Lemma uint16_add_add a b d : uint16_add (uint16_add a b) d = uint16_add a (b + d).
Proof. rewrite !uint16_add_mod, Zplus_mod_idemp_l, Z.add_assoc. reflexivity. Qed.

Lemma uint16_add_0 a : 0 <= a < 65536 -> uint16_add a 0 = a.
Proof. intros H. rewrite uint16_add_mod, Z.add_0_r. apply Z.mod_small. exact H. Qed.

Lemma uint16_add_opp a : uint16_add a (- a) = 0.
Proof. rewrite uint16_add_mod, Z.add_opp_diag_r. reflexivity. Qed.

Lemma uint16_delta_back o s : 0 <= s < 65536 -> uint16_add o (uint16_add s (- o)) = s.
Proof.
  intros H. rewrite !uint16_add_mod, Zplus_mod_idemp_r. replace (o + (s + - o)) with s by lia.
  apply Z.mod_small. exact H.
Qed.

Lemma uint16_delta_after s o b : 0 <= b <= uint16_add s (- o) ->
  uint16_add s (- uint16_add o b) = uint16_add s (- o) - b.
Proof.
  intros Hb. pose proof (uint16_add_range s (- o)) as Hd.
  rewrite <- (Z.mod_small (uint16_add s (- o) - b) 65536) by lia.
  rewrite !uint16_add_mod, !Z.add_opp_r, Zminus_mod_idemp_r, Zminus_mod_idemp_l. f_equal. lia.
Qed.

Definition cap_ok (c : Z) : Prop := exists k, 0 <= k <= 16 /\ c = 2 ^ k.

Lemma cap_ok_pos c : cap_ok c -> 0 < c.
Proof. intros (k & Hk & ->). apply Z.pow_pos_nonneg; lia. Qed.

Lemma cap_ok_div c : cap_ok c -> (c | 65536).
Proof.
  intros (k & Hk & ->). exists (2 ^ (16 - k)).
  rewrite <- Z.pow_add_r by lia. replace (16 - k + k) with 16 by lia. reflexivity.
Qed.

Lemma cap_ok_le c : cap_ok c -> c <= 65536.
Proof. intros H. apply Z.divide_pos_le; [lia|apply cap_ok_div; exact H]. Qed.

Lemma cap_ok_land c : cap_ok c -> Z.land c (c - 1) = 0.
Proof.
  intros (k & Hk & ->). replace (2 ^ k - 1) with (Z.ones k) by (rewrite Z.ones_equiv; lia).
  rewrite Z.land_ones by lia. apply Z.mod_same. apply Z.pow_nonzero; lia.
Qed.

Lemma mod16_mod c a : cap_ok c -> (a mod 65536) mod c = a mod c.
Proof.
  intros H. symmetry. apply Zmod_div_mod; [apply cap_ok_pos; exact H|lia|apply cap_ok_div; exact H].
Qed.

Lemma mod_inj c a b : 0 < c -> a mod c = b mod c -> - c < a - b < c -> a = b.
Proof.
  intros Hc E Hr. destruct (Z.eq_dec a b) as [|Hne]; [assumption|exfalso].
  assert (Hd : (c | a - b)).
  { apply Z.mod_divide; [lia|]. rewrite Zminus_mod, E, Z.sub_diag. apply Z.mod_0_l. lia. }
  apply Zdivide_bounds in Hd; lia.
Qed.

Lemma mod_small_eq c a k : 0 < c -> 0 <= k < c -> (a - k) mod c = 0 -> a mod c = k.
Proof.
  intros Hc Hk E. apply Z.mod_divide in E; [|lia]. destruct E as [q Hq].
  replace a with (k + q * c) by lia. rewrite Z.mod_add by lia. apply Z.mod_small. lia.
Qed.

Lemma set_nth_spec {A} (l : list A) : forall n x,
  match set_nth l n x with
  | Some l' => (n < length l)%nat /\ length l' = length l /\
               forall m, nth_error l' m = if Nat.eqb m n then Some x else nth_error l m
  | None => (length l <= n)%nat
  end.
Proof.
  induction l as [|h t IH]; intros [|n] x; cbn [set_nth length]; try lia.
  - split; [lia|]. split; [reflexivity|]. intros [|m]; reflexivity.
  - specialize (IH n x). destruct (set_nth t n x) as [t'|]; [|lia].
    destruct IH as (Hn & HL & Hm). split; [lia|]. split; [cbn [length]; lia|].
    intros [|m]; [reflexivity|]. apply Hm.
Qed.

Lemma set_nth_some {A} (l : list A) n x : (n < length l)%nat ->
  exists l', set_nth l n x = Some l' /\ length l' = length l.
Proof.
  intros Hn. pose proof (set_nth_spec l n x) as S. destruct (set_nth l n x) as [l'|]; [|lia].
  exists l'. split; [reflexivity|apply S].
Qed.

Lemma nth_error_ext {A} (l l' : list A) :
  length l = length l' -> (forall k, (k < length l)%nat -> nth_error l k = nth_error l' k) -> l = l'.
Proof.
  revert l'. induction l as [|h t IH]; intros [|h' t'] HL HN; cbn [length] in *; try lia; [reflexivity|].
  pose proof (HN 0%nat ltac:(lia)) as H0. cbn [nth_error] in H0. injection H0 as ->.
  f_equal. apply IH; [lia|]. intros k Hk. apply (HN (S k)). lia.
Qed.

Lemma nth_error_skipn' {A} (l : list A) n k : nth_error (skipn n l) k = nth_error l (n + k).
Proof.
  revert l. induction n as [|n IH]; intros l; [reflexivity|].
  destruct l as [|h t]; [destruct k; reflexivity|]. cbn [skipn Nat.add nth_error]. apply IH.
Qed.

Lemma nth_error_some_lt {A} (l : list A) k x : nth_error l k = Some x -> (k < length l)%nat.
Proof. intros H. apply nth_error_Some. congruence. Qed.

Lemma skipn_nth_cons {A} (l : list A) k x : nth_error l k = Some x -> skipn k l = x :: skipn (S k) l.
Proof.
  revert k. induction l as [|h t IH]; intros k H; [destruct k; discriminate|].
  destruct k as [|k]; cbn [nth_error] in H.
  - injection H as ->. reflexivity.
  - cbn [skipn]. apply IH. exact H.
Qed.

Lemma firstn_app_le {A} (l1 l2 : list A) n : (n <= length l1)%nat -> firstn n (l1 ++ l2) = firstn n l1.
Proof.
  intros H. rewrite firstn_app. replace (n - length l1)%nat with 0%nat by lia.
  cbn [firstn]. apply app_nil_r.
Qed.

Lemma nth_error_seq' s n k : (k < n)%nat -> nth_error (seq s n) k = Some (s + k)%nat.
Proof.
  revert s k. induction n as [|n IH]; intros s k Hk; [lia|].
  destruct k as [|k]; cbn [seq nth_error]; [f_equal; lia|].
  rewrite IH by lia. f_equal. lia.
Qed.

Definition W := list (option pkt).

Definition w_set (w : W) (k : nat) (x : option pkt) : W :=
  match set_nth w k x with Some w' => w' | None => w end.
Definition w_remove (w : W) (n : nat) : W := skipn n w ++ repeat None n.

Lemma w_set_length w k x : length (w_set w k x) = length w.
Proof.
  unfold w_set. pose proof (set_nth_spec w k x) as S. destruct (set_nth w k x); [apply S|reflexivity].
Qed.

Lemma w_set_nth w k x j :
  nth_error (w_set w k x) j =
  if (Nat.eqb j k && Nat.ltb k (length w))%bool then Some x else nth_error w j.
Proof.
  unfold w_set. pose proof (set_nth_spec w k x) as S.
  destruct (Nat.ltb_spec k (length w)); destruct (set_nth w k x); try lia.
  - rewrite andb_true_r. apply S.
  - rewrite andb_false_r. reflexivity.
Qed.

Lemma w_remove_length w n : (n <= length w)%nat -> length (w_remove w n) = length w.
Proof. intros H. unfold w_remove. rewrite app_length, skipn_length, repeat_length. lia. Qed.

Lemma w_remove_nth w n k : (n <= length w)%nat -> (k < length w)%nat ->
  nth_error (w_remove w n) k = if (k + n <? length w)%nat then nth_error w (n + k) else Some None.
Proof.
  intros Hn Hk. unfold w_remove. destruct (Nat.ltb_spec (k + n) (length w)) as [H|H].
  - rewrite nth_error_app1 by (rewrite skipn_length; lia). apply nth_error_skipn'.
  - rewrite nth_error_app2 by (rewrite skipn_length; lia). rewrite skipn_length.
    apply nth_error_repeat. lia.
Qed.

Lemma w_remove_0 w : w_remove w 0 = w.
Proof. unfold w_remove. cbn [skipn repeat]. apply app_nil_r. Qed.

Lemma w_remove_S w n : (S n <= length w)%nat -> w_remove (w_remove w 1) n = w_remove w (S n).
Proof.
  destruct w as [|h t]; cbn [length]; intros H; [lia|].
  unfold w_remove. cbn [skipn]. rewrite skipn_app. replace (n - length t)%nat with 0%nat by lia.
  rewrite <- app_assoc. reflexivity.
Qed.

Lemma w_remove_all w n : n = length w -> w_remove w n = repeat None n.
Proof. intros ->. unfold w_remove. rewrite skipn_all. reflexivity. Qed.

Definition cellat (c : Z) (sl : W) (x : Z) : option pkt :=
  match nth_error sl (Z.to_nat (x mod c)) with
  | Some v => v
  | None => None
  end.

Definition window (c o : Z) (sl : W) : W :=
  map (fun k => cellat c sl (o + Z.of_nat k)) (seq 0 (Z.to_nat c)).

Lemma window_length c o sl : length (window c o sl) = Z.to_nat c.
Proof. unfold window. rewrite map_length, seq_length. reflexivity. Qed.

Lemma window_nth c o sl k : (k < Z.to_nat c)%nat ->
  nth_error (window c o sl) k = Some (cellat c sl (o + Z.of_nat k)).
Proof.
  intros Hk. unfold window. rewrite nth_error_map, nth_error_seq' by exact Hk. reflexivity.
Qed.

Lemma window_ext c o sl w : length w = Z.to_nat c ->
  (forall k, (k < Z.to_nat c)%nat -> nth_error w k = Some (cellat c sl (o + Z.of_nat k))) ->
  window c o sl = w.
Proof.
  intros HL H. apply nth_error_ext; [rewrite window_length; symmetry; exact HL|].
  intros k Hk. rewrite window_length in Hk. rewrite window_nth, H by exact Hk. reflexivity.
Qed.

Lemma cellat_congr c sl x y : x mod c = y mod c -> cellat c sl x = cellat c sl y.
Proof. unfold cellat. intros ->. reflexivity. Qed.

Lemma cellat_set c sl sl' x v y : 0 < c ->
  set_nth sl (Z.to_nat (x mod c)) v = Some sl' ->
  cellat c sl' y = if (y mod c =? x mod c) then v else cellat c sl y.
Proof.
  intros Hc H. pose proof (set_nth_spec sl (Z.to_nat (x mod c)) v) as S. rewrite H in S.
  unfold cellat. rewrite (proj2 (proj2 S)).
  pose proof (Z.mod_pos_bound y c Hc). pose proof (Z.mod_pos_bound x c Hc).
  destruct (Z.eqb_spec (y mod c) (x mod c)) as [E|E].
  - rewrite E, Nat.eqb_refl. reflexivity.
  - destruct (Nat.eqb_spec (Z.to_nat (y mod c)) (Z.to_nat (x mod c))); [lia|reflexivity].
Qed.

Lemma window_uint16 c o d sl : cap_ok c -> window c (uint16_add o d) sl = window c (o + d) sl.
Proof.
  intros Hc. unfold window. apply map_ext. intros k. apply cellat_congr.
  rewrite uint16_add_mod, Zplus_mod, (mod16_mod c _ Hc), <- Zplus_mod. reflexivity.
Qed.

Definition ring (c o : Z) (sl w : W) : Prop :=
  0 <= o < 65536 /\ length sl = Z.to_nat c /\ window c o sl = w.

Lemma ring_length c o sl w : ring c o sl w -> length w = Z.to_nat c.
Proof. intros (_ & _ & <-). apply window_length. Qed.

Lemma mod_pos_lt a c (sl : W) : 0 < c -> length sl = Z.to_nat c -> (Z.to_nat (a mod c) < length sl)%nat.
Proof. intros Hc HL. pose proof (Z.mod_pos_bound a c Hc). lia. Qed.

Lemma ring_read c o sl w k : 0 < c -> ring c o sl w -> 0 <= k < c ->
  nth_error sl (Z.to_nat ((o + k) mod c)) = nth_error w (Z.to_nat k).
Proof.
  intros Hc (_ & HL & <-) Hk. rewrite window_nth, Z2Nat.id by lia. unfold cellat.
  destruct (nth_error sl (Z.to_nat ((o + k) mod c))) as [v|] eqn:E; [reflexivity|].
  apply nth_error_None in E. pose proof (mod_pos_lt (o + k) c sl Hc HL). lia.
Qed.

Lemma ring_slot c o sl w i x : 0 < c -> ring c o sl w -> nth_error sl i = Some x ->
  nth_error w (Z.to_nat ((Z.of_nat i - o) mod c)) = Some x /\
  (o + (Z.of_nat i - o) mod c) mod c = Z.of_nat i.
Proof.
  intros Hc (_ & HL & <-) E. pose proof (nth_error_some_lt _ _ _ E) as Hi.
  pose proof (Z.mod_pos_bound (Z.of_nat i - o) c Hc) as Hk.
  assert (Em : (o + (Z.of_nat i - o) mod c) mod c = Z.of_nat i).
  { rewrite Zplus_mod_idemp_r. replace (o + (Z.of_nat i - o)) with (Z.of_nat i) by lia.
    apply Z.mod_small. lia. }
  split; [|exact Em]. rewrite window_nth by lia. rewrite Z2Nat.id by lia.
  unfold cellat. rewrite Em, Nat2Z.id, E. reflexivity.
Qed.

Lemma ring_In c o sl w x : 0 < c -> ring c o sl w -> (In x sl <-> In x w).
Proof.
  intros Hc HR. split; intros Hin; apply In_nth_error in Hin; destruct Hin as [i E].
  - destruct (ring_slot c o sl w i x Hc HR E) as [E1 _]. eapply nth_error_In. exact E1.
  - pose proof (nth_error_some_lt _ _ _ E) as Hi. rewrite (ring_length _ _ _ _ HR) in Hi.
    rewrite <- (Nat2Z.id i), <- (ring_read c o sl w (Z.of_nat i) Hc HR) in E by lia.
    eapply nth_error_In. exact E.
Qed.

Lemma ring_write c o sl w d v : 0 < c -> ring c o sl w -> 0 <= d < c ->
  exists sl', set_nth sl (Z.to_nat ((o + d) mod c)) v = Some sl' /\ ring c o sl' (w_set w (Z.to_nat d) v).
Proof.
  intros Hc (Ho & HL & <-) Hd.
  destruct (set_nth_some sl _ v (mod_pos_lt (o + d) c sl Hc HL)) as (sl' & H & HL').
  exists sl'. split; [exact H|]. split; [exact Ho|]. split; [lia|].
  apply window_ext; [rewrite w_set_length; apply window_length|].
  intros m Hm. rewrite w_set_nth, window_length, window_nth, (cellat_set _ _ _ _ _ _ Hc H) by exact Hm.
  destruct (Nat.ltb_spec (Z.to_nat d) (Z.to_nat c)); [rewrite andb_true_r|lia].
  destruct (Nat.eqb_spec m (Z.to_nat d)) as [->|Hne].
  - rewrite Z2Nat.id, Z.eqb_refl by lia. reflexivity.
  - destruct (Z.eqb_spec ((o + Z.of_nat m) mod c) ((o + d) mod c)) as [E|E]; [|reflexivity].
    exfalso. apply Hne. apply mod_inj in E; lia.
Qed.

(* one step of remove() or smart_remove(): clearing the origin's slot and advancing the origin
   = dropping the window head *)
Lemma ring_clear c o sl w : cap_ok c -> ring c o sl w ->
  exists sl', set_nth sl (Z.to_nat (o mod c)) None = Some sl' /\ ring c (uint16_add o 1) sl' (w_remove w 1).
Proof.
  intros Hc (_ & HL & <-). pose proof (cap_ok_pos c Hc) as Hpos.
  destruct (set_nth_some sl _ None (mod_pos_lt o c sl Hpos HL)) as (sl' & H & HL').
  exists sl'. split; [exact H|]. split; [apply uint16_add_range|]. split; [lia|].
  rewrite window_uint16 by exact Hc.
  apply window_ext; [rewrite w_remove_length; rewrite window_length; lia|].
  intros k Hk. rewrite w_remove_nth, window_length, (cellat_set _ _ _ _ _ _ Hpos H) by (rewrite window_length; lia).
  destruct (Nat.ltb_spec (k + 1) (Z.to_nat c)) as [H1|H1].
  - rewrite window_nth by lia.
    destruct (Z.eqb_spec ((o + 1 + Z.of_nat k) mod c) (o mod c)) as [E|E].
    + exfalso. apply mod_inj in E; lia.
    + f_equal. apply cellat_congr. f_equal. lia.
  - destruct (Z.eqb_spec ((o + 1 + Z.of_nat k) mod c) (o mod c)) as [E|E]; [reflexivity|].
    exfalso. apply E. replace (o + 1 + Z.of_nat k) with (o + 1 * c) by lia.
    apply Z.mod_add. lia.
Qed.

Lemma ring_empty c o : 0 <= o < 65536 -> ring c o (repeat None (Z.to_nat c)) (repeat None (Z.to_nat c)).
Proof.
  intros Ho. split; [exact Ho|]. split; [apply repeat_length|].
  apply window_ext; [apply repeat_length|]. intros k Hk. rewrite nth_error_repeat by exact Hk.
  unfold cellat. destruct (nth_error _ _) as [v|] eqn:E; [|reflexivity].
  apply nth_error_In, repeat_spec in E. rewrite E. reflexivity.
Qed.

Lemma ring_flush c x y sl : 0 < c -> ring c x sl (repeat None (Z.to_nat c)) -> 0 <= y < 65536 ->
  ring c y sl (repeat None (Z.to_nat c)).
Proof.
  intros Hc HR Hy. assert (E : sl = repeat None (Z.to_nat c)); [|rewrite E; apply ring_empty; exact Hy].
  pose proof HR as (_ & HL & _). apply nth_error_ext; [rewrite repeat_length; exact HL|].
  intros i Hi. destruct (nth_error sl i) as [v|] eqn:Ei; [|apply nth_error_None in Ei; lia].
  destruct (ring_slot c x sl _ i v Hc HR Ei) as [E1 _]. apply nth_error_In, repeat_spec in E1.
  rewrite E1, nth_error_repeat by lia. reflexivity.
Qed.

Lemma pymod_pos a c : 0 < c -> pymod a c = Some (Z.to_nat (a mod c)).
Proof. intros H. unfold pymod. destruct (Z.leb_spec c 0); [lia|reflexivity]. Qed.

Lemma remove_loop_spec c : cap_ok c -> forall n o sl w,
  ring c o sl w -> (n <= Z.to_nat c)%nat ->
  exists sl', remove_loop n c o sl = Ok (uint16_add o (Z.of_nat n), sl') /\
              ring c (uint16_add o (Z.of_nat n)) sl' (w_remove w n).
Proof.
  intros Hc. pose proof (cap_ok_pos c Hc) as Hpos.
  induction n as [|n IH]; intros o sl w HR Hn.
  - exists sl. cbn [remove_loop Z.of_nat]. rewrite uint16_add_0 by apply HR.
    rewrite w_remove_0. auto.
  - cbn [remove_loop]. rewrite pymod_pos by exact Hpos.
    destruct (ring_clear c o sl w Hc HR) as (sl1 & H1 & R1). rewrite H1.
    destruct (IH _ sl1 _ R1 ltac:(lia)) as (sl' & E & R').
    exists sl'. rewrite uint16_add_add in E, R'. rewrite w_remove_S in R' by (rewrite (ring_length _ _ _ _ HR); lia).
    replace (Z.of_nat (S n)) with (1 + Z.of_nat n) by lia. auto.
Qed.

Lemma remove_spec c : cap_ok c -> forall o sl w count,
  ring c o sl w -> 0 <= count <= c ->
  exists sl', remove c o sl count = Ok (uint16_add o count, sl') /\
              ring c (uint16_add o count) sl' (w_remove w (Z.to_nat count)).
Proof.
  intros Hc o sl w count HR Hcnt. unfold remove.
  destruct (Z.gtb_spec count c); [lia|].
  destruct (remove_loop_spec c Hc (Z.to_nat count) o sl w HR ltac:(lia)) as (sl' & E & R').
  rewrite Z2Nat.id in E, R' by lia. exists sl'. auto.
Qed.

(* smart_remove on a window: Some b = stopped after dropping b slots, None = dropped everything *)
Fixpoint w_smart (w : W) (i count : Z) (tsv : option Z) : option nat :=
  match w with
  | [] => None
  | Some p :: w' =>
      if (i >=? count) && ts_differs tsv (pts p) then Some O
      else option_map S (w_smart w' (i + 1) count (Some (pts p)))
  | None :: w' => option_map S (w_smart w' (i + 1) count tsv)
  end.

Lemma smart_loop_spec c : cap_ok c -> forall n i count tsv o sl w,
  (1 <= n)%nat -> 0 <= i -> i + Z.of_nat n = c -> ring c o sl w ->
  smart_loop n i count c tsv o sl =
  match w_smart (firstn n w) i count tsv with
  | Some b => bind (remove_loop b c o sl) (fun r => Ok (false, fst r, snd r))
  | None => bind (remove_loop n c o sl) (fun r => Ok (true, fst r, snd r))
  end.
Proof.
  intros Hc. pose proof (cap_ok_pos c Hc) as Hpos.
  induction n as [|n IH]; intros i count tsv o sl w Hn Hi0 Hi HR; [lia|].
  pose proof (ring_length _ _ _ _ HR) as HWL.
  pose proof (ring_read c o sl w 0 Hpos HR ltac:(lia)) as H0. rewrite Z.add_0_r in H0.
  destruct (ring_clear c o sl w Hc HR) as (sl1 & H1 & R1).
  destruct w as [|h t]; cbn [length] in HWL; [lia|].
  cbn [smart_loop firstn w_smart]. rewrite pymod_pos by exact Hpos. rewrite H0, H1. cbn [Z.to_nat nth_error].
  assert (Hcont : forall tsv',
    (if i =? c - 1 then Ok (true, uint16_add o 1, sl1)
     else smart_loop n (i + 1) count c tsv' (uint16_add o 1) sl1) =
    match option_map S (w_smart (firstn n t) (i + 1) count tsv') with
    | Some b => bind (remove_loop b c o sl) (fun r => Ok (false, fst r, snd r))
    | None => bind (remove_loop (S n) c o sl) (fun r => Ok (true, fst r, snd r))
    end).
  { intros tsv'. destruct (Z.eqb_spec i (c - 1)) as [Ei|Ei].
    - assert (n = 0%nat) by lia. subst n. cbn [firstn w_smart option_map remove_loop].
      rewrite pymod_pos, H1 by exact Hpos. reflexivity.
    - rewrite (IH (i + 1) count tsv' _ _ _ ltac:(lia) ltac:(lia) ltac:(lia) R1).
      unfold w_remove. cbn [skipn]. rewrite firstn_app_le by lia.
      destruct (w_smart (firstn n t) (i + 1) count tsv'); cbn [option_map remove_loop];
        rewrite pymod_pos, H1 by exact Hpos; reflexivity. }
  destruct h as [p|]; [|apply Hcont].
  destruct ((i >=? count) && ts_differs tsv (pts p)); [reflexivity|apply Hcont].
Qed.

(* the scan of _remove_frame on a window *)
Fixpoint w_rf (w : W) (count pf : Z) (fr : option frame) (frames : Z) (packets : list pkt)
         (rem : Z) (tsv : option Z) : option (frame * Z) :=
  match w with
  | [] => None
  | None :: _ => None
  | Some p :: w' =>
      match tsv with
      | None => w_rf w' (count + 1) pf fr frames (packets ++ [p]) rem (Some (pts p))
      | Some t =>
          if negb (pts p =? t) then
            let fr' := match fr with
                       | None => mkFrame t (concat (map pdata packets))
                       | Some f => f
                       end in
            let rem' := match fr with None => count | Some _ => rem end in
            let frames' := frames + 1 in
            if frames' >=? pf then Some (fr', rem')
            else w_rf w' (count + 1) pf (Some fr') frames' [p] rem' (Some (pts p))
          else w_rf w' (count + 1) pf fr frames (packets ++ [p]) rem tsv
      end
  end.

Lemma rf_loop_spec c : 0 < c -> forall n count o sl w pf fr frames packets rem tsv,
  0 <= count -> count + Z.of_nat n = c -> ring c o sl w ->
  rf_loop n count c o sl pf fr frames packets rem tsv =
  Ok (w_rf (skipn (Z.to_nat count) w) count pf fr frames packets rem tsv).
Proof.
  intros Hpos. induction n as [|n IH]; intros count o sl w pf fr frames packets rem tsv Hc0 Hcn HR;
    pose proof (ring_length _ _ _ _ HR) as HWL.
  - cbn [rf_loop]. rewrite skipn_all2 by lia. reflexivity.
  - cbn [rf_loop]. rewrite pymod_pos by exact Hpos.
    rewrite (ring_read c o sl w count Hpos HR ltac:(lia)).
    destruct (nth_error w (Z.to_nat count)) as [cell|] eqn:Ec; [|apply nth_error_None in Ec; lia].
    rewrite (skipn_nth_cons _ _ _ Ec).
    replace (S (Z.to_nat count)) with (Z.to_nat (count + 1)) by lia.
    destruct cell as [p|]; cbn [w_rf]; [|reflexivity].
    destruct tsv as [t|].
    + destruct (negb (pts p =? t)).
      * destruct (frames + 1 >=? pf); [reflexivity|]. apply IH; [lia|lia|exact HR].
      * apply IH; [lia|lia|exact HR].
    + apply IH; [lia|lia|exact HR].
Qed.

(* The window-level buffer is a `jb` whose `slots` field is read as the WINDOW (index 0 = origin). *)
Definition w_frame (w : W) (pf : Z) : option (frame * Z) := w_rf w 0 pf None 0 [] 0 None.

Definition placed (p : pkt) (o1 : Z) (w1 : W) : W :=
  w_set w1 (Z.to_nat (uint16_add (pseq p) (- o1))) (Some p).

Definition a_tail (a : jb) (p : pkt) (o1 : Z) (w1 : W) (pli1 : bool) : jb * out :=
  let w2 := placed p o1 w1 in
  match w_frame w2 (prefetch a) with
  | None => (mkJb (cap a) (prefetch a) (is_video a) (Some o1) w2, (pli1, None))
  | Some (f, r) =>
      (mkJb (cap a) (prefetch a) (is_video a) (Some (uint16_add o1 r)) (w_remove w2 (Z.to_nat r)),
       (pli1, Some f))
  end.

Definition a_place (a : jb) (p : pkt) (o delta : Z) (w : W) (pli : bool) : jb * out :=
  let c := cap a in
  if delta >=? c then
    match w_smart w 0 (delta - c + 1) None with
    | None => a_tail a p (pseq p) (repeat None (length w)) (pli || is_video a)
    | Some b => a_tail a p (uint16_add o (Z.of_nat b)) (w_remove w b) (pli || is_video a)
    end
  else a_tail a p o w pli.

Definition a_add (a : jb) (p : pkt) : jb * out :=
  match origin a with
  | None => a_place a p (pseq p) 0 (slots a) false
  | Some o =>
      let delta := uint16_add (pseq p) (- o) in
      let misorder := uint16_add o (- pseq p) in
      if misorder <? delta then
        if misorder >=? MAX_MISORDER then
          a_place a p (pseq p) 0 (repeat None (length (slots a))) (is_video a)
        else (a, (false, None))
      else a_place a p o delta (slots a) false
  end.

Fixpoint a_run (a : jb) (l : list pkt) : jb * list out :=
  match l with
  | [] => (a, [])
  | p :: l' => let r := a_add a p in let r' := a_run (fst r) l' in (fst r', snd r :: snd r')
  end.

Definition a_init (c pf : Z) (v : bool) : jb := mkJb c pf v None (repeat None (Z.to_nat c)).

Definition seq16 (p : pkt) : Prop := 0 <= pseq p < 65536.

(* the fields add() never writes *)
Definition static (a : jb) : Z * Z * bool := (cap a, prefetch a, is_video a).

Definition Rep (s a : jb) : Prop :=
  cap_ok (cap s) /\ static a = static s /\ origin a = origin s /\
  match origin s with
  | Some o => ring (cap s) o (slots s) (slots a)
  | None => slots s = repeat None (Z.to_nat (cap s)) /\ slots a = repeat None (Z.to_nat (cap s))
  end.

Lemma w_smart_bounds w : forall i count tsv b, w_smart w i count tsv = Some b ->
  (b < length w)%nat /\ count <= i + Z.of_nat b.
Proof.
  induction w as [|h t IH]; intros i count tsv b H; cbn [w_smart] in H; [discriminate|]. cbn [length].
  assert (Hnext : forall tsv', option_map S (w_smart t (i + 1) count tsv') = Some b ->
            (b < S (length t))%nat /\ count <= i + Z.of_nat b).
  { intros tsv' H'. destruct (w_smart t (i + 1) count tsv') as [b'|] eqn:E; [|discriminate].
    injection H' as <-. apply IH in E. lia. }
  destruct h as [p|]; [|exact (Hnext _ H)].
  destruct (Z.geb_spec i count); cbn [andb] in H; [|exact (Hnext _ H)].
  destruct (ts_differs tsv (pts p)); [|exact (Hnext _ H)].
  injection H as <-. lia.
Qed.

Lemma w_rf_range w : forall count pf fr frames packets rem tsv f r,
  w_rf w count pf fr frames packets rem tsv = Some (f, r) ->
  match fr with
  | None => count <= r < count + Z.of_nat (length w)
  | Some f0 => f = f0 /\ r = rem
  end.
Proof.
  induction w as [|h t IH]; intros count pf fr frames packets rem tsv f r H; cbn [w_rf] in H; [discriminate|].
  destruct h as [p|]; [|discriminate]. cbn [length].
  destruct tsv as [ts|].
  - destruct (negb (pts p =? ts)).
    + destruct (frames + 1 >=? pf).
      * injection H as <- <-. destruct fr; [auto|lia].
      * apply IH in H. destruct fr; [exact H|lia].
    + apply IH in H. destruct fr; [exact H|lia].
  - apply IH in H. destruct fr; [exact H|lia].
Qed.

Lemma a_place_in a p o delta w pli : delta < cap a -> a_place a p o delta w pli = a_tail a p o w pli.
Proof. intros H. unfold a_place. destruct (Z.geb_spec delta (cap a)); [lia|reflexivity]. Qed.

Lemma add_place_overflow s p o delta sl pli : 0 < cap s <= delta ->
  add_place s p o delta sl pli =
  bind (smart_remove (cap s) o sl (delta - cap s + 1)) (fun r =>
    add_place s p (if fst (fst r) then pseq p else snd (fst r)) 0 (snd r) (pli || is_video s)).
Proof.
  intros H. unfold add_place. destruct (Z.geb_spec delta (cap s)); [|lia].
  destruct (Z.geb_spec 0 (cap s)); [lia|].
  destruct (smart_remove (cap s) o sl (delta - cap s + 1)) as [[[full o'] sl']| | |]; reflexivity.
Qed.

Definition refines (x : result (jb * out)) (r : jb * out) : Prop :=
  exists s', x = Ok (s', snd r) /\ Rep s' (fst r).

Lemma remove_frame_spec c pf o sl w : cap_ok c -> ring c o sl w ->
  match w_frame w pf with
  | None => remove_frame c pf o sl = Ok (o, sl, None)
  | Some (f, r) =>
      exists sl', remove_frame c pf o sl = Ok (uint16_add o r, sl', Some f) /\
                  ring c (uint16_add o r) sl' (w_remove w (Z.to_nat r))
  end.
Proof.
  intros Hc HR. pose proof (cap_ok_pos _ Hc) as Hpos.
  unfold remove_frame, w_frame. rewrite (rf_loop_spec c Hpos _ _ _ _ w) by (try exact HR; lia).
  change (Z.to_nat 0) with 0%nat. cbn [skipn].
  destruct (w_rf w 0 pf None 0 [] 0 None) as [[f r]|] eqn:EF; cbn [bind]; [|reflexivity].
  pose proof (w_rf_range _ _ _ _ _ _ _ _ _ _ EF) as Hr. cbn beta iota in Hr.
  rewrite (ring_length _ _ _ _ HR) in Hr.
  destruct (remove_spec c Hc o sl w r HR ltac:(lia)) as (sl' & E & R').
  rewrite E. exists sl'. auto.
Qed.

Lemma place_in s a p o delta sl w (pli : bool) :
  cap_ok (cap s) -> static a = static s -> seq16 p -> ring (cap s) o sl w ->
  delta < cap s -> uint16_add (pseq p) (- o) < cap s ->
  refines (add_place s p o delta sl pli) (a_tail a p o w pli).
Proof.
  intros Hc Hst Hp HR Hdelta Hd. pose proof (cap_ok_pos _ Hc) as Hpos. injection Hst as Ec Ep Ev.
  unfold add_place. set (c := cap s) in *. set (d := uint16_add (pseq p) (- o)) in *.
  destruct (Z.geb_spec delta c); [lia|]. cbn [bind].
  pose proof (uint16_add_range (pseq p) (- o)) as Hdr. fold d in Hdr.
  assert (Epos : pseq p mod c = (o + d) mod c).
  { rewrite <- (uint16_delta_back o (pseq p) Hp) at 1. fold d.
    rewrite uint16_add_mod. apply mod16_mod. exact Hc. }
  rewrite pymod_pos by exact Hpos. rewrite Epos.
  destruct (ring_write c o sl w d (Some p) Hpos HR ltac:(lia)) as (sl2 & H2 & R2). rewrite H2.
  pose proof (remove_frame_spec c (prefetch s) o sl2 _ Hc R2) as HF.
  unfold a_tail, placed. fold d. rewrite Ec, Ep, Ev. fold c.
  destruct (w_frame (w_set w (Z.to_nat d) (Some p)) (prefetch s)) as [[f r]|].
  - destruct HF as (sl3 & E3 & R3). rewrite E3. cbn [bind fst snd]. eexists. split; [reflexivity|].
    split; [exact Hc|]. split; [reflexivity|]. split; [reflexivity|exact R3].
  - rewrite HF. eexists. split; [reflexivity|].
    split; [exact Hc|]. split; [reflexivity|]. split; [reflexivity|exact R2].
Qed.

Lemma place_refines s a p o sl w (pli : bool) :
  cap_ok (cap s) -> static a = static s -> seq16 p -> ring (cap s) o sl w ->
  refines (add_place s p o (uint16_add (pseq p) (- o)) sl pli)
          (a_place a p o (uint16_add (pseq p) (- o)) w pli).
Proof.
  intros Hc Hst Hp HR. pose proof (cap_ok_pos _ Hc) as Hpos. pose proof Hst as Hst'. injection Hst' as Ec _ Ev.
  pose proof (uint16_add_range (pseq p) (- o)) as Hdr. pose proof (ring_length _ _ _ _ HR) as HWL.
  unfold a_place. rewrite Ec, Ev. set (delta := uint16_add (pseq p) (- o)) in *.
  destruct (Z.geb_spec delta (cap s)) as [Hge|Hlt]; [|apply place_in; assumption].
  rewrite add_place_overflow by lia. unfold smart_remove.
  rewrite (smart_loop_spec _ Hc _ _ _ _ _ _ w) by (try exact HR; lia). rewrite firstn_all2 by lia.
  destruct (w_smart w 0 (delta - cap s + 1) None) as [b|] eqn:EB.
  - destruct (w_smart_bounds _ _ _ _ _ EB) as [Hb Hbge].
    destruct (remove_loop_spec _ Hc b o sl w HR ltac:(lia)) as (sl' & E & R').
    rewrite E. cbn [bind fst snd]. apply place_in; try assumption.
    rewrite uint16_delta_after by (fold delta; lia). fold delta. lia.
  - destruct (remove_loop_spec _ Hc (Z.to_nat (cap s)) o sl w HR ltac:(lia)) as (sl' & E & R').
    rewrite E. cbn [bind fst snd]. rewrite w_remove_all in R' by (symmetry; exact HWL). rewrite HWL.
    apply place_in; try assumption; [exact (ring_flush _ _ _ _ Hpos R' Hp)|rewrite uint16_add_opp; exact Hpos].
Qed.

Theorem add_refines s a p : Rep s a -> seq16 p -> refines (add s p) (a_add a p).
Proof.
  intros (Hc & Hst & Eo & HO) Hp. pose proof (cap_ok_pos _ Hc) as Hpos.
  pose proof Hst as Hst'. injection Hst' as Ec _ Ev.
  unfold add, a_add. rewrite Eo. destruct (origin s) as [o|] eqn:EO.
  - destruct (uint16_add o (- pseq p) <? uint16_add (pseq p) (- o)); [|apply place_refines; assumption].
    destruct (uint16_add o (- pseq p) >=? MAX_MISORDER).
    + pose proof (ring_length _ _ _ _ HO) as HWL.
      destruct (remove_spec _ Hc o (slots s) _ (cap s) HO ltac:(lia)) as (sl' & E & R').
      rewrite E. cbn [bind snd]. rewrite w_remove_all in R' by (symmetry; exact HWL).
      rewrite a_place_in, HWL, Ev by lia.
      apply place_in; try assumption; [exact (ring_flush _ _ _ _ Hpos R' Hp)|rewrite uint16_add_opp; exact Hpos].
    + exists s. split; [reflexivity|]. cbn [fst]. unfold Rep. rewrite EO. auto.
  - destruct HO as [HS HA]. rewrite HA, HS, a_place_in by lia.
    apply place_in; try assumption; [exact (ring_empty _ _ Hp)|rewrite uint16_add_opp; exact Hpos].
Qed.

Lemma create_rep c pf v : cap_ok c ->
  create c pf v = Ok (mkJb c pf v None (repeat None (Z.to_nat c))) /\
  Rep (mkJb c pf v None (repeat None (Z.to_nat c))) (a_init c pf v).
Proof.
  intros Hc. unfold create. rewrite (cap_ok_land c Hc). cbn [Z.eqb]. split; [reflexivity|].
  split; [exact Hc|]. split; [reflexivity|]. split; [reflexivity|]. split; reflexivity.
Qed.

Theorem run_refines l : forall s a, Rep s a -> Forall seq16 l ->
  exists s', run s l = Ok (s', snd (a_run a l)) /\ Rep s' (fst (a_run a l)).
Proof.
  induction l as [|p l IH]; intros s a HR HF.
  - exists s. cbn [run a_run fst snd]. auto.
  - inversion HF as [|? ? Hp HF']; subst. cbn [run a_run].
    destruct (add_refines s a p HR Hp) as (s1 & E1 & R1). rewrite E1. cbn [bind fst snd].
    destruct (IH s1 (fst (a_add a p)) R1 HF') as (s' & E' & R').
    rewrite E'. cbn [bind fst snd]. exists s'. auto.
Qed.

Lemma a_tail_static a p o w pli : static (fst (a_tail a p o w pli)) = static a.
Proof. unfold a_tail. destruct (w_frame _ _) as [[f r]|]; reflexivity. Qed.

Lemma a_tail_flag a p o w pli : fst (snd (a_tail a p o w pli)) = pli.
Proof. unfold a_tail. destruct (w_frame _ _) as [[f r]|]; reflexivity. Qed.

(* With which origin, window and flag the tail runs: on the first packet; after a reset (the
   packet is MAX_MISORDER or more behind the origin); with the origin unchanged; after an
   overflow that dropped the b oldest slots, or all of them. *)
Inductive start (a : jb) (p : pkt) : Z -> W -> bool -> Prop :=
| start_first : origin a = None -> start a p (pseq p) (slots a) false
| start_reset o : origin a = Some o ->
    uint16_add o (- pseq p) < uint16_add (pseq p) (- o) -> MAX_MISORDER <= uint16_add o (- pseq p) ->
    start a p (pseq p) (repeat None (length (slots a))) (is_video a)
| start_in o : origin a = Some o -> start a p o (slots a) false
| start_drop o b : origin a = Some o -> (b < length (slots a))%nat ->
    start a p (uint16_add o (Z.of_nat b)) (w_remove (slots a) b) (is_video a)
| start_flush : start a p (pseq p) (repeat None (length (slots a))) (is_video a).

Lemma a_add_cases a p : 0 < cap a ->
  a_add a p = (a, (false, None)) \/
  exists o1 w1 pli, start a p o1 w1 pli /\ a_add a p = a_tail a p o1 w1 pli.
Proof.
  intros Hc. unfold a_add. destruct (origin a) as [o|] eqn:EO.
  - destruct (Z.ltb_spec (uint16_add o (- pseq p)) (uint16_add (pseq p) (- o))) as [Hm|_].
    + destruct (Z.geb_spec (uint16_add o (- pseq p)) MAX_MISORDER) as [Hr|_]; [right|left; reflexivity].
      rewrite a_place_in by exact Hc. eexists _, _, _. split; [exact (start_reset a p o EO Hm Hr)|reflexivity].
    + right. unfold a_place. destruct (uint16_add (pseq p) (- o) >=? cap a).
      * destruct (w_smart (slots a) 0 (uint16_add (pseq p) (- o) - cap a + 1) None) as [b|] eqn:EB.
        -- eexists _, _, _. split; [|reflexivity].
           exact (start_drop a p o b EO (proj1 (w_smart_bounds _ _ _ _ _ EB))).
        -- eexists _, _, _. split; [exact (start_flush a p)|reflexivity].
      * eexists _, _, _. split; [exact (start_in a p o EO)|reflexivity].
  - right. rewrite a_place_in by exact Hc. eexists _, _, _. split; [exact (start_first a p EO)|reflexivity].
Qed.

Lemma a_add_static a p : 0 < cap a -> static (fst (a_add a p)) = static a.
Proof.
  intros Hc. destruct (a_add_cases a p Hc) as [E|(o1 & w1 & pli & _ & E)]; rewrite E; [reflexivity|].
  apply a_tail_static.
Qed.

Lemma start_flag a p o1 w1 pli : start a p o1 w1 pli -> pli = false \/ pli = is_video a.
Proof. intros HS. destruct HS; auto. Qed.

Lemma start_quiet a p o1 w1 : start a p o1 w1 false -> is_video a = true ->
  w1 = slots a /\ (origin a = None \/ origin a = Some o1).
Proof.
  intros HS Hv. remember false as pli eqn:Epli.
  destruct HS; rewrite ?Hv in Epli; try discriminate Epli; auto.
Qed.
