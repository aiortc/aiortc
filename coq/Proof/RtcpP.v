(* Proofs about Model/Rtcp.v, part 1: packets_lost, REMB, generic NACK. *)
From Coq Require Import ZArith List Bool Lia.
From AV Require Import Lib.Bytes Lib.BytesP Lib.RtpX Gen.RtpConst Model.Rtcp Proof.RtpBitsP.
Import ListNotations.
Local Open Scope Z_scope.

Ltac Zify.zify_post_hook ::= Z.to_euclidean_division_equations.

(* ================================================================ packets_lost *)
Lemma clamp_range n : -8388608 <= rtp_clamp_packets_lost n < 8388608.
Proof. unfold rtp_clamp_packets_lost, rtp_PACKETS_LOST_MIN, rtp_PACKETS_LOST_MAX. lia. Qed.
Lemma clamp_id n : -8388608 <= n < 8388608 -> rtp_clamp_packets_lost n = n.
Proof. unfold rtp_clamp_packets_lost, rtp_PACKETS_LOST_MIN, rtp_PACKETS_LOST_MAX. lia. Qed.
Lemma clamp_high n : 8388608 <= n -> rtp_clamp_packets_lost n = 8388607.
Proof. unfold rtp_clamp_packets_lost, rtp_PACKETS_LOST_MIN, rtp_PACKETS_LOST_MAX. lia. Qed.
Lemma clamp_low n : n < -8388608 -> rtp_clamp_packets_lost n = -8388608.
Proof. unfold rtp_clamp_packets_lost, rtp_PACKETS_LOST_MIN, rtp_PACKETS_LOST_MAX. lia. Qed.

Lemma sign_bit b : 0 <= b < 256 -> (Z.land b 128 =? 0) = (b <? 128).
Proof.
  intros H. rewrite land_128 by assumption. apply eq_true_iff_eq. rewrite Z.eqb_eq, Z.ltb_lt. lia.
Qed.

(* what unpack computes on every 3-byte string: its value as a signed 24-bit number *)
Lemma unpack_packets_lost_bytes a b c :
  0 <= a < 256 ->
  unpack_packets_lost [a; b; c] =
    Ok (if a <? 128 then a * 65536 + (b * 256 + c) else a * 65536 + (b * 256 + c) - 16777216).
Proof.
  intros Ha. unfold unpack_packets_lost. cbn [u8 nth_error length Nat.eqb negb u24 u16].
  now rewrite sign_bit by assumption.
Qed.

Lemma unpack_be24 n :
  -8388608 <= n < 8388608 -> unpack_packets_lost (be24 n) = Ok n.
Proof.
  intros H. unfold be24. rewrite unpack_packets_lost_bytes, be24_value by lia.
  destruct (Z.ltb_spec ((n / 65536) mod 256) 128); f_equal; lia.
Qed.

Lemma packets_lost_roundtrip n :
  -8388608 <= n < 8388608 ->
  pack_packets_lost n = Ok (be24 n) /\ unpack_packets_lost (be24 n) = Ok n.
Proof.
  intros H. split; [|now apply unpack_be24].
  unfold pack_packets_lost. now rewrite i32ok_intro by lia.
Qed.

Lemma packets_lost_clamped n :
  exists b, pack_packets_lost (rtp_clamp_packets_lost n) = Ok b /\
            unpack_packets_lost b = Ok (rtp_clamp_packets_lost n).
Proof.
  exists (be24 (rtp_clamp_packets_lost n)). apply packets_lost_roundtrip, clamp_range.
Qed.

(* totality of unpack on the length the callers use *)
Lemma unpack_packets_lost_total d :
  bytes_ok d -> length d = 3%nat -> exists n, unpack_packets_lost d = Ok n /\ -8388608 <= n < 8388608.
Proof.
  intros Hok Hl. destruct d as [|a [|b [|c [|? ?]]]]; try discriminate.
  apply bytes_ok_cons in Hok as [Ha Hok]. apply bytes_ok_cons in Hok as [Hb Hok].
  apply bytes_ok_cons in Hok as [Hc _]. unfold byte_ok in *.
  rewrite unpack_packets_lost_bytes by assumption. eexists. split; [reflexivity|].
  destruct (Z.ltb_spec a 128); lia.
Qed.

(* ================================================================ REMB *)
Lemma remb_loop_S f m e :
  remb_loop (S f) m e = if 262143 <? m then remb_loop f (Z.shiftr m 1) (e + 1) else Ok (m, e).
Proof. reflexivity. Qed.

(* the loop shifts k times, until 18 bits are left; it stops as early as it can *)
Lemma remb_loop_spec fuel : forall m e,
  0 <= m < 2 ^ (Z.of_nat fuel + 18) ->
  exists k, 0 <= k /\ remb_loop (S fuel) m e = Ok (m / 2 ^ k, e + k) /\
            0 <= m / 2 ^ k <= 262143 /\ (0 < k -> 131072 <= m / 2 ^ k).
Proof.
  induction fuel as [|f IH]; intros m e Hm; rewrite remb_loop_S.
  all: destruct (Z.ltb_spec 262143 m) as [Hbig|Hsmall].
  2, 4: exists 0; rewrite Z.div_1_r, Z.add_0_r; repeat split; lia.
  - change (2 ^ (Z.of_nat 0 + 18)) with 262144 in Hm. lia.
  - destruct (IH (Z.shiftr m 1) (e + 1)) as (k & Hk & Hl & Hr & Hlow).
    { rewrite Z.shiftr_div_pow2 by lia. change (2 ^ 1) with 2.
      replace (Z.of_nat (S f) + 18) with (Z.succ (Z.of_nat f + 18)) in Hm by lia.
      rewrite Z.pow_succ_r in Hm by lia. lia. }
    assert (E : Z.shiftr m 1 / 2 ^ k = m / 2 ^ (1 + k))
      by (rewrite Z.shiftr_div_pow2, Z.div_div, <- Z.pow_add_r by lia; reflexivity).
    rewrite E in *. exists (1 + k). rewrite Z.add_assoc. repeat split; try lia; try assumption.
    intros _. destruct (Z.eq_dec k 0) as [->|Hne]; [change (2 ^ (1 + 0)) with 2; lia|apply Hlow; lia].
Qed.

Lemma remb_loop_fuel b :
  0 <= b ->
  exists k, 0 <= k /\ remb_loop (remb_fuel b) b 0 = Ok (b / 2 ^ k, k) /\
            0 <= b / 2 ^ k <= 262143 /\ (0 < k -> 131072 <= b / 2 ^ k).
Proof.
  intros H. apply (remb_loop_spec _ b 0). split; [lia|].
  destruct (Z.eq_dec b 0) as [->|Hne]; [apply Z.pow_pos_nonneg; lia|].
  assert (Hs := Z.log2_spec b ltac:(lia)). assert (Hl := Z.log2_nonneg b).
  rewrite Z2Nat.id by assumption.
  apply Z.lt_le_trans with (2 ^ Z.succ (Z.log2 b)); [lia|apply Z.pow_le_mono_r; lia].
Qed.

(* the packed mantissa/exponent: never rounds up, relative error < 2^-17, exact
   below 2^18; six bits hold the exponent of every bitrate below 2^81 *)
Lemma remb_quantise b k :
  0 <= b -> 0 <= k -> (0 < k -> 131072 <= b / 2 ^ k) ->
  b / 2 ^ k * 2 ^ k <= b /\ (0 < b -> (b - b / 2 ^ k * 2 ^ k) * 131072 < b) /\
  (b < 262144 -> b / 2 ^ k * 2 ^ k = b) /\ (b < 2 ^ 81 -> k <= 63).
Proof.
  intros Hb Hk Hlow. assert (Hp : 0 < 2 ^ k) by (apply Z.pow_pos_nonneg; lia).
  assert (Hdm := Z.div_mod b (2 ^ k) ltac:(lia)). assert (Hr := Z.mod_pos_bound b (2 ^ k) Hp).
  destruct (Z.eq_dec k 0) as [->|Hne].
  - change (2 ^ 0) with 1 in *. lia.
  - specialize (Hlow ltac:(lia)).
    assert (2 ^ 1 <= 2 ^ k) by (apply Z.pow_le_mono_r; lia). change (2 ^ 1) with 2 in *.
    split; [lia|]. split; [nia|]. split; [nia|]. intros H81.
    destruct (Z_le_gt_dec k 63) as [|Hgt]; [assumption|exfalso].
    assert (2 ^ 64 <= 2 ^ k) by (apply Z.pow_le_mono_r; lia).
    change (2 ^ 81) with (131072 * 2 ^ 64) in H81. nia.
Qed.

Definition remb_decoded (b : Z) : Z :=
  match remb_loop (remb_fuel b) b 0 with
  | Ok (m, e) => m * 2 ^ e
  | _ => 0
  end.

(* what unpack computes on every FCI that carries as many SSRCs as it announces: the
   exponent is the high six bits of byte 5, the mantissa its low two bits followed by
   bytes 6 and 7 *)
Lemma unpack_remb_bytes ssrcs tail d5 d6 d7 :
  be32s ssrcs = Ok tail -> (length ssrcs <= 255)%nat ->
  0 <= d5 < 256 -> 0 <= d6 < 256 -> 0 <= d7 < 256 ->
  unpack_remb_fci (82 :: 69 :: 77 :: 66 :: Z.of_nat (length ssrcs) :: d5 :: d6 :: d7 :: tail) =
    Ok ((d5 mod 4 * 65536 + d6 * 256 + d7) * 2 ^ (d5 / 4), ssrcs).
Proof.
  intros Htail Hn H5 H6 H7. unfold unpack_remb_fci.
  cbn [length Nat.ltb Nat.leb slice Nat.sub skipn firstn bytes_eqb Z.eqb Pos.eqb andb negb orb u8 nth_error].
  rewrite len_length. cbn [length]. rewrite (be32s_length _ _ Htail).
  rewrite (proj2 (Z.ltb_ge _ _)) by lia. rewrite Nat2Z.id.
  rewrite (u32s_at' _ [82; 69; 77; 66; Z.of_nat (length ssrcs); d5; d6; d7] ssrcs tail [])
    by (try rewrite app_nil_r; auto).
  rewrite shiftr_land_252, land_3, lor_bytes3, Z.shiftl_mul_pow2 by lia. reflexivity.
Qed.

(* the mantissa and exponent that the loop yields are the ones unpack reads back *)
Lemma remb_wire_roundtrip b m e ssrcs :
  remb_loop (remb_fuel b) b 0 = Ok (m, e) -> 0 <= m <= 262143 -> 0 <= e <= 63 ->
  (length ssrcs <= 255)%nat -> Forall (fun x => 0 <= x < 4294967296) ssrcs ->
  exists data,
    pack_remb_fci b ssrcs = Ok data /\ bytes_ok data /\ unpack_remb_fci data = Ok (m * 2 ^ e, ssrcs).
Proof.
  intros Hloop Hm He Hn Hs. destruct (be32s_ok ssrcs Hs) as [tail Htail].
  unfold pack_remb_fci. rewrite Hloop. cbn [bind].
  rewrite Z.shiftr_div_pow2, land_65535 by lia. change (2 ^ 16) with 65536.
  (* from here on the mantissa is its two high bits q and its low sixteen lo *)
  assert (Em := Z.div_mod m 65536 ltac:(lia)). assert (Hlo := Z.mod_pos_bound m 65536 eq_refl).
  assert (Hq : 0 <= m / 65536 < 4) by lia. clear Hloop Hm.
  revert Em Hlo Hq. generalize (m / 65536) as q, (m mod 65536) as lo. intros q lo -> Hlo Hq.
  rewrite (lor_shiftl e _ 2), zlen_length by lia.
  rewrite !u8ok_intro, u16ok_intro by lia. cbn [andb]. rewrite Htail. cbn [bind].
  eexists. split; [reflexivity|]. split.
  - repeat (apply bytes_ok_app; split); eauto using be8_ok, be16_ok, be32s_bytes_ok.
    repeat (apply Forall_cons; [unfold byte_ok; lia|]). constructor.
  - unfold be8, be16. cbn [app]. rewrite (Z.mod_small (Z.of_nat (length ssrcs))) by lia.
    rewrite unpack_remb_bytes by (auto; lia). do 2 f_equal. f_equal; [|f_equal]; lia.
Qed.

Lemma remb_roundtrip b ssrcs :
  0 <= b < 2 ^ 81 -> (length ssrcs <= 255)%nat -> Forall (fun x => 0 <= x < 4294967296) ssrcs ->
  exists data b',
    pack_remb_fci b ssrcs = Ok data /\ bytes_ok data /\ unpack_remb_fci data = Ok (b', ssrcs) /\
    b' <= b /\ (0 < b -> (b - b') * 131072 < b) /\ (b < 262144 -> b' = b).
Proof.
  intros Hb Hn Hs.
  destruct (remb_loop_fuel b ltac:(lia)) as (k & Hk & Hloop & Hmr & Hlow).
  destruct (remb_quantise b k ltac:(lia) Hk Hlow) as (Hq1 & Hq2 & Hq3 & Hq4).
  destruct (remb_wire_roundtrip b _ k ssrcs Hloop Hmr ltac:(lia) Hn Hs) as (data & Hp & Hok & Hu).
  exists data, (b / 2 ^ k * 2 ^ k). auto 6.
Qed.

(* ---- totality of unpack_remb_fci (property C05) *)
Lemma unpack_remb_fci_total data : bytes_ok data -> benign (unpack_remb_fci data).
Proof.
  intros Hok. unfold unpack_remb_fci.
  destruct (Nat.ltb (length data) 8) eqn:Hl; cbn [orb]; [exact I|].
  apply Nat.ltb_ge in Hl.
  destruct (negb (bytes_eqb (slice data 0 4) [82; 69; 77; 66])); [exact I|].
  destruct (u8_some data 4) as [cnt Hc]; [lia|]. destruct (u8_some data 5) as [d5 H5]; [lia|].
  destruct (u8_some data 6) as [d6 H6]; [lia|]. destruct (u8_some data 7) as [d7 H7]; [lia|].
  rewrite Hc, H5, H6, H7.
  destruct (Z.ltb_spec (len data) (8 + cnt * 4)) as [|Hge]; [exact I|].
  apply u8_range in Hc; [|exact Hok].
  destruct (u32s_some data 8 (Z.to_nat cnt)) as [l ->]; [unfold len in Hge; lia|exact I].
Qed.

(* ================================================================ generic NACK *)
Lemma d16_seq : d16 = map Z.of_nat (seq 0 16).
Proof. reflexivity. Qed.

Lemma d16_In d : In d d16 <-> 0 <= d < 16.
Proof.
  rewrite d16_seq, in_map_iff. split.
  - intros (k & <- & Hk). apply in_seq in Hk. lia.
  - intros H. exists (Z.to_nat d). rewrite in_seq. lia.
Qed.

(* the model's mask and bit test as mod and testbit; the proofs below reason about
   this form and never compute with the sixteen offsets *)
Lemma nack_expand_bits pid blp :
  nack_expand pid blp = pid :: map (fun d => (pid + d + 1) mod 65536) (filter (Z.testbit blp) d16).
Proof.
  unfold nack_expand. f_equal.
  rewrite (map_ext _ (fun d => (pid + d + 1) mod 65536)) by (intros d; apply land_65535).
  f_equal. apply filter_ext_in. intros d Hd. apply d16_In in Hd.
  rewrite testbit_b2z by lia. now destruct (Z.testbit blp d).
Qed.

Lemma nack_expand_0 pid : nack_expand pid 0 = [pid].
Proof. reflexivity. Qed.

Lemma in_d16_filter blp d : In d (filter (Z.testbit blp) d16) <-> 0 <= d < 16 /\ Z.testbit blp d = true.
Proof. now rewrite filter_In, d16_In. Qed.

(* the 16-bit sequence numbers one FCI entry denotes.  (The cons is taken apart by
   in_inv / in_eq / in_cons: letting conversion unfold In over the sixteen filtered
   offsets is slow to check.) *)
Lemma nack_expand_spec pid blp x :
  In x (nack_expand pid blp) <->
  x = pid \/ exists d, 0 <= d < 16 /\ Z.testbit blp d = true /\ x = (pid + d + 1) mod 65536.
Proof.
  rewrite nack_expand_bits. split.
  - intros H. apply in_inv in H as [H|H]; [left; congruence|right].
    apply in_map_iff in H as (d & Hx & Hin). apply in_d16_filter in Hin. exists d. intuition congruence.
  - intros [->|(d & Hd & Hb & ->)]; [apply in_eq|apply in_cons, in_map_iff].
    exists d. rewrite in_d16_filter. auto.
Qed.

(* ---- setting one more bit of the open entry *)
Lemma testbit_lor_bit blp d i :
  0 <= d -> 0 <= i -> Z.testbit (Z.lor blp (Z.shiftl 1 d)) i = Z.testbit blp i || (i =? d).
Proof.
  intros Hd Hi. rewrite Z.lor_spec. f_equal.
  rewrite Z.shiftl_mul_pow2, Z.mul_1_l by assumption.
  destruct (Z.eqb_spec i d) as [->|Hne]; [apply Z.pow2_bits_true; lia|apply Z.pow2_bits_false; lia].
Qed.

Lemma lor_bit_lt blp d c : 0 <= d < c -> 0 <= blp < 2 ^ c -> 0 <= Z.lor blp (Z.shiftl 1 d) < 2 ^ c.
Proof.
  intros Hd Hb. rewrite Z.shiftl_1_l.
  assert (Hp : 0 < 2 ^ d < 2 ^ c) by (split; [apply Z.pow_pos_nonneg|apply Z.pow_lt_mono_r]; lia).
  (* both operands are their own residues mod 2^c, and mod 2^c is a mask *)
  assert (E : Z.lor blp (2 ^ d) mod 2 ^ c = Z.lor blp (2 ^ d)).
  { rewrite <- Z.land_ones, Z.land_lor_distr_l, !Z.land_ones by lia. now rewrite !Z.mod_small by lia. }
  rewrite <- E. apply Z.mod_pos_bound. lia.
Qed.

Lemma nack_expand_lor_In pid blp d x :
  0 <= d < 16 ->
  In x (nack_expand pid (Z.lor blp (Z.shiftl 1 d))) <->
  In x (nack_expand pid blp) \/ x = (pid + d + 1) mod 65536.
Proof.
  intros Hd. rewrite !nack_expand_spec. split.
  - intros [H|(i & Hi & Hb & Hx)]; [tauto|]. rewrite testbit_lor_bit in Hb by lia.
    apply orb_true_iff in Hb as [Hb|Hb]; [left; right; eauto|].
    apply Z.eqb_eq in Hb. subst i. now right.
  - intros [[H|(i & Hi & Hb & Hx)]|H]; [tauto| |]; right; [exists i|exists d];
      rewrite testbit_lor_bit by lia.
    + rewrite Hb. auto.
    + rewrite Z.eqb_refl, orb_true_r. auto.
Qed.

Lemma filter_none {T} (f : T -> bool) l : (forall x, In x l -> f x = false) -> filter f l = [].
Proof.
  induction l as [|x l IH]; intros H; cbn [filter]; [reflexivity|].
  rewrite (H x (or_introl eq_refl)). apply IH. intros y Hy. apply H. now right.
Qed.

(* a bit above all set bits is the last one that is set: the offsets 0..k+m split
   into those below k, k itself, and those above *)
Lemma filter_testbit_snoc blp k m :
  0 <= blp < 2 ^ Z.of_nat k ->
  filter (Z.testbit (Z.lor blp (Z.shiftl 1 (Z.of_nat k)))) (map Z.of_nat (seq 0 (k + S m))) =
  filter (Z.testbit blp) (map Z.of_nat (seq 0 (k + S m))) ++ [Z.of_nat k].
Proof.
  intros Hb.
  assert (Hhigh : forall i, Z.of_nat k <= i -> Z.testbit blp i = false).
  { intros i Hi. rewrite <- (Z.mod_small blp (2 ^ Z.of_nat k)) by assumption. apply Z.mod_pow2_bits_high. lia. }
  rewrite seq_app. cbn [seq]. rewrite !map_app. cbn [map]. rewrite !filter_app. cbn [filter].
  rewrite Nat.add_0_l, testbit_lor_bit, Z.eqb_refl, orb_true_r, (Hhigh (Z.of_nat k)) by lia.
  rewrite !(filter_none _ (map Z.of_nat (seq (S k) m))).
  - rewrite !app_nil_r. f_equal.
    apply filter_ext_in. intros x Hx. apply in_map_iff in Hx as (j & <- & Hj). apply in_seq in Hj.
    rewrite testbit_lor_bit by lia. destruct (Z.eqb_spec (Z.of_nat j) (Z.of_nat k)); [lia|apply orb_false_r].
  - intros x Hx. apply in_map_iff in Hx as (j & <- & Hj). apply in_seq in Hj. apply Hhigh. lia.
  - intros x Hx. apply in_map_iff in Hx as (j & <- & Hj). apply in_seq in Hj.
    rewrite testbit_lor_bit, Hhigh by lia. destruct (Z.eqb_spec (Z.of_nat j) (Z.of_nat k)); [lia|reflexivity].
Qed.

Lemma nack_expand_snoc pid blp d :
  0 <= d < 16 -> 0 <= blp < 2 ^ d ->
  nack_expand pid (Z.lor blp (Z.shiftl 1 d)) = nack_expand pid blp ++ [(pid + d + 1) mod 65536].
Proof.
  intros Hd Hb. remember (Z.to_nat d) as k eqn:Ek. assert (E : d = Z.of_nat k) by lia. subst d.
  rewrite !nack_expand_bits, d16_seq. replace 16%nat with (k + S (15 - k))%nat by lia.
  rewrite filter_testbit_snoc, map_app, app_comm_cons by exact Hb. reflexivity.
Qed.

(* ---- what the serialised entries of a list parse back to *)
Definition flat_expand (l : list (Z * Z)) : list Z :=
  flat_map (fun e => nack_expand (fst e) (snd e)) l.

Lemma flat_expand_cons pid blp l : flat_expand ((pid, blp) :: l) = nack_expand pid blp ++ flat_expand l.
Proof. reflexivity. Qed.

Definition blp_ok (pid blp : Z) (seen : list Z) : Prop :=
  0 <= blp < 65536 /\
  forall d, 0 <= d < 16 -> Z.testbit blp d = true -> In ((pid + d + 1) mod 65536) seen.

(* the distance of p from pid, counted as the packing counts it, leads back to p *)
Lemma nack_dist pid p : 0 <= p < 65536 -> (pid + (p - pid - 1) mod 65536 + 1) mod 65536 = p.
Proof. lia. Qed.

(* one step of the greedy packing, the distance written with mod *)
Lemma nack_entries_cons pid blp p rest :
  nack_entries pid blp (p :: rest) =
  if (p - pid - 1) mod 65536 <? 16
  then nack_entries pid (Z.lor blp (Z.shiftl 1 ((p - pid - 1) mod 65536))) rest
  else (pid, blp) :: nack_entries p 0 rest.
Proof. cbn [nack_entries]. now rewrite land_65535. Qed.

(* set semantics of __bytes__, for every list of 16-bit numbers: membership in the
   parsed list, given the open entry (pid, blp) *)
Lemma nack_entries_members rest : forall pid blp x,
  0 <= pid < 65536 -> 0 <= blp < 65536 -> Forall (fun p => 0 <= p < 65536) rest ->
  (In x (flat_expand (nack_entries pid blp rest)) <->
   In x (nack_expand pid blp) \/ In x rest).
Proof.
  induction rest as [|p rest IH]; intros pid blp x Hpid Hblp Hr.
  - cbn [nack_entries]. rewrite flat_expand_cons, in_app_iff. cbn [flat_expand flat_map In]. tauto.
  - inversion Hr as [|? ? Hp Hr']; subst. rewrite nack_entries_cons.
    destruct (Z.ltb_spec ((p - pid - 1) mod 65536) 16) as [Hd|Hd].
    + rewrite IH by (auto; apply (lor_bit_lt _ _ 16); lia).
      rewrite nack_expand_lor_In by lia. cbn [In].
      rewrite nack_dist by exact Hp. intuition congruence.
    + rewrite flat_expand_cons, in_app_iff, IH, nack_expand_0 by (auto; lia). cbn [In]. tauto.
Qed.

(* pack + parse of the entry list *)
Lemma nack_parse_pack l : forall b,
  nack_pack l = Ok b -> nack_parse b = Ok (flat_expand l) /\ length b = (4 * length l)%nat /\ bytes_ok b.
Proof.
  induction l as [|[pid blp] l IH]; intros b H; cbn [nack_pack] in H.
  - apply Ok_inj in H. subst b. repeat split. apply bytes_ok_nil.
  - destruct (u16ok pid && u16ok blp) eqn:Hr; [|discriminate].
    apply andb_true_iff in Hr as [Hp Hb]. apply u16ok_true in Hp. apply u16ok_true in Hb.
    destruct (nack_pack l) as [r| | |] eqn:Hl; cbn [bind] in H; try discriminate.
    apply Ok_inj in H. subst b. destruct (IH r eq_refl) as (IH1 & IH2 & IH3).
    split; [|split].
    + unfold be16. cbn [app nack_parse]. rewrite IH1, flat_expand_cons. cbn [bind]. do 3 f_equal; lia.
    + rewrite !app_length, !length_be16, IH2. cbn [length]. lia.
    + repeat (apply bytes_ok_app; split); auto using be16_ok.
Qed.

Lemma nack_entries_ok rest : forall pid blp,
  0 <= pid < 65536 -> 0 <= blp < 65536 -> Forall (fun p => 0 <= p < 65536) rest ->
  exists b, nack_pack (nack_entries pid blp rest) = Ok b.
Proof.
  induction rest as [|p rest IH]; intros pid blp Hpid Hblp Hr.
  - cbn [nack_entries nack_pack]. rewrite !u16ok_intro by assumption. cbn [andb bind]. eauto.
  - inversion Hr as [|? ? Hp Hr']; subst. rewrite nack_entries_cons.
    destruct (Z.ltb_spec ((p - pid - 1) mod 65536) 16) as [Hd|Hd].
    + apply IH; auto. apply (lor_bit_lt _ _ 16); lia.
    + cbn [nack_pack]. rewrite !u16ok_intro by assumption. cbn [andb].
      destruct (IH p 0 Hp ltac:(lia) Hr') as [b ->]. cbn [bind]. eauto.
Qed.

Lemma nack_entries_count rest : forall pid blp,
  (length (nack_entries pid blp rest) <= S (length rest))%nat.
Proof.
  induction rest as [|p rest IH]; intros pid blp; cbn [nack_entries length]; [lia|].
  destruct (_ <? 16); [specialize (IH pid (Z.lor blp (Z.shiftl 1 (Z.land (p - pid - 1) 65535)))); lia|].
  cbn [length]. specialize (IH p 0). lia.
Qed.

(* ---- exact list round trip for lists in which consecutive numbers advance by
   1..65520 (mod 2^16): ascending lists, also across the wrap *)
Fixpoint nack_chain (prev : Z) (l : list Z) : Prop :=
  match l with
  | [] => True
  | p :: l' => 0 <= p < 65536 /\ 1 <= (p - prev) mod 65536 <= 65520 /\ nack_chain p l'
  end.

Lemma nack_chain_range prev l : nack_chain prev l -> Forall (fun p => 0 <= p < 65536) l.
Proof.
  revert prev. induction l as [|p l IH]; intros prev H; [constructor|].
  destruct H as (Hp & _ & Hc). constructor; [exact Hp|eapply IH; eauto].
Qed.

(* numerically ascending lists of distinct numbers: what sorted(set) gives *)
Fixpoint nack_ascending (prev : Z) (l : list Z) : Prop :=
  match l with
  | [] => True
  | p :: l' => prev < p < 65536 /\ nack_ascending p l'
  end.

(* the exactness condition of the greedy packing itself: relative to the open FCI
   entry `pid` whose set bits are all below `c`, the next number either lands on a
   bit >= c of the same entry or opens a new entry *)
Fixpoint nack_exact (pid c : Z) (l : list Z) : Prop :=
  match l with
  | [] => True
  | p :: l' =>
      0 <= p < 65536 /\
      (if (p - pid - 1) mod 65536 <? 16
       then c <= (p - pid - 1) mod 65536 /\ nack_exact pid ((p - pid - 1) mod 65536 + 1) l'
       else nack_exact p 0 l')
  end.

Definition nack_canonical (l : list Z) : Prop :=
  match l with
  | [] => True
  | pid :: rest => 0 <= pid < 65536 /\ nack_exact pid 0 rest
  end.

Lemma nack_exact_range l : forall pid c, nack_exact pid c l -> Forall (fun p => 0 <= p < 65536) l.
Proof.
  induction l as [|p l IH]; intros pid c H; [constructor|].
  destruct H as (Hp & Hb). constructor; [exact Hp|].
  destruct (_ <? 16); [destruct Hb as [_ Hb]|]; eapply IH; eauto.
Qed.

Lemma nack_chain_exact rest : forall pid c,
  0 <= pid < 65536 -> 0 <= c <= 16 -> nack_chain ((pid + c) mod 65536) rest -> nack_exact pid c rest.
Proof.
  induction rest as [|p rest IH]; intros pid c Hpid Hc Hch; cbn [nack_exact]; [exact I|].
  destruct Hch as (Hp & Hstep & Hch). split; [exact Hp|].
  (* the step from the last number, pid + c, is the distance from pid less c - 1 *)
  assert (Hdist : (p - pid - 1) mod 65536 = c + (p - (pid + c) mod 65536) mod 65536 - 1) by lia.
  assert (Hp' := nack_dist pid p Hp). rewrite <- Z.add_assoc in Hp'.
  revert Hstep Hdist Hp'. generalize ((p - (pid + c) mod 65536) mod 65536) as s.
  generalize ((p - pid - 1) mod 65536) as d. intros d s Hstep Hdist Hp'.
  destruct (Z.ltb_spec d 16) as [Hd|Hd].
  - split; [lia|]. apply IH; [lia|lia|]. now rewrite Hp'.
  - apply IH; [lia|lia|]. now rewrite Z.add_0_r, Z.mod_small.
Qed.

Lemma nack_ascending_exact rest : forall pid c,
  0 <= pid -> 0 <= c <= 16 -> pid + c < 65536 -> nack_ascending (pid + c) rest -> nack_exact pid c rest.
Proof.
  induction rest as [|p rest IH]; intros pid c Hpid Hc Hlast Hasc; cbn [nack_exact]; [exact I|].
  destruct Hasc as (Hp & Hasc). split; [lia|].
  rewrite (Z.mod_small (p - pid - 1)) by lia.
  destruct (Z.ltb_spec (p - pid - 1) 16) as [Hlt|Hge].
  - split; [lia|]. apply IH; [lia|lia|lia|]. replace (pid + (p - pid - 1 + 1)) with p by lia. exact Hasc.
  - apply IH; [lia|lia|lia|]. replace (p + 0) with p by lia. exact Hasc.
Qed.

(* sufficient conditions, as stated in the property *)
Lemma nack_canonical_chain pid rest : 0 <= pid < 65536 -> nack_chain pid rest -> nack_canonical (pid :: rest).
Proof.
  intros Hp Hc. split; [exact Hp|]. apply nack_chain_exact; [lia|lia|].
  now rewrite Z.add_0_r, Z.mod_small.
Qed.

Lemma nack_canonical_ascending pid rest :
  0 <= pid < 65536 -> nack_ascending pid rest -> nack_canonical (pid :: rest).
Proof.
  intros Hp Hc. split; [exact Hp|]. apply nack_ascending_exact; [lia|lia|lia|].
  replace (pid + 0) with pid by lia. exact Hc.
Qed.

(* state: open entry (pid, blp) with all bits below c (= distance of the last
   number from pid), the last number being pid + c *)
Lemma nack_entries_exact rest : forall pid blp c,
  0 <= pid < 65536 -> 0 <= c <= 16 -> 0 <= blp < 2 ^ c ->
  nack_exact pid c rest ->
  flat_expand (nack_entries pid blp rest) = nack_expand pid blp ++ rest.
Proof.
  induction rest as [|p rest IH]; intros pid blp c Hpid Hc Hblp Hch.
  - cbn [nack_entries]. rewrite flat_expand_cons. reflexivity.
  - destruct Hch as (Hp & Hch). rewrite nack_entries_cons.
    destruct (Z.ltb_spec ((p - pid - 1) mod 65536) 16) as [Hd|Hd].
    + destruct Hch as [Hcd Hch].
      assert (Hp' := nack_dist pid p Hp).
      remember ((p - pid - 1) mod 65536) as d eqn:Ed. clear Ed.
      assert (Hblp' : 0 <= blp < 2 ^ d).
      { split; [lia|]. apply Z.lt_le_trans with (2 ^ c); [lia|apply Z.pow_le_mono_r; lia]. }
      rewrite (IH pid _ (d + 1)); [|lia|lia| |exact Hch].
      * rewrite nack_expand_snoc, Hp', <- app_assoc by lia. reflexivity.
      * apply lor_bit_lt; [lia|]. split; [lia|]. rewrite Z.pow_add_r by lia. lia.
    + rewrite flat_expand_cons, (IH p 0 0), nack_expand_0; [reflexivity|lia|lia|cbn; lia|exact Hch].
Qed.

(* ---- a whole `lost` list: the FCI bytes and what they parse back to *)
Definition nack_parsed (lost : list Z) : list Z :=
  match lost with [] => [] | pid :: rest => flat_expand (nack_entries pid 0 rest) end.

Lemma nack_fci lost :
  Forall (fun p => 0 <= p < 65536) lost ->
  exists a,
    match lost with [] => Ok [] | pid :: rest => nack_pack (nack_entries pid 0 rest) end = Ok a /\
    nack_parse a = Ok (nack_parsed lost) /\ (length a mod 4 = 0)%nat /\
    (length a <= 4 * length lost)%nat /\ bytes_ok a.
Proof.
  intros Hl. destruct Hl as [|pid rest Hpid Hrest].
  - exists []. repeat split; [cbn [length]; lia|apply bytes_ok_nil].
  - destruct (nack_entries_ok rest pid 0 Hpid ltac:(lia) Hrest) as [a Ha].
    destruct (nack_parse_pack _ _ Ha) as (Hp & Hla & Hok).
    assert (Hcnt := nack_entries_count rest pid 0).
    exists a. repeat split; [exact Ha|exact Hp| |cbn [length]; lia|exact Hok].
    rewrite Hla, Nat.mul_comm. apply Nat.mod_mul. lia.
Qed.

Lemma nack_parsed_canonical lost : nack_canonical lost -> nack_parsed lost = lost.
Proof.
  destruct lost as [|pid rest]; [reflexivity|]. intros [Hpid Hch]. cbn [nack_parsed].
  rewrite (nack_entries_exact rest pid 0 0), nack_expand_0; [reflexivity|lia|lia|cbn; lia|exact Hch].
Qed.

Lemma nack_parsed_members lost x :
  Forall (fun p => 0 <= p < 65536) lost -> In x (nack_parsed lost) <-> In x lost.
Proof.
  intros Hl. destruct Hl as [|pid rest Hpid Hrest]; [reflexivity|]. cbn [nack_parsed].
  rewrite nack_entries_members, nack_expand_0 by (auto; lia). cbn [In]. tauto.
Qed.

(* ================================================================ fuel of pack_remb_fci *)
(* the stated fuel suffices for EVERY bitrate (also out-of-range ones): the
   `while mantissa > 0x3FFFF` loop always terminates within it *)
Lemma remb_loop_fuel_enough b : exists m e, remb_loop (remb_fuel b) b 0 = Ok (m, e).
Proof.
  destruct (Z_lt_ge_dec b 0) as [Hneg|Hpos].
  - unfold remb_fuel. rewrite remb_loop_S. destruct (Z.ltb_spec 262143 b); [lia|eauto].
  - destruct (remb_loop_fuel b ltac:(lia)) as (k & _ & H & _). eauto.
Qed.

Lemma be32s_not_fuel l : be32s l <> OutOfFuel.
Proof.
  induction l as [|x l IH]; cbn [be32s]; [discriminate|].
  destruct (u32ok x); [|discriminate]. destruct (be32s l); cbn [bind]; congruence.
Qed.

Lemma pack_remb_fci_fuel b ssrcs : pack_remb_fci b ssrcs <> OutOfFuel.
Proof.
  unfold pack_remb_fci. destruct (remb_loop_fuel_enough b) as (m & e & ->). cbn [bind].
  destruct (_ && _); [|discriminate].
  assert (H := be32s_not_fuel ssrcs). destruct (be32s ssrcs); cbn [bind]; congruence.
Qed.
