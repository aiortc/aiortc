(* C13: bufferedAmount always equals the bytes accepted by send() and not yet handed to
   the transport, for every input list (every interleaving of sends, flushes with any
   congestion oracle, closes, association events and received messages); live channels
   with an id are registered under it, those without one still have a message queued.

   What each sub-step does to these invariants is stated once (`keeps`); the leaves of
   ChanP's walk through `step` are put together from that, and the walk does the rest. *)
From Coq Require Import ZArith List Bool Lia Arith FinFun.
From AV Require Import Lib.Bytes Lib.BytesP Gen.Utils Gen.SctpConst Model.Chan Proof.ChanP.
Import ListNotations.
Local Open Scope Z_scope.

Definition counts (h : nat) (it : nat * Z * bytes) : bool :=
  Nat.eqb (fst (fst it)) h && negb (Z.eqb (snd (fst it)) WEBRTC_DCEP).
Definition qsum (q : list (nat * Z * bytes)) (h : nat) : Z :=
  fold_right (fun it acc => (if counts h it then len (snd it) else 0) + acc) 0 q.

Definition binv (s : st) : Prop :=
  forall h, (h < length (chans s))%nat -> ch_state (getc s h) <> Closed -> ch_buf (getc s h) = qsum (queue s) h.

Lemma qsum_app q1 q2 h : qsum (q1 ++ q2) h = qsum q1 h + qsum q2 h.
Proof. unfold qsum. induction q1 as [|it q IH]; cbn [app fold_right]; [lia|]. rewrite IH. lia. Qed.
Lemma qsum_nil h : qsum [] h = 0. Proof. reflexivity. Qed.
Lemma qsum_cons it q h : qsum (it :: q) h = (if counts h it then len (snd it) else 0) + qsum q h.
Proof. reflexivity. Qed.
Lemma qsum_snoc q it h : qsum (q ++ [it]) h = qsum q h + (if counts h it then len (snd it) else 0).
Proof. rewrite qsum_app, qsum_cons, qsum_nil. lia. Qed.
Lemma qsum_snoc_dcep q h d h' : qsum (q ++ [(h, WEBRTC_DCEP, d)]) h' = qsum q h'.
Proof. rewrite qsum_snoc. unfold counts. cbn [fst snd]. rewrite Z.eqb_refl, andb_false_r. lia. Qed.

Lemma qsum_nonneg q h : 0 <= qsum q h.
Proof.
  induction q as [|it q IH]; [rewrite qsum_nil; lia|]. rewrite qsum_cons.
  destruct (counts h it); [pose proof (len_nonneg (snd it))|]; lia.
Qed.
Lemma qsum_absent q h : (forall it, In it q -> fst (fst it) <> h) -> qsum q h = 0.
Proof.
  induction q as [|it q IH]; intros H; [reflexivity|]. rewrite qsum_cons, IH by (intros x Hx; apply H; now right).
  unfold counts. destruct (Nat.eqb_spec (fst (fst it)) h) as [E|_]; [|reflexivity]. now destruct (H it (or_introl eq_refl)).
Qed.
Lemma qsum_filter_other q h h' : h <> h' ->
  qsum (filter (fun it => negb (Nat.eqb (fst (fst it)) h')) q) h = qsum q h.
Proof.
  intros Hne. induction q as [|it q IH]; cbn [filter]; [reflexivity|].
  destruct (Nat.eqb_spec (fst (fst it)) h') as [E|E]; cbn [negb].
  - rewrite qsum_cons, IH. unfold counts. destruct (Nat.eqb_spec (fst (fst it)) h); [congruence|]. cbn. lia.
  - rewrite !qsum_cons, IH. reflexivity.
Qed.
Lemma qsum_filter_self q h : qsum (filter (fun it => negb (Nat.eqb (fst (fst it)) h)) q) h = 0.
Proof.
  apply qsum_absent. intros it Hin. apply filter_In in Hin as [_ Hb].
  now destruct (Nat.eqb_spec (fst (fst it)) h).
Qed.

Lemma tget_in t k : tget t k <> None -> In k (map fst t).
Proof.
  induction t as [|[k' v] t IH]; cbn [tget map fst In]; [congruence|].
  destruct (Z.eqb_spec k k'); [left; congruence|intros H; right; now apply IH].
Qed.

Lemma pick_id_cases t : forall fuel i,
  (forall m, (m < fuel)%nat -> tget t (i + 2 * Z.of_nat m) <> None) \/ tget t (pick_id fuel t i) = None.
Proof.
  induction fuel as [|f IH]; intros i; [left; intros m Hm; lia|]. cbn [pick_id].
  destruct (tget t i) eqn:E; [|right; exact E].
  destruct (IH (i + 2)) as [H|H]; [left|right; exact H].
  intros m Hm. destruct m as [|m]; [rewrite Z.mul_0_r, Z.add_0_r; congruence|].
  replace (i + 2 * Z.of_nat (S m)) with (i + 2 + 2 * Z.of_nat m) by lia. apply H. lia.
Qed.

Lemma pick_id_fresh t i : tget t (pick_id (S (length t)) t i) = None.
Proof.
  destruct (pick_id_cases t (S (length t)) i) as [H|H]; [exfalso|exact H].
  set (l := map (fun m => i + 2 * Z.of_nat m) (seq 0 (S (length t)))).
  assert (Hnd : NoDup l).
  { unfold l. apply FinFun.Injective_map_NoDup; [|apply seq_NoDup]. intros a b E. lia. }
  assert (Hin : incl l (map fst t)).
  { intros x Hx. unfold l in Hx. apply in_map_iff in Hx as (m & <- & Hm). apply in_seq in Hm. apply tget_in, H. lia. }
  pose proof (NoDup_incl_length Hnd Hin) as Hlen. unfold l in Hlen. rewrite !map_length, seq_length in Hlen. lia.
Qed.

Lemma pick_id_parity t : forall fuel i, (pick_id fuel t i - i) mod 2 = 0 /\ i <= pick_id fuel t i.
Proof.
  induction fuel as [|f IH]; intros i; cbn [pick_id]; [rewrite Z.sub_diag; split; [reflexivity|lia]|].
  destruct (tget t i); [|rewrite Z.sub_diag; split; [reflexivity|lia]].
  destruct (IH (i + 2)) as [H1 H2]. split; [|lia].
  replace (pick_id f t (i + 2) - i) with ((pick_id f t (i + 2) - (i + 2)) + 1 * 2) by lia.
  rewrite Z.mod_add by lia. exact H1.
Qed.

Definition t2 (s : st) : Prop :=
  forall h i, (h < length (chans s))%nat -> ch_state (getc s h) <> Closed -> ch_id (getc s h) = Some i ->
              tget (table s) i = Some h.

Definition cinv (s : st) : Prop := wf s /\ binv s /\ t2 s.

Definition queued (s : st) (h : nat) : Prop := exists pp data, In (h, pp, data) (queue s).
Definition idless (s : st) (h : nat) : Prop :=
  (h < length (chans s))%nat /\ ch_state (getc s h) <> Closed /\ ch_id (getc s h) = None.
Definition t3 (s : st) : Prop := forall h, idless s h -> queued s h.
Definition pres (s s' : st) : Prop :=
  forall h, idless s' h ->
    queued s' h \/ (idless s h /\ forall pp d, In (h, pp, d) (queue s) -> In (h, pp, d) (queue s')).

Lemma pres_refl s : pres s s.
Proof. intros h H. right. split; [exact H|auto]. Qed.
Lemma pres_trans s s1 s2 : pres s s1 -> pres s1 s2 -> pres s s2.
Proof.
  intros P1 P2 h H. destruct (P2 h H) as [Q|[I1 K1]]; [now left|].
  destruct (P1 h I1) as [(pp & d & Hin)|[I0 K0]].
  - left. exists pp, d. now apply K1.
  - right. split; [exact I0|]. intros pp d Hin. apply K1, K0, Hin.
Qed.
Lemma t3_pres s s' : t3 s -> pres s s' -> t3 s'.
Proof.
  intros T P h H. destruct (P h H) as [Q|[I0 K0]]; [exact Q|].
  destruct (T h I0) as (pp & d & Hin). exists pp, d. now apply K0.
Qed.

Definition dinv (s : st) : Prop := cinv s /\ t3 s.

(* The three invariants beside wf, each kept on its own; t3 through the relation pres, which
   needs nothing of the state before. *)
Definition keeps (s s' : st) : Prop := (binv s -> binv s') /\ (t2 s -> t2 s') /\ pres s s'.

Lemma keeps_refl s : keeps s s.
Proof. split; [auto|split; [auto|apply pres_refl]]. Qed.
Lemma keeps_trans s s1 s2 : keeps s s1 -> keeps s1 s2 -> keeps s s2.
Proof. intros (B1 & T1 & P1) (B2 & T2 & P2). split; [auto|split; [auto|now apply (pres_trans s s1)]]. Qed.

Lemma keeps_cq s s' : length (chans s') = length (chans s) -> table s' = table s ->
  (forall h, ch_state (getc s' h) <> Closed ->
     ch_state (getc s h) <> Closed /\ ch_id (getc s' h) = ch_id (getc s h) /\
     ch_buf (getc s' h) - qsum (queue s') h = ch_buf (getc s h) - qsum (queue s) h) ->
  (forall h pp d, idless s h -> In (h, pp, d) (queue s) -> In (h, pp, d) (queue s')) -> keeps s s'.
Proof.
  intros L Et G Q. split; [|split].
  - intros B h Hl Hst. destruct (G h Hst) as (Hst0 & _ & Eb). rewrite L in Hl. specialize (B h Hl Hst0). lia.
  - intros T h i Hl Hst Hid. destruct (G h Hst) as (Hst0 & Ei & _). rewrite L in Hl. rewrite Ei in Hid. rewrite Et. now apply T.
  - intros h (Hl & Hst & Hid). right. destruct (G h Hst) as (Hst0 & Ei & _). rewrite L in Hl. rewrite Ei in Hid.
    split; [now split|]. intros pp d. now apply Q.
Qed.

Lemma keeps_same s s' : chans s' = chans s -> table s' = table s -> queue s' = queue s -> keeps s s'.
Proof.
  intros Ec Et Eq. apply keeps_cq; [now rewrite Ec|exact Et| |now rewrite Eq].
  intros h. replace (getc s' h) with (getc s h) by (unfold getc; now rewrite Ec). now rewrite Eq.
Qed.

Lemma keeps_setc s h c : ch_id c = ch_id (getc s h) -> ch_buf c = ch_buf (getc s h) ->
  (ch_state (getc s h) = Closed -> ch_state c = Closed) -> keeps s (setc s h c).
Proof.
  intros Ei Eb Es. apply keeps_cq; [apply setc_length|reflexivity| |auto].
  intros h' Hst. rewrite getc_setc in *. destruct (_ && _) eqn:E; [|auto].
  apply andb_true_iff in E as [E _]. apply Nat.eqb_eq in E as <-. rewrite Ei, Eb. auto.
Qed.

Lemma keeps_set_ready s h r : rank (ch_state (getc s h)) <= rank r -> keeps s (fst (set_ready s h r)).
Proof.
  intros Hm. rewrite set_ready_fst. apply keeps_setc; [reflexivity|reflexivity|]. cbn [with_state ch_state].
  intros Ec. rewrite Ec in Hm. now destruct r.
Qed.

(* nothing of a closed channel is of interest *)
Lemma keeps_purge s h : ch_state (getc s h) = Closed -> keeps s (purge s h).
Proof.
  intros Hc. apply keeps_cq; try reflexivity.
  - intros h' Hst. split; [exact Hst|split; [reflexivity|]]. cbn [queue purge set_queue].
    rewrite qsum_filter_other; [reflexivity|]. intros ->. contradiction.
  - intros h' pp d (_ & Hst & _) Hin. apply filter_In. split; [exact Hin|]. cbn [fst].
    destruct (Nat.eqb_spec h' h) as [->|_]; [contradiction|reflexivity].
Qed.

Lemma keeps_table s t' :
  (forall h i, (h < length (chans s))%nat -> ch_state (getc s h) <> Closed -> ch_id (getc s h) = Some i -> tget t' i = Some h) ->
  keeps s (set_table s t').
Proof. intros R. split; [auto|split; [intros _; exact R|]]. intros h H. right. split; [exact H|auto]. Qed.

Lemma keeps_assign s h : (h < length (chans s))%nat -> keeps s (fst (assign_id s h)).
Proof.
  intros Hh. unfold assign_id. destruct (ch_id (getc s h)) eqn:Ei; cbn [fst]; [apply keeps_refl|].
  pose proof (pick_id_fresh (table s) (dc_id s)) as Hf. set (i := pick_id _ _ _) in *.
  split; [|split].
  - intros B h' Hl Hst. rewrite setc_length in Hl.
    destruct (Nat.eq_dec h' h) as [->|Hne]; [rewrite getc_setc_same in * by exact Hh|rewrite getc_setc_other in * by exact Hne]; now apply B.
  - intros T h' i' Hl Hst Hid. rewrite setc_length in Hl. cbn [table setc set_table].
    destruct (Nat.eq_dec h' h) as [->|Hne].
    + rewrite getc_setc_same in Hid by exact Hh. injection Hid as <-. now rewrite tget_tset_fresh, Z.eqb_refl.
    + rewrite getc_setc_other in Hst, Hid by exact Hne. apply tget_tset_keeps; [exact Hf|now apply T].
  - intros h' (Hl & Hst & Hid). right. rewrite setc_length in Hl.
    destruct (Nat.eq_dec h' h) as [->|Hne]; [now rewrite getc_setc_same in Hid by exact Hh|].
    rewrite getc_setc_other in Hst, Hid by exact Hne. split; [now split|auto].
Qed.

Lemma keeps_new s c q' : wf s -> ch_state c = Connecting -> ch_buf c = 0 ->
  match ch_id c with Some i => tget (table s) i = None | None => exists pp d, In (length (chans s), pp, d) q' end ->
  (forall h, qsum q' h = qsum (queue s) h) -> (forall it, In it (queue s) -> In it q') ->
  keeps s (new_chan s c q').
Proof.
  intros [_ Wq] Hst Hb Hid Hq Hin.
  assert (L : forall h, (h < length (chans (new_chan s c q')))%nat -> h <> length (chans s) -> (h < length (chans s))%nat)
    by (intros h Hl Hne; rewrite new_chan_length in Hl; lia).
  split; [|split].
  - intros B h Hl Hs. cbn [queue new_chan set_queue]. rewrite Hq. rewrite getc_new_chan in *.
    destruct (Nat.eqb_spec h (length (chans s))) as [->|Hne]; [|now apply B, Hs; apply L].
    rewrite Hb. symmetry. apply qsum_absent. intros it Hit. rewrite Forall_forall in Wq. apply Wq in Hit. lia.
  - intros T h i Hl Hs Hi. cbn [table new_chan set_queue set_table]. rewrite getc_new_chan in *.
    destruct (Nat.eqb_spec h (length (chans s))) as [->|Hne].
    + rewrite Hi in *. rewrite tget_tset_fresh by exact Hid. now rewrite Z.eqb_refl.
    + pose proof (T h i (L h Hl Hne) Hs Hi) as E. destruct (ch_id c) as [j|]; [now apply tget_tset_keeps|exact E].
  - intros h (Hl & Hs & Hi). rewrite getc_new_chan in *. destruct (Nat.eqb_spec h (length (chans s))) as [->|Hne].
    + left. now rewrite Hi in Hid.
    + right. split; [split; [now apply L|auto]|]. intros pp d. apply Hin.
Qed.

Definition dstep (s : st) (evs : list event) (s' : st) : Prop := dinv s -> dinv s' /\ no_raise 3 evs.

Lemma dstep_refl s : dstep s [] s.
Proof. intros D. split; [exact D|apply no_raise_nil]. Qed.
Lemma dstep_trans s e1 s1 e2 s2 : dstep s e1 s1 -> dstep s1 e2 s2 -> dstep s (e1 ++ e2) s2.
Proof. intros H1 H2 D. destruct (H1 D) as [D1 N1]. destruct (H2 D1) as [D2 N2]. split; [exact D2|now apply no_raise_app]. Qed.

(* wf comes from ChanP's `good` *)
Lemma dstep_keeps s evs s' : good s evs s' -> (cinv s -> keeps s s' /\ no_raise 3 evs) -> dstep s evs s'.
Proof.
  intros G K [C T3]. destruct (K C) as [(KB & KT & KP) N]. destruct C as (W & B & T).
  split; [|exact N]. split; [split; [exact (proj1 (G W))|auto]|exact (t3_pres _ _ T3 KP)].
Qed.

Lemma dstep_same s evs s' : chans s' = chans s -> table s' = table s -> queue s' = queue s -> dc_id s' = dc_id s ->
  forallb inert evs = true -> dstep s evs s'.
Proof. intros Ec Et Eq Ed Hp. apply dstep_keeps; [now apply good_same|]. intros _. split; [now apply keeps_same|now apply inert_no_raise]. Qed.

Lemma dstep_set_ready s h r : rank (ch_state (getc s h)) <= rank r ->
  dstep s (snd (set_ready s h r)) (fst (set_ready s h r)).
Proof.
  intros Hm. apply dstep_keeps; [now apply set_ready_good|]. intros _. split; [now apply keeps_set_ready|apply set_ready_no_raise].
Qed.

Lemma dstep_threshold s h v : dstep s [] (setc s h (with_thr (getc s h) v)).
Proof. apply dstep_keeps; [now apply good_setc|]. intros _. split; [now apply keeps_setc|apply no_raise_nil]. Qed.

Lemma reg_after_close s h t' : (h < length (chans s))%nat ->
  (forall h' i, h' <> h -> (h' < length (chans s))%nat -> ch_state (getc s h') <> Closed ->
                ch_id (getc s h') = Some i -> tget t' i = Some h') ->
  forall h' i, (h' < length (chans (fst (set_ready s h Closed))))%nat -> ch_state (getc (fst (set_ready s h Closed)) h') <> Closed ->
               ch_id (getc (fst (set_ready s h Closed)) h') = Some i -> tget t' i = Some h'.
Proof.
  intros Hh R h' i Hl Hst Hid. assert (Hne : h <> h') by (intros <-; now rewrite closed_after_set_ready in Hst).
  rewrite set_ready_length in Hl. rewrite set_ready_other in Hst, Hid by exact Hne. apply R; auto.
Qed.

Lemma reg_tdel s h i : t2 s -> tget (table s) i = Some h ->
  forall h' i', h' <> h -> (h' < length (chans s))%nat -> ch_state (getc s h') <> Closed ->
                ch_id (getc s h') = Some i' -> tget (tdel (table s) i) i' = Some h'.
Proof.
  intros T Et h' i' Hne Hl Hst Hid. rewrite tget_tdel. destruct (Z.eqb_spec i' i) as [->|_]; [|now apply T].
  pose proof (T h' i Hl Hst Hid). congruence.
Qed.

Lemma keeps_close s h t' : (h < length (chans s))%nat ->
  (forall h' i, h' <> h -> (h' < length (chans s))%nat -> ch_state (getc s h') <> Closed ->
                ch_id (getc s h') = Some i -> tget t' i = Some h') ->
  keeps s (set_table (purge (fst (set_ready s h Closed)) h) t').
Proof.
  intros Hh R. apply (keeps_trans s (fst (set_ready s h Closed))); [apply keeps_set_ready, rank_closed|].
  eapply keeps_trans; [apply keeps_purge; now apply closed_after_set_ready|].
  apply keeps_table. exact (reg_after_close s h t' Hh R).
Qed.

Lemma cinv_close_at s h t' : (h < length (chans s))%nat -> cinv s ->
  Forall (fun kv : Z * nat => (snd kv < length (chans s))%nat) t' ->
  (forall h' i, h' <> h -> (h' < length (chans s))%nat -> ch_state (getc s h') <> Closed ->
                ch_id (getc s h') = Some i -> tget t' i = Some h') ->
  cinv (fst (set_ready (set_table s t') h Closed)).
Proof.
  intros Hh (W & B & T) Ht' Hreg. rewrite set_ready_set_table. cbn [fst].
  pose proof (rank_closed (ch_state (getc s h))) as Hm.
  destruct (keeps_trans _ _ _ (keeps_set_ready s h Closed Hm) (keeps_table _ t' (reg_after_close s h t' Hh Hreg))) as (KB & KT & _).
  split; [|auto]. split; [cbn [table chans set_table]; now rewrite set_ready_length|].
  exact (proj2 (proj1 (set_ready_good s h Closed Hm W))).
Qed.

Lemma dstep_chan_closed s i : dstep s (snd (chan_closed s i)) (fst (chan_closed s i)).
Proof.
  apply dstep_keeps; [apply chan_closed_good|]. intros (W & _ & T).
  destruct (tget (table s) i) as [h|] eqn:Et; [|unfold chan_closed; rewrite Et; split; [apply keeps_refl|apply no_raise_nil]].
  rewrite (chan_closed_eq s i h Et). cbn [fst snd]. split; [|apply set_ready_no_raise].
  apply keeps_close; [exact (tget_handles _ _ _ _ (proj1 W) Et)|now apply reg_tdel].
Qed.

Lemma dstep_close_local s h : (h < length (chans s))%nat -> ch_state (getc s h) <> Closed ->
  dstep s (snd (close_local s h (ch_id (getc s h)))) (fst (close_local s h (ch_id (getc s h)))).
Proof.
  intros Hh Hst. apply dstep_keeps; [apply close_local_good|]. intros (_ & _ & T). rewrite close_local_eq.
  destruct (ch_id (getc s h)) as [i|] eqn:Ei.
  - pose proof (T h i Hh Hst Ei) as Et. rewrite Et. cbn [fst snd]. split; [|apply set_ready_no_raise].
    apply keeps_close; [exact Hh|now apply reg_tdel].
  - cbn [fst snd]. split; [|apply set_ready_no_raise].
    apply (keeps_close s h (table (fst (set_ready s h Closed)))); [exact Hh|]. rewrite set_ready_table. intros h' i' _. apply T.
Qed.

Lemma send_one_chan s i h pp data h' : (h < length (chans s))%nat ->
  ch_id (getc (fst (send_one s i h pp data)) h') = ch_id (getc s h') /\
  ch_state (getc (fst (send_one s i h pp data)) h') = ch_state (getc s h') /\
  ch_buf (getc (fst (send_one s i h pp data)) h') = ch_buf (getc s h') - (if counts h' (h, pp, data) then len data else 0).
Proof.
  intros Hh. unfold send_one, counts. cbn [fst snd]. destruct (pp =? WEBRTC_DCEP).
  - rewrite andb_false_r. cbn [fst]. auto with zarith.
  - rewrite (pair_eta (add_buffered _ _ _)). cbn [fst]. destruct (add_buffered_chan s h (- len data) h' Hh) as (Ei & Es & Eb).
    rewrite Ei, Es, Eb, andb_true_r. destruct (Nat.eqb h h'); auto with zarith.
Qed.

Lemma keeps_flush_one s h pp data q' : wf s -> queue s = (h, pp, data) :: q' ->
  keeps s (fst (flush_one (set_queue s q') h pp data)).
Proof.
  intros [_ Wq] Eq. rewrite Eq in Wq. apply Forall_cons_iff in Wq as [Hh _]. cbn [fst] in Hh.
  rewrite flush_one_set_queue. cbn [fst]. unfold flush_one. rewrite (pair_eta (assign_id s h)).
  apply (keeps_trans s (fst (assign_id s h))); [now apply keeps_assign|].
  pose proof (assign_id_has s h Hh) as Hid. pose proof (assign_id_queue s h) as Eq2. rewrite Eq in Eq2.
  rewrite <- (assign_id_length s h) in Hh. set (s2 := fst (assign_id s h)) in *.
  apply keeps_cq.
  - unfold send_one. destruct (pp =? WEBRTC_DCEP); [reflexivity|]. rewrite (pair_eta (add_buffered _ _ _)). apply add_buffered_length.
  - unfold send_one. destruct (pp =? WEBRTC_DCEP); [reflexivity|]. now rewrite (pair_eta (add_buffered _ _ _)).
  - intros h' Hst. change (getc (set_queue ?a _) h') with (getc a h') in *.
    destruct (send_one_chan s2 (snd (assign_id s h)) h pp data h' Hh) as (Ei & Es & Eb).
    rewrite Es in Hst. rewrite Ei, Eb, Eq2, qsum_cons. cbn [queue set_queue snd]. split; [exact Hst|split; [reflexivity|lia]].
  - intros h' pp' d (_ & _ & Hn) Hin. rewrite Eq2 in Hin. destruct Hin as [E|Hin]; [congruence|exact Hin].
Qed.

Lemma flush_one_inert s h pp data : forallb inert (snd (flush_one s h pp data)) = true.
Proof.
  unfold flush_one. rewrite (pair_eta (assign_id s h)). unfold send_one, add_buffered.
  destruct (pp =? WEBRTC_DCEP); [reflexivity|]. cbn [snd forallb inert andb]. now destruct (_ && _).
Qed.

Lemma dstep_flush_one s h pp data q' : queue s = (h, pp, data) :: q' ->
  dstep s (snd (flush_one (set_queue s q') h pp data)) (fst (flush_one (set_queue s q') h pp data)).
Proof.
  intros Eq. apply dstep_keeps; [now apply flush_one_good|]. intros (W & _ & _).
  split; [now apply keeps_flush_one|apply inert_no_raise, flush_one_inert].
Qed.

Lemma binv_flush s oracle : wf s -> binv s -> binv (fst (flush s oracle)) /\ wf (fst (flush s oracle)).
Proof.
  intros W B. refine (walk_flush (fun s _ s' => wf s /\ binv s -> binv s' /\ wf s') _ _ _ s oracle (conj W B)).
  - intros s0 [W0 B0]. now split.
  - intros s0 e1 s1 e2 s2 H1 H2 H. apply H2. destruct (H1 H). now split.
  - intros s0 h pp data q' Eq [W0 B0]. split; [now apply (keeps_flush_one s0 h pp data q' W0 Eq)|].
    exact (proj1 (flush_one_good s0 h pp data q' Eq W0)).
Qed.

Lemma dstep_create s neg id ordered maxrt maxlt label proto : (neg = true -> id <> None) ->
  dstep s (snd (create s neg id ordered maxrt maxlt label proto)) (fst (create s neg id ordered maxrt maxlt label proto)).
Proof.
  intros Hneg. apply dstep_keeps; [apply create_good|]. intros (W & _ & _). rewrite create_eq. cbv zeta.
  set (c := mkChan _ _ _ _ _ _ _ _ _ _).
  destruct (match id with Some i => _ | None => _ end) eqn:Eu; [split; [apply keeps_refl|now apply inert_no_raise]|].
  assert (K : forall q', (forall h, qsum q' h = qsum (queue s) h) -> (forall it, In it (queue s) -> In it q') ->
              (neg = false -> exists pp d, In (length (chans s), pp, d) q') -> keeps s (new_chan s c q')).
  { intros q' H1 H2 H3. apply keeps_new; auto. cbn [ch_id c]. destruct id as [i|].
    - now destruct (tget (table s) i).
    - destruct neg; [now destruct Hneg|auto]. }
  destruct neg; [destruct (established s)|]; cbn [fst snd].
  - split; [|apply set_ready_no_raise]. eapply keeps_trans; [apply (K (queue s)); easy|].
    now apply keeps_set_ready; apply new_chan_opens.
  - split; [apply (K (queue s)); easy|apply no_raise_nil].
  - split; [|now apply inert_no_raise]. apply K; [apply qsum_snoc_dcep|intros it Hin; apply in_or_app; now left|].
    intros _. exists WEBRTC_DCEP, (dcep_open c). apply in_or_app. right. now left.
Qed.

Lemma dstep_accept_open s sidv c : tget (table s) sidv = None -> ch_id c = Some sidv -> ch_state c = Connecting -> ch_buf c = 0 ->
  dstep s (snd (accept_open s sidv c)) (fst (accept_open s sidv c)).
Proof.
  intros Et Hi Hc Hb. apply dstep_keeps; [now apply accept_open_good|]. intros (W & _ & _).
  rewrite (accept_open_eq s sidv c Hi). split; [|apply set_ready_no_raise].
  eapply keeps_trans; [|now apply keeps_set_ready; apply new_chan_opens].
  apply keeps_new; auto; [now rewrite Hi|apply qsum_snoc_dcep|intros it Hin; apply in_or_app; now left].
Qed.

Lemma dstep_app_send s h pp data : pp <> WEBRTC_DCEP -> (h < length (chans s))%nat ->
  dstep s (snd (app_send s h pp data)) (fst (app_send s h pp data)).
Proof.
  intros Hpp Hh. apply dstep_keeps; [now apply app_send_good|]. intros _. unfold app_send.
  destruct (negb _); [split; [apply keeps_refl|now apply inert_no_raise]|].
  rewrite (pair_eta (add_buffered s h (len data))). cbn [fst snd]. split.
  - apply keeps_cq; [apply add_buffered_length|reflexivity| |intros h' pp' d _ Hin; apply in_or_app; now left].
    intros h' Hst. change (getc (set_queue ?a _) h') with (getc a h') in *.
    destruct (add_buffered_chan s h (len data) h' Hh) as (Ei & Es & Eb). rewrite Es in Hst. rewrite Ei, Eb.
    cbn [queue set_queue add_buffered fst setc]. rewrite qsum_snoc. unfold counts. cbn [fst snd].
    apply Z.eqb_neq in Hpp. rewrite Hpp, andb_true_r. split; [exact Hst|split; [reflexivity|]]. destruct (Nat.eqb h h'); lia.
  - apply inert_no_raise. unfold add_buffered. cbn [snd]. now destruct (_ && _).
Qed.

Definition all_closed (s : st) : Prop := forall h, (h < length (chans s))%nat -> ch_state (getc s h) = Closed.

Lemma tdel_absent t k : tget t k = None -> tdel t k = t.
Proof.
  induction t as [|[a b] t IH]; cbn [tget tdel]; [reflexivity|]. destruct (k =? a); [discriminate|]. intros H. now rewrite IH.
Qed.

Lemma chan_closed_table s i : table (fst (chan_closed s i)) = tdel (table s) i.
Proof.
  destruct (tget (table s) i) eqn:E; [now rewrite (chan_closed_eq s i _ E)|].
  unfold chan_closed. rewrite E. cbn [fst]. now rewrite tdel_absent.
Qed.
Lemma chan_closed_queue s i : forall it, In it (queue (fst (chan_closed s i))) -> In it (queue s).
Proof.
  destruct (tget (table s) i) eqn:E; [rewrite (chan_closed_eq s i _ E)|unfold chan_closed; now rewrite E].
  cbn [fst queue set_table purge set_queue]. intros it Hin. apply filter_In in Hin as [Hin _]. now rewrite set_ready_queue in Hin.
Qed.

Lemma closed_streams_table : forall ks s, table (fst (closed_streams s ks)) = fold_left tdel ks (table s).
Proof.
  induction ks as [|k ks IH]; intros s; cbn [closed_streams fold_left]; [reflexivity|].
  rewrite (pair_eta (chan_closed s k)). rewrite (pair_eta (closed_streams (fst (chan_closed s k)) ks)). cbn [fst].
  now rewrite IH, chan_closed_table.
Qed.
Lemma closed_streams_queue : forall ks s it, In it (queue (fst (closed_streams s ks))) -> In it (queue s).
Proof.
  intros ks s. apply (walk_closed_streams (fun s _ s' => forall it, In it (queue s') -> In it (queue s))); auto.
  intros s0 i. apply chan_closed_queue.
Qed.

Lemma in_tdel t k kv : In kv (tdel t k) -> In kv t /\ fst kv <> k.
Proof.
  induction t as [|[a b] t IH]; cbn [tdel]; [intros []|].
  destruct (Z.eqb_spec k a) as [->|Hne].
  - intros H. destruct (IH H). split; [now right|assumption].
  - intros [<-|H]; [split; [now left|cbn; congruence]|]. destruct (IH H). split; [now right|assumption].
Qed.

Lemma tdel_all : forall ks t, (forall kv, In kv t -> In (fst kv) ks) -> fold_left tdel ks t = [].
Proof.
  induction ks as [|k ks IH]; intros t H; cbn [fold_left].
  - destruct t as [|kv t]; [reflexivity|]. destruct (H kv (or_introl eq_refl)).
  - apply IH. intros kv Hin. apply in_tdel in Hin as [Hin Hne]. destruct (H kv Hin) as [E|E]; [congruence|exact E].
Qed.

Lemma close_queued_length q s : length (chans (fst (close_queued s q))) = length (chans s).
Proof.
  apply (walk_close_queued (fun s _ s' => length (chans s') = length (chans s))); [reflexivity|intros; congruence|].
  intros s0 h. apply set_ready_length.
Qed.
Lemma close_queued_table q s : table (fst (close_queued s q)) = table s.
Proof.
  apply (walk_close_queued (fun s _ s' => table s' = table s)); [reflexivity|intros; congruence|].
  intros s0 h. apply set_ready_table.
Qed.
Lemma close_queued_no_raise q s k : no_raise k (snd (close_queued s q)).
Proof.
  apply (walk_close_queued (fun _ evs _ => no_raise k evs)); [intros; apply no_raise_nil|intros; now apply no_raise_app|].
  intros s0 h. apply set_ready_no_raise.
Qed.

Lemma close_queued_closed : forall q s h, (h < length (chans s))%nat ->
  ((exists pp d, In (h, pp, d) q) \/ ch_state (getc s h) = Closed) ->
  ch_state (getc (fst (close_queued s q)) h) = Closed.
Proof.
  induction q as [|[[h0 pp0] d0] q IH]; intros s h Hl H; cbn [close_queued].
  - destruct H as [(pp & d & [])|H]. exact H.
  - rewrite (pair_eta (set_ready s h0 Closed)). rewrite (pair_eta (close_queued (fst (set_ready s h0 Closed)) q)). cbn [fst].
    apply IH; [now rewrite set_ready_length|].
    destruct (Nat.eq_dec h0 h) as [->|Hne].
    + right. now apply closed_after_set_ready.
    + destruct H as [(pp & d & [X|X])|H]; [congruence|left; eauto|].
      right. rewrite set_ready_other by exact Hne. exact H.
Qed.

Lemma pres_close_queued : forall q s, pres s (fst (close_queued s q)).
Proof.
  intros q s. apply (walk_close_queued (fun s _ s' => pres s s')); [apply pres_refl|intros; now apply (pres_trans s0 s1)|].
  intros s0 h. apply keeps_set_ready, rank_closed.
Qed.

Lemma all_closed_inv s : all_closed s -> wf s -> dinv s.
Proof.
  intros A W. split; [split; [exact W|split]|].
  - intros h Hl Hst. now rewrite A in Hst.
  - intros h i Hl Hst. now rewrite A in Hst.
  - intros h (Hl & Hst & _). now rewrite A in Hst.
Qed.

Theorem set_closed_all_closed s : dinv s ->
  all_closed (fst (set_closed s)) /\ table (fst (set_closed s)) = [] /\ queue (fst (set_closed s)) = [] /\
  no_raise 3 (snd (set_closed s)).
Proof.
  intros D. unfold set_closed.
  set (s0 := mkSt false (dc_id s) (chans s) (table s) (queue s) (rq_queue s) (rq_request s) (rq_req_seq s) (rq_resp_seq s)).
  assert (D0 : dinv s0) by now apply (dstep_same s [] s0).
  destruct (walk_closed_streams dstep dstep_refl dstep_trans dstep_chan_closed (map fst (table s0)) s0 D0) as [[(_ & _ & T) T3] N1].
  rewrite (pair_eta (closed_streams s0 (map fst (table s0)))).
  set (s1 := fst (closed_streams s0 (map fst (table s0)))) in *.
  assert (Et1 : table s1 = []).
  { unfold s1. rewrite closed_streams_table. apply tdel_all. intros kv Hin. now apply in_map. }
  rewrite (pair_eta (close_queued s1 (queue s1))). cbn [fst snd].
  split; [|split; [|split; [reflexivity|]]].
  - intros h Hl. cbn [chans set_queue] in Hl. rewrite close_queued_length in Hl. change (getc (set_queue ?a _) h) with (getc a h).
    destruct (rstate_eqb (ch_state (getc s1 h)) Closed) eqn:E; [apply rstate_eqb_eq in E; apply close_queued_closed; auto|].
    assert (Hlive : ch_state (getc s1 h) <> Closed) by (intros X; apply rstate_eqb_eq in X; congruence).
    destruct (ch_id (getc s1 h)) as [i|] eqn:Ei.
    + pose proof (T h i Hl Hlive Ei) as X. rewrite Et1 in X. discriminate.
    + apply close_queued_closed; [exact Hl|]. left. now apply (T3 h).
  - cbn [table set_queue]. now rewrite close_queued_table.
  - apply no_raise_app; [exact N1|apply close_queued_no_raise].
Qed.

Lemma dstep_set_closed s : dstep s (snd (set_closed s)) (fst (set_closed s)).
Proof.
  intros D. destruct (set_closed_all_closed s D) as (A & Et & Eq & N). split; [|exact N].
  apply all_closed_inv; [exact A|]. split; [rewrite Et|rewrite Eq]; constructor.
Qed.

Definition wf_in (i : input) : Prop :=
  match i with ISend _ pp _ => pp <> WEBRTC_DCEP | _ => True end.

Definition wf_input (i : input) : Prop :=
  match i with
  | ISend _ pp _ => pp <> WEBRTC_DCEP            (* RTCDataChannel.send only uses the four user PPIDs *)
  | ICreate neg id _ _ _ _ _ => neg = true -> id <> None   (* RTCDataChannel.__init__ rejects the rest *)
  | _ => True
  end.

Theorem step_dinv s i : wf_input i -> dinv s -> dinv (fst (step s i)) /\ no_raise 3 (snd (step s i)).
Proof.
  apply (walk_step dstep wf_input dstep_refl dstep_trans dstep_same);
    auto using dstep_close_local, dstep_chan_closed, dstep_flush_one, dstep_threshold, dstep_accept_open, dstep_set_closed.
  - intros s0 h r Hr _. now apply dstep_set_ready.
  - intros. now apply dstep_create.
  - intros. now apply dstep_app_send.
Qed.

Lemma dinv_init r q : dinv (init r q).
Proof.
  apply all_closed_inv; [intros h Hl; cbn in Hl; lia|apply wf_init].
Qed.

Theorem run_dinv : forall is s, Forall wf_input is -> dinv s ->
  dinv (fst (run s is)) /\ Forall (no_raise 3) (snd (run s is)).
Proof.
  induction is as [|i is IH]; intros s Hi D; cbn [run]; [split; [exact D|constructor]|].
  inversion Hi as [|? ? Hi1 Hi2]; subst.
  destruct (step_dinv s i Hi1 D) as [D1 N1]. rewrite (pair_eta (step s i)).
  destruct (IH (fst (step s i)) Hi2 D1) as [D2 N2]. rewrite (pair_eta (run (fst (step s i)) is)). cbn [fst snd].
  split; [exact D2|constructor; assumption].
Qed.

(* bufferedAmount = bytes accepted by send() and not yet handed to the transport; never negative; zero once drained *)
Theorem buffered_amount r q is : Forall wf_input is ->
  let s := fst (run (init r q) is) in
  forall h, (h < length (chans s))%nat -> ch_state (getc s h) <> Closed ->
    ch_buf (getc s h) = qsum (queue s) h /\ 0 <= ch_buf (getc s h) /\ (queue s = [] -> ch_buf (getc s h) = 0).
Proof.
  intros Hi s h Hl Hst. destruct (run_dinv is (init r q) Hi (dinv_init r q)) as [[(W & B & T) T3] _].
  fold s in W, B, T, T3. rewrite (B h Hl Hst). split; [reflexivity|]. split; [apply qsum_nonneg|]. intros ->. reflexivity.
Qed.

Theorem never_keyerror r q is : Forall wf_input is -> Forall (no_raise 3) (snd (run (init r q) is)).
Proof. intros Hi. exact (proj2 (run_dinv is (init r q) Hi (dinv_init r q))). Qed.

Lemma run_app : forall is1 is2 s, fst (run s (is1 ++ is2)) = fst (run (fst (run s is1)) is2).
Proof.
  induction is1 as [|i is1 IH]; intros is2 s; cbn [app run]; [reflexivity|].
  rewrite (pair_eta (step s i)). rewrite (pair_eta (run (fst (step s i)) (is1 ++ is2))), (pair_eta (run (fst (step s i)) is1)).
  cbn [fst]. apply IH.
Qed.

(* when the association ends every channel closes, whatever happened before *)
Theorem assoc_end_closes_all r q is : Forall wf_input is ->
  let s := fst (run (init r q) (is ++ [IAssocClosed])) in
  all_closed s /\ table s = [] /\ queue s = [].
Proof.
  intros Hi s. unfold s. rewrite run_app. cbn [run step]. rewrite (pair_eta (set_closed _)). cbn [fst].
  destruct (run_dinv is (init r q) Hi (dinv_init r q)) as [[C T3] _].
  destruct (set_closed_all_closed _ (conj C T3)) as (A & Et & Eq & _). auto.
Qed.

(* automatically chosen stream ids: unused, of the role's parity, not below the role's base id *)
Theorem auto_id_fresh t i :
  let k := pick_id (S (length t)) t i in tget t k = None /\ (k - i) mod 2 = 0 /\ i <= k.
Proof.
  cbv zeta. split; [apply pick_id_fresh|apply pick_id_parity].
Qed.

(* every registered live channel is found under its id, and only there: ids of live channels are distinct *)
Theorem live_ids_distinct r q is : Forall wf_input is ->
  let s := fst (run (init r q) is) in
  forall h1 h2 i, (h1 < length (chans s))%nat -> (h2 < length (chans s))%nat ->
    ch_state (getc s h1) <> Closed -> ch_state (getc s h2) <> Closed ->
    ch_id (getc s h1) = Some i -> ch_id (getc s h2) = Some i -> h1 = h2.
Proof.
  intros Hi s h1 h2 i L1 L2 S1 S2 I1 I2. destruct (run_dinv is (init r q) Hi (dinv_init r q)) as [[(_ & _ & T) _] _].
  fold s in T. pose proof (T h1 i L1 S1 I1). pose proof (T h2 i L2 S2 I2). congruence.
Qed.
