(* C17: the SCTP sender (Model/SctpTx.v) does not depend on the TSN origin: shifting every TSN
   of the state and of the inputs by any delta (mod 2^32) yields the same behaviour, with the
   TSNs of the outputs shifted by the same delta. *)
From Coq Require Import ZArith List Bool Lia ZifyBool.
From AV Require Import Lib.Bytes Gen.Utils Gen.SctpConst Model.SctpTx Proof.SerialP Proof.SctpTxP Proof.SctpTxLiveP Proof.SctpShiftP.
Import ListNotations.
Local Open Scope Z_scope.

Ltac Zify.zify_post_hook ::= Z.to_euclidean_division_equations.

Section TxShift.
Variable d : Z.
Local Notation sh := (SctpShiftP.sh d).
Local Notation r32 := SctpShiftP.r32.

Definition shc (c : sc) : sc :=
  mkSc (sh (c_tsn c)) (c_sid c) (c_sseq c) (c_unord c) (c_first c) (c_last c) (c_book c)
       (c_acked c) (c_abandoned c) (c_retx c) (c_misses c) (c_sent_count c) (c_maxrt c) (c_expiry c).
Definition cok (c : sc) : Prop := r32 (c_tsn c).

Definition sho (o : option Z) : option Z := match o with Some e => Some (sh e) | None => None end.
Definition shf (f : option (Z * list (Z * Z))) := match f with Some (c, l) => Some (sh c, l) | None => None end.

Definition shs (s : tx) : tx :=
  mkTx (cwnd s) (ssthresh s) (flight s) (sho (fr_exit s)) (fr_transmit s) (shf (fwd_chunk s)) (fwd_streams s)
       (sh (last_sacked s)) (sh (adv_ack s)) (map shc (outq s)) (map shc (sentq s)) (pba s) (t3 s) (pending_tx s).

Definition shout (o : out) : out :=
  match o with OData t n => OData (sh t) n | OFwd c l => OFwd (sh c) l | OSchedTransmit => OSchedTransmit end.

Definition shi (i : input) : input :=
  match i with ISendMsg cs => ISendMsg (map shc cs) | ISack cum g now => ISack (sh cum) g now | x => x end.

Lemma shc_flags c a b r m n : shc (set_flags c a b r m n) = set_flags (shc c) a b r m n.
Proof. reflexivity. Qed.

Lemma sh_abandon_chunk fl c sib : abandon_chunk fl (shc c) sib = (fst (abandon_chunk fl c sib), shc (snd (abandon_chunk fl c sib))).
Proof. reflexivity. Qed.

Lemma sh_mark_until stop : (forall c, stop (shc c) = stop c) -> forall l fl,
  mark_until stop fl (map shc l) = (fst (mark_until stop fl l), map shc (snd (mark_until stop fl l))).
Proof.
  intros Hstop. induction l as [|c l IH]; intros fl; cbn [mark_until map]; [reflexivity|].
  rewrite Hstop. destruct (stop c); [reflexivity|].
  rewrite sh_abandon_chunk. cbn [fst]. rewrite IH.
  destruct (mark_until stop _ l) as [fl2 l2]. reflexivity.
Qed.

Lemma sh_pull_unsent : forall oq, pull_unsent (map shc oq) = (map shc (fst (pull_unsent oq)), map shc (snd (pull_unsent oq))).
Proof.
  induction oq as [|c oq IH]; cbn [pull_unsent map]; [reflexivity|]. rewrite sh_abandon_chunk. cbn [snd shc c_last].
  destruct (c_last c); [reflexivity|]. rewrite IH. destruct (pull_unsent oq) as [mv rest]. reflexivity.
Qed.

Lemma sh_should_abandon c now : should_abandon (shc c) now = should_abandon c now.
Proof. reflexivity. Qed.

Lemma sh_mark_side stop cur fl l : (forall c, stop (shc c) = stop c) ->
  mark_side stop (shc cur) fl (map shc l) = (fst (mark_side stop cur fl l), map shc (snd (mark_side stop cur fl l))).
Proof. intros Hstop. unfold mark_side. rewrite Hstop. destruct (stop cur); [reflexivity|now apply sh_mark_until]. Qed.

Lemma sh_pull_side cur post oq :
  pull_side (shc cur) (map shc post) (map shc oq) = (map shc (fst (pull_side cur post oq)), map shc (snd (pull_side cur post oq))).
Proof.
  unfold pull_side. change (c_last (shc cur)) with (c_last cur).
  assert (E : existsb c_last (map shc post) = existsb c_last post) by (induction post as [|c l IH]; cbn; congruence).
  rewrite E. destruct (c_last cur || existsb c_last post); [reflexivity|apply sh_pull_unsent].
Qed.

Lemma sh_maybe_abandon fl pre cur post oq now :
  maybe_abandon fl (map shc pre) (shc cur) (map shc post) (map shc oq) now =
  let '(ab, fl', pre', cur', post', oq') := maybe_abandon fl pre cur post oq now in
  (ab, fl', map shc pre', shc cur', map shc post', map shc oq').
Proof.
  rewrite !maybe_abandon_eq, sh_should_abandon. change (c_abandoned (shc cur)) with (c_abandoned cur).
  destruct (c_abandoned cur || negb (should_abandon cur now)); [reflexivity|].
  rewrite (sh_mark_side c_first) by reflexivity. destruct (mark_side c_first cur fl pre) as [fl1 pre1]. cbn [fst snd].
  rewrite (sh_mark_side c_last) by reflexivity. destruct (mark_side c_last cur fl1 post) as [fl2 post2]. cbn [fst snd].
  rewrite sh_pull_side. destruct (pull_side cur post oq) as [mv rest]. cbn [fst snd]. now rewrite map_app.
Qed.

Lemma sh_pop_abandoned : forall sq adv strs,
  pop_abandoned (map shc sq) (sh adv) strs =
  let '(sq', adv', strs') := pop_abandoned sq adv strs in (map shc sq', sh adv', strs').
Proof.
  induction sq as [|c sq IH]; intros adv strs; cbn [pop_abandoned map]; [reflexivity|].
  cbn [shc c_abandoned c_unord c_sid c_sseq c_tsn]. destruct (c_abandoned c); [|reflexivity].
  rewrite IH. reflexivity.
Qed.

Lemma sh_update_adv s : r32 (last_sacked s) -> r32 (adv_ack s) -> update_adv (shs s) = shs (update_adv s).
Proof.
  intros Hl Ha. unfold update_adv. cbn [shs last_sacked adv_ack fwd_streams sentq].
  rewrite (sh_gte d) by assumption.
  destruct (uint32_gte (last_sacked s) (adv_ack s)); rewrite sh_pop_abandoned;
    destruct (pop_abandoned (sentq s) _ _) as [[sq adv] strs]; destruct strs; reflexivity.
Qed.

Lemma sh_retx_loop : forall sq fl cw frt e t3r,
  retx_loop (map shc sq) fl cw frt e t3r =
  let '(sq', fl', frt', t3r', stop, outs) := retx_loop sq fl cw frt e t3r in (map shc sq', fl', frt', t3r', stop, map shout outs).
Proof.
  induction sq as [|c sq IH]; intros fl cw frt e t3r; cbn [retx_loop map]; [reflexivity|].
  cbn [shc c_retx c_book c_abandoned c_sent_count c_tsn]. destruct (c_retx c).
  - destruct (negb frt && (cw <=? fl)); [reflexivity|].
    rewrite IH. destruct (retx_loop sq (fl + c_book c) cw false false (t3r || e)) as [[[[[sq2 fl2] frt2] t3r2] stop] outs]. reflexivity.
  - rewrite IH. destruct (retx_loop sq fl cw frt false t3r) as [[[[[sq2 fl2] frt2] t3r2] stop] outs]. reflexivity.
Qed.

Lemma sh_new_loop : forall oq fl cw,
  new_loop (map shc oq) fl cw =
  let '(mv, rest, fl', outs) := new_loop oq fl cw in (map shc mv, map shc rest, fl', map shout outs).
Proof.
  induction oq as [|c oq IH]; intros fl cw; cbn [new_loop map]; [reflexivity|].
  destruct (fl <? cw); [|reflexivity]. cbn [shc c_book c_acked c_abandoned c_retx c_misses c_sent_count c_tsn].
  rewrite IH. destruct (new_loop oq (fl + c_book c) cw) as [[[mv rest] fl2] outs]. reflexivity.
Qed.

Lemma sh_new_side stop oq fl cw :
  new_side stop (map shc oq) fl cw =
  let '(mv, rest, fl', outs) := new_side stop oq fl cw in (map shc mv, map shc rest, fl', map shout outs).
Proof. unfold new_side. destruct stop; [reflexivity|apply sh_new_loop]. Qed.

Lemma sh_transmit s : transmit (shs s) = (shs (fst (transmit s)), map shout (snd (transmit s))).
Proof.
  rewrite !transmit_eq.
  assert (Ecw : tx_cw (shs s) = tx_cw s) by (unfold tx_cw; cbn [shs fr_exit flight cwnd]; now destruct (fr_exit s)).
  assert (Efo : fwd_out (shs s) = map shout (fwd_out s)) by (unfold fwd_out; cbn [shs fwd_chunk]; now destruct (fwd_chunk s) as [[c l]|]).
  assert (Eft : fwd_t3 (shs s) = fwd_t3 s) by (unfold fwd_t3; cbn [shs fwd_chunk t3]; now destruct (fwd_chunk s) as [[c l]|]).
  rewrite Ecw, Efo, Eft. cbn [shs sentq flight fr_transmit outq]. rewrite sh_retx_loop.
  destruct (retx_loop (sentq s) (flight s) (tx_cw s) (fr_transmit s) true false) as [[[[[sq fl] frt] t3r] stop] o1].
  rewrite sh_new_side. destruct (new_side stop (outq s) fl (tx_cw s)) as [[[mv rest] fl2] o2].
  rewrite <- !map_app, map_length. reflexivity.
Qed.

Lemma Forall_cok_inv c l : Forall cok (c :: l) -> r32 (c_tsn c) /\ Forall cok l.
Proof. intros H. inversion H; auto. Qed.

Lemma sh_pop_acked : forall sq cum fl dn db, r32 cum -> Forall cok sq ->
  pop_acked (map shc sq) (sh cum) fl dn db = let '(sq', fl', dn', db') := pop_acked sq cum fl dn db in (map shc sq', fl', dn', db').
Proof.
  induction sq as [|c sq IH]; intros cum fl dn db Hc Hs; cbn [pop_acked map]; [reflexivity|].
  apply Forall_cok_inv in Hs as [Hc0 Hs]. cbn [shc c_tsn c_acked c_book]. rewrite (sh_gte d) by assumption.
  destruct (uint32_gte cum (c_tsn c)); [|reflexivity].
  assert (Ed : dec fl (shc c) = dec fl c) by reflexivity.
  destruct (c_acked c); [now apply IH|]. rewrite Ed. now apply IH.
Qed.

Lemma sh_tsn_off cum t : tsn_off (sh cum) (sh t) = tsn_off cum t.
Proof. unfold tsn_off, SctpShiftP.sh, SCTP_TSN_MODULO. rewrite Zminus_mod_idemp_l, Zminus_mod_idemp_r. f_equal. ring. Qed.

Lemma sh_highest_seen : forall gaps cum last_pos cur,
  highest_seen (sh cum) last_pos gaps (sh cur) = sh (highest_seen cum last_pos gaps cur).
Proof.
  induction gaps as [|g gaps IH]; intros cum last_pos cur; cbn [highest_seen]; [reflexivity|].
  destruct (fst g <=? Z.min (snd g) last_pos); [|apply IH].
  assert (E : (sh cum + Z.min (snd g) last_pos) mod SCTP_TSN_MODULO = sh ((cum + Z.min (snd g) last_pos) mod SCTP_TSN_MODULO))
    by (unfold SctpShiftP.sh, SCTP_TSN_MODULO; rewrite !Zplus_mod_idemp_l; f_equal; ring).
  rewrite E. apply IH.
Qed.

Lemma highest_seen_r32 : forall gaps cum last_pos cur, r32 cur -> r32 (highest_seen cum last_pos gaps cur).
Proof.
  induction gaps as [|g gaps IH]; intros cum last_pos cur Hc; cbn [highest_seen]; [exact Hc|].
  apply IH. destruct (fst g <=? _); [|exact Hc]. apply Z.mod_pos_bound. reflexivity.
Qed.

Lemma sh_gap_ack : forall sq cum last_pos hs gaps fl db htna, r32 hs -> Forall cok sq ->
  gap_ack (map shc sq) (sh cum) last_pos (sh hs) gaps fl db (sh htna) =
  let '(sq', fl', db', h') := gap_ack sq cum last_pos hs gaps fl db htna in (map shc sq', fl', db', sh h').
Proof.
  induction sq as [|c sq IH]; intros cum last_pos hs gaps fl db htna Hh Hs; cbn [gap_ack map]; [reflexivity|].
  apply Forall_cok_inv in Hs as [Hc0 Hs]. change (c_tsn (shc c)) with (sh (c_tsn c)). change (c_acked (shc c)) with (c_acked c).
  rewrite (sh_gt d), sh_tsn_off by assumption. destruct (uint32_gt (c_tsn c) hs); [reflexivity|].
  destruct (in_gaps gaps last_pos (tsn_off cum (c_tsn c)) && negb (c_acked c)).
  - change (dec fl (shc c)) with (dec fl c). change (c_book (shc c)) with (c_book c).
    rewrite (IH cum last_pos hs gaps (dec fl c) (db + c_book c) (c_tsn c) Hh Hs).
    destruct (gap_ack sq cum last_pos hs gaps (dec fl c) (db + c_book c) (c_tsn c)) as [[[sq2 fl2] db2] h2]. reflexivity.
  - rewrite (IH cum last_pos hs gaps fl db htna Hh Hs).
    destruct (gap_ack sq cum last_pos hs gaps fl db htna) as [[[sq2 fl2] db2] h2]. reflexivity.
Qed.

Lemma gap_ack_htna_r32 : forall sq cum last_pos hs gaps fl db htna, r32 htna -> Forall cok sq ->
  r32 (snd (gap_ack sq cum last_pos hs gaps fl db htna)).
Proof.
  induction sq as [|c sq IH]; intros cum last_pos hs gaps fl db htna Hh Hs; cbn [gap_ack]; [exact Hh|].
  apply Forall_cok_inv in Hs as [Hc0 Hs]. destruct (uint32_gt (c_tsn c) hs); [exact Hh|].
  destruct (in_gaps gaps last_pos (tsn_off cum (c_tsn c)) && negb (c_acked c)).
  - specialize (IH cum last_pos hs gaps (dec fl c) (db + c_book c) (c_tsn c) Hc0 Hs).
    destruct (gap_ack sq cum last_pos hs gaps (dec fl c) (db + c_book c) (c_tsn c)) as [[[sq2 fl2] db2] h2]. exact IH.
  - specialize (IH cum last_pos hs gaps fl db htna Hh Hs).
    destruct (gap_ack sq cum last_pos hs gaps fl db htna) as [[[sq2 fl2] db2] h2]. exact IH.
Qed.

Lemma Forall_cok_tsns l : Forall cok l <-> Forall r32 (tsns l).
Proof. unfold tsns. rewrite Forall_map. reflexivity. Qed.

Lemma cok_tsns l l' : tsns l' = tsns l -> Forall cok l -> Forall cok l'.
Proof. intros E. rewrite !Forall_cok_tsns, E. auto. Qed.

Lemma cok_split a b a' b' : tsns a' ++ tsns b' = tsns a ++ tsns b -> Forall cok a -> Forall cok b -> Forall cok a' /\ Forall cok b'.
Proof.
  intros E Ha Hb. rewrite !Forall_cok_tsns. apply Forall_app. rewrite E. apply Forall_app. rewrite <- !Forall_cok_tsns. auto.
Qed.

Lemma sh_strike : forall n pre post oq cum last_pos htna gaps fl loss now, r32 htna -> Forall cok post -> Forall cok oq ->
  strike n (map shc pre) (map shc post) (map shc oq) (sh cum) last_pos (sh htna) gaps fl loss now =
  let '(sq', oq', fl', loss') := strike n pre post oq cum last_pos htna gaps fl loss now in (map shc sq', map shc oq', fl', loss').
Proof.
  induction n as [|n IH]; intros pre post oq cum last_pos htna gaps fl loss now Hh Hp Ho; cbn [strike].
  - rewrite map_app, map_rev. reflexivity.
  - destruct post as [|c post]; cbn [map]; [rewrite map_app, map_rev; reflexivity|].
    apply Forall_cok_inv in Hp as [Hc0 Hp]. change (c_tsn (shc c)) with (sh (c_tsn c)). rewrite (sh_gt d), sh_tsn_off by assumption.
    destruct (uint32_gt (c_tsn c) htna); [rewrite (map_app shc (rev pre) (c :: post)), map_rev; reflexivity|].
    (* the zipper of the recursive call is the shifted one up to computation *)
    destruct (negb (in_gaps gaps last_pos (tsn_off cum (c_tsn c)))); [|exact (IH (c :: pre) post oq _ _ _ _ _ _ _ Hh Hp Ho)].
    change (c_misses (shc c)) with (c_misses c).
    destruct (c_misses c + 1 =? 3);
      [|exact (IH (set_flags c (c_acked c) (c_abandoned c) (c_retx c) (c_misses c + 1) (c_sent_count c) :: pre) post oq
                  _ _ _ _ _ _ _ Hh Hp Ho)].
    set (c0 := set_flags c (c_acked c) (c_abandoned c) (c_retx c) 0 (c_sent_count c)).
    change (set_flags (shc c) _ _ _ 0 _) with (shc c0). rewrite sh_maybe_abandon.
    pose proof (maybe_abandon_tsns fl pre c0 post oq now) as Ht.
    destruct (maybe_abandon fl pre c0 post oq now) as [[[[[ab fl1] pre1] c1] post1] oq1]. destruct Ht as (_ & _ & Ht).
    destruct (cok_split _ _ _ _ Ht Hp Ho) as [Hp1 Ho1].
    set (c2 := set_flags c1 false _ _ _ _). exact (IH (c2 :: pre1) post1 oq1 _ _ _ _ _ _ _ Hh Hp1 Ho1).
Qed.

Lemma sh_last_tsn sq d0 : sq <> [] -> last_tsn (map shc sq) d0 = sh (last_tsn sq d0).
Proof.
  intros Hne. unfold last_tsn. rewrite <- map_rev. destruct (rev sq) as [|c r] eqn:E.
  - exfalso. apply Hne. rewrite <- (rev_involutive sq), E. reflexivity.
  - reflexivity.
Qed.

Lemma sh_last_off cum sq : last_off (sh cum) (map shc sq) = last_off cum sq.
Proof.
  destruct sq as [|c sq]; [reflexivity|]. unfold last_off. cbn [map].
  change (shc c :: map shc sq) with (map shc (c :: sq)). rewrite sh_last_tsn by discriminate. apply sh_tsn_off.
Qed.

Lemma last_tsn_r32 sq : Forall cok sq -> r32 (last_tsn sq 0).
Proof.
  intros H. unfold last_tsn. destruct (rev sq) as [|c r] eqn:E; [unfold SctpShiftP.r32; lia|].
  rewrite Forall_forall in H. apply H. apply in_rev. rewrite E. now left.
Qed.

(* a loss is reported only after the struck chunk has been put back: the queue is not empty then *)
Lemma strike_loss : forall n pre post oq cum last_pos htna gaps fl loss now,
  let '(sq', _, _, loss') := strike n pre post oq cum last_pos htna gaps fl loss now in
  (pre <> [] -> sq' <> []) /\ (loss' = true -> loss = true \/ sq' <> []).
Proof.
  assert (Hstop : forall pre post : list sc, pre <> [] -> rev pre ++ post <> []).
  { intros pre post Hne E. apply app_eq_nil in E as [E _]. apply Hne. now rewrite <- (rev_involutive pre), E. }
  induction n as [|n IH]; intros pre post oq cum last_pos htna gaps fl loss now; cbn [strike]; [auto|].
  destruct post as [|c post]; [auto|]. destruct (uint32_gt (c_tsn c) htna); [auto|].
  (* every branch goes on with the visited chunk in front *)
  assert (Hstep : forall c' pre' post' oq' fl' loss2,
            let '(sq', _, _, loss') := strike n (c' :: pre') post' oq' cum last_pos htna gaps fl' loss2 now in
            (pre <> [] -> sq' <> []) /\ (loss' = true -> loss = true \/ sq' <> [])).
  { intros c' pre' post' oq' fl' loss2. specialize (IH (c' :: pre') post' oq' cum last_pos htna gaps fl' loss2 now).
    destruct (strike n (c' :: pre') post' oq' cum last_pos htna gaps fl' loss2 now) as [[[sq' oq''] fl''] loss'].
    destruct IH as [L _]. specialize (L ltac:(discriminate)). auto. }
  destruct (negb (in_gaps gaps last_pos (tsn_off cum (c_tsn c)))); [|apply Hstep].
  destruct (c_misses c + 1 =? 3); [|apply Hstep].
  destruct (maybe_abandon fl pre _ post oq now) as [[[[[ab fl1] pre1] c1] post1] oq1]. apply Hstep.
Qed.

Lemma sh_gap_part oq sq1 fl1 db1 cum gaps now : r32 cum -> Forall cok sq1 -> Forall cok oq ->
  gap_part (map shc oq) (map shc sq1) fl1 db1 (sh cum) gaps now =
  let '(sq3, oq3, fl3, db3, loss) := gap_part oq sq1 fl1 db1 cum gaps now in (map shc sq3, map shc oq3, fl3, db3, loss).
Proof.
  intros Hc Hs Ho. unfold gap_part. destruct gaps as [|g0 gaps']; [reflexivity|].
  set (gaps := g0 :: gaps').
  rewrite sh_last_off. set (last_pos := last_off cum sq1).
  rewrite sh_highest_seen. set (hs := highest_seen cum last_pos gaps cum).
  rewrite sh_gap_ack by (auto; apply highest_seen_r32; exact Hc).
  pose proof (gap_ack_htna_r32 sq1 cum last_pos hs gaps fl1 db1 cum Hc Hs) as Hht.
  pose proof (gap_ack_tsns sq1 cum last_pos hs gaps fl1 db1 cum) as Hgt.
  destruct (gap_ack sq1 cum last_pos hs gaps fl1 db1 cum) as [[[sq2 fl2] db2] htna]. cbn [snd fst] in Hht, Hgt.
  pose proof (sh_strike (length sq2) [] sq2 oq cum last_pos htna gaps fl2 false now Hht (cok_tsns _ _ Hgt Hs) Ho) as Hk.
  change (map shc []) with (@nil sc) in Hk. rewrite map_length, Hk.
  destruct (strike (length sq2) [] sq2 oq cum last_pos htna gaps fl2 false now) as [[[sq3 oq3] fl3] loss]. reflexivity.
Qed.

Lemma gap_part_loss oq sq1 fl1 db1 cum gaps now :
  let '(sq3, _, _, _, loss) := gap_part oq sq1 fl1 db1 cum gaps now in loss = true -> sq3 <> [].
Proof.
  unfold gap_part. destruct gaps as [|g0 gaps']; [discriminate|].
  destruct (gap_ack sq1 cum _ _ (g0 :: gaps') fl1 db1 cum) as [[[sq2 fl2] db2] htna].
  pose proof (strike_loss (length sq2) [] sq2 oq cum (last_off cum sq1) htna (g0 :: gaps') fl2 false now) as Hl.
  destruct (strike (length sq2) [] sq2 oq cum _ htna (g0 :: gaps') fl2 false now) as [[[sq3 oq3] fl3] loss].
  intros L. destruct Hl as [_ Hl]. destruct (Hl L); [discriminate|assumption].
Qed.

Record rok (s : tx) : Prop := mkRok {
  k_q : Forall cok (qs s);
  k_ls : r32 (last_sacked s); k_av : r32 (adv_ack s);
  k_fe : forall e, fr_exit s = Some e -> r32 e;
  k_fw : forall c l, fwd_chunk s = Some (c, l) -> r32 c }.

Lemma k_sq s : rok s -> Forall cok (sentq s).
Proof. intros K. exact (proj1 (proj1 (Forall_app _ _ _) (k_q s K))). Qed.
Lemma k_oq s : rok s -> Forall cok (outq s).
Proof. intros K. exact (proj2 (proj1 (Forall_app _ _ _) (k_q s K))). Qed.

Lemma sh_floor_like a b : r32 a -> r32 b ->
  (if uint32_gt (sh a) (sh b) then sh a else sh b) = sh (if uint32_gt a b then a else b).
Proof. intros Ha Hb. rewrite (sh_gt d) by assumption. destruct (uint32_gt a b); reflexivity. Qed.

Lemma sh_highest_assigned s : rok s ->
  highest_assigned (shs s) = sh (highest_assigned s) /\ r32 (highest_assigned s).
Proof.
  intros K. unfold highest_assigned. cbn [shs sentq adv_ack last_sacked]. rewrite <- map_rev.
  destruct (rev (sentq s)) as [|c r] eqn:E; cbn [map].
  - rewrite sh_floor_like by (apply K). split; [reflexivity|]. destruct (uint32_gt _ _); apply K.
  - split; [reflexivity|]. pose proof (k_sq s K) as H. rewrite Forall_forall in H. apply H. apply in_rev. rewrite E. now left.
Qed.

Lemma sh_sack_ignored s cum : rok s -> r32 cum -> sack_ignored (shs s) (sh cum) = sack_ignored s cum.
Proof.
  intros K Hc. unfold sack_ignored. destruct (sh_highest_assigned s K) as [E Hr]. rewrite E.
  cbn [shs last_sacked]. rewrite (sh_gt d), (sh_gte d) by (auto; apply K). reflexivity.
Qed.

Lemma sh_cc_part s cum done db3 loss sq3 : rok s -> r32 cum -> (loss = true -> sq3 <> []) ->
  cc_part (shs s) (sh cum) done db3 loss (map shc sq3) =
  let '(cw, ss, pb, fre, frt) := cc_part s cum done db3 loss sq3 in (cw, ss, pb, sho fre, frt).
Proof.
  intros K Hc Hl3. unfold cc_part. cbn [shs fr_exit cwnd flight ssthresh pba fr_transmit].
  destruct (fr_exit s) as [e|] eqn:Efe; cbn [sho].
  - rewrite (sh_gte d) by (auto; apply (k_fe s K e Efe)). destruct (uint32_gte cum e); reflexivity.
  - destruct (if negb (done =? 0) && (cwnd s <=? flight s) then _ else _) as [cw1 pb1].
    destruct loss; [|reflexivity]. rewrite sh_last_tsn by (now apply Hl3). reflexivity.
Qed.

Lemma sh_sacked s cum gaps now : rok s -> r32 cum -> sacked (shs s) (sh cum) gaps now = shs (sacked s cum gaps now).
Proof.
  intros K Hc. unfold sacked.
  change (sentq (shs s)) with (map shc (sentq s)). change (outq (shs s)) with (map shc (outq s)). change (flight (shs s)) with (flight s).
  rewrite sh_pop_acked by (auto; apply k_sq, K).
  pose proof (pop_acked_unacked (sentq s) cum (flight s) 0 0) as Eu.
  destruct (pop_acked (sentq s) cum (flight s) 0 0) as [[[sq1 fl1] done] db1]. cbn [fst] in Eu.
  assert (Hs1 : Forall cok sq1) by (rewrite Eu; apply Forall_unacked, k_sq, K).
  rewrite (sh_gap_part _ _ _ _ _ _ _ Hc Hs1 (k_oq s K)).
  pose proof (gap_part_loss (outq s) sq1 fl1 db1 cum gaps now) as Hl3.
  destruct (gap_part (outq s) sq1 fl1 db1 cum gaps now) as [[[[sq3 oq3] fl3] db3] loss].
  rewrite (sh_cc_part s cum done db3 loss sq3 K Hc Hl3). destruct (cc_part s cum done db3 loss sq3) as [[[[cw ss] pb] fre] frt].
  destruct sq3; reflexivity.
Qed.

Theorem sh_receive_sack s cum gaps now : rok s -> r32 cum ->
  receive_sack (shs s) (sh cum) gaps now = (shs (fst (receive_sack s cum gaps now)), map shout (snd (receive_sack s cum gaps now))).
Proof.
  intros K Hc. rewrite !receive_sack_eq, sh_sack_ignored by assumption.
  destruct (sack_ignored s cum); [reflexivity|]. rewrite sh_sacked by assumption.
  destruct (sacked_frame s cum gaps now) as (El & Ea & _). cbv zeta in *.
  rewrite sh_update_adv by (rewrite ?El, ?Ea; auto; apply K). apply sh_transmit.
Qed.

Lemma sh_t3_mark : forall n pre post oq fl now,
  t3_mark n (map shc pre) (map shc post) (map shc oq) fl now =
  let '(sq', oq', fl') := t3_mark n pre post oq fl now in (map shc sq', map shc oq', fl').
Proof.
  induction n as [|n IH]; intros pre post oq fl now; cbn [t3_mark].
  - rewrite map_app, map_rev. reflexivity.
  - destruct post as [|c post]; cbn [map]; [rewrite map_app, map_rev; reflexivity|].
    rewrite sh_maybe_abandon. destruct (maybe_abandon fl pre c post oq now) as [[[[[ab fl1] pre1] c1] post1] oq1].
    destruct ab; [exact (IH (c1 :: pre1) post1 oq1 fl1 now)|].
    exact (IH (set_flags c1 (c_acked c1) (c_abandoned c1) true (c_misses c1) (c_sent_count c1) :: pre1) post1 oq1 fl1 now).
Qed.

Theorem sh_t3_expired s now : r32 (last_sacked s) -> r32 (adv_ack s) ->
  t3_expired (shs s) now = (shs (fst (t3_expired s now)), map shout (snd (t3_expired s now))).
Proof.
  intros Hl Ha. rewrite !t3_expired_eq. destruct (t3_marked_frame s now) as (El & Ea & _).
  assert (E : t3_marked (shs s) now = shs (t3_marked s now)).
  { unfold t3_marked. cbn [shs sentq outq flight]. rewrite map_length.
    change (@nil sc) with (map shc []) at 1. rewrite sh_t3_mark.
    destruct (t3_mark (length (sentq s)) [] (sentq s) (outq s) (flight s) now) as [[sq oq] fl]. reflexivity. }
  rewrite E, sh_update_adv by (rewrite ?El, ?Ea; assumption). reflexivity.
Qed.

Lemma sh_send s cs : send (shs s) (map shc cs) = (shs (fst (send s cs)), map shout (snd (send s cs))).
Proof.
  unfold send.
  assert (E : with_q (shs s) (flight (shs s)) (outq (shs s) ++ map shc cs) (sentq (shs s)) =
              shs (with_q s (flight s) (outq s ++ cs) (sentq s))).
  { change (outq (shs s)) with (map shc (outq s)). rewrite <- map_app. reflexivity. }
  rewrite E. apply sh_transmit.
Qed.

Definition wf_shift (i : input) : Prop :=
  match i with ISack cum _ _ => r32 cum | ISendMsg cs => Forall cok cs | _ => True end.

Theorem sh_step s i : rok s -> wf_shift i ->
  step (shs s) (shi i) = (shs (fst (step s i)), map shout (snd (step s i))).
Proof.
  intros K Hi. destruct i as [cs|cum gaps now|now|]; cbn [step shi].
  - apply sh_send.
  - now apply sh_receive_sack.
  - cbn [shs t3]. destruct (t3 s); [|reflexivity]. apply sh_t3_expired; apply K.
  - rewrite sh_transmit. destruct (transmit s) as [s1 o]. reflexivity.
Qed.

Lemma rok_frame s s' : rok s -> Forall cok (qs s') -> last_sacked s' = last_sacked s -> adv_ack s' = adv_ack s ->
  fr_exit s' = fr_exit s \/ fr_exit s' = None -> fwd_chunk s' = fwd_chunk s \/ fwd_chunk s' = None -> rok s'.
Proof.
  intros K Hq El Ea Hf Hw. constructor; rewrite ?El, ?Ea; try apply K; [exact Hq| |].
  - intros e E. destruct Hf as [Hf|Hf]; rewrite Hf in E; [now apply K|discriminate].
  - intros c l E. destruct Hw as [Hw|Hw]; rewrite Hw in E; [now apply (k_fw s K c l)|discriminate].
Qed.

Lemma rok_transmit s : rok s -> rok (fst (transmit s)).
Proof.
  intros K. destruct (transmit_frame s) as (_ & F1 & F2 & F3 & F4 & _).
  apply (rok_frame s); auto. exact (cok_tsns _ _ (transmit_tsns s) (k_q s K)).
Qed.

Lemma rok_update_adv s : rok s -> rok (update_adv s).
Proof.
  intros K. rewrite update_adv_eq. cbv zeta.
  assert (H0 : r32 (fst (adv_start s))) by (unfold adv_start; destruct (uint32_gte _ _); apply K).
  destruct (pop_abandoned_split (sentq s) (fst (adv_start s)) (snd (adv_start s))) as (pre & Esq & _ & _ & Eadv).
  destruct (pop_abandoned (sentq s) _ _) as [[sq adv] strs]. cbn [fst snd] in *.
  pose proof (k_sq s K) as Hs. rewrite Esq in Hs. apply Forall_app in Hs as [Hpre Hsq].
  assert (Hadv : r32 adv).
  { rewrite Eadv. apply Forall_last; [now apply Forall_cok_tsns|exact H0]. }
  constructor; cbn [sentq outq last_sacked adv_ack fr_exit fwd_chunk];
    [apply Forall_app; split; [exact Hsq|exact (k_oq s K)]|exact (k_ls s K)|exact Hadv|exact (k_fe s K)|].
  intros c l. destruct strs; [intros [= <- _]; exact Hadv|apply K].
Qed.

Lemma rok_sacked s cum gaps now : rok s -> r32 cum -> rok (sacked s cum gaps now).
Proof.
  intros K Hc. pose proof (sacked_tsns s cum gaps now) as Eq. rewrite <- tsns_app in Eq.
  assert (Hq : Forall cok (qs (sacked s cum gaps now))).
  { apply (cok_tsns _ _ Eq), Forall_app. split; [apply Forall_unacked, k_sq, K|apply k_oq, K]. }
  revert Hq. unfold sacked. destruct (pop_acked (sentq s) cum (flight s) 0 0) as [[[sq1 fl1] done] db1].
  destruct (gap_part (outq s) sq1 fl1 db1 cum gaps now) as [[[[sq3 oq3] fl3] db3] loss].
  pose proof (cc_part_exit s cum done db3 loss sq3) as Hf.
  destruct (cc_part s cum done db3 loss sq3) as [[[[cw ss] pb] fre] frt]. cbn [fst snd] in Hf. intros Hq.
  constructor; cbn [last_sacked adv_ack fr_exit fwd_chunk]; [exact Hq|exact Hc|exact (k_av s K)| |exact (k_fw s K)].
  intros e E. destruct (Hf e E) as [E0| ->]; [exact (k_fe s K e E0)|]. apply last_tsn_r32. apply Forall_app in Hq. apply Hq.
Qed.

Theorem rok_step s i : rok s -> wf_shift i -> rok (fst (step s i)).
Proof.
  intros K Hi. destruct i as [cs|cum gaps now|now|]; cbn [step].
  - unfold send. apply rok_transmit, (rok_frame s); auto.
    unfold qs. cbn [with_q sentq outq]. rewrite app_assoc. apply Forall_app. split; [apply K|exact Hi].
  - rewrite receive_sack_eq. destruct (sack_ignored s cum); [exact K|].
    apply rok_transmit, rok_update_adv. now apply rok_sacked.
  - destruct (t3 s); [|exact K]. rewrite t3_expired_eq. cbn [fst].
    destruct (t3_marked_frame s now) as (El & Ea & Ef & Ew).
    assert (K0 : rok (t3_marked s now)) by (apply (rok_frame s); auto; exact (cok_tsns _ _ (t3_marked_tsns s now) (k_q s K))).
    apply (rok_frame _ _ (rok_update_adv _ K0)); auto. apply (k_q _ (rok_update_adv _ K0)).
  - rewrite (surjective_pairing (transmit s)). cbn [fst]. apply (rok_frame _ _ (rok_transmit s K)); auto.
    apply (k_q _ (rok_transmit s K)).
Qed.

Theorem sh_run : forall is s, rok s -> Forall wf_shift is ->
  run (shs s) (map shi is) = (shs (fst (run s is)), map (map shout) (snd (run s is))).
Proof.
  induction is as [|i is IH]; intros s K W; cbn [run map]; [reflexivity|].
  inversion W as [|? ? Wi W']; subst. rewrite (sh_step s i K Wi).
  pose proof (rok_step s i K Wi) as K1. destruct (step s i) as [s1 o]. cbn [fst snd] in *.
  rewrite (IH s1 K1 W'). destruct (run s1 is) as [s2 os]. reflexivity.
Qed.

Lemma rok_init t rw : r32 (tsn_minus_one t) -> rok (init t rw).
Proof. intros H. constructor; [constructor|exact H|exact H|discriminate|discriminate]. Qed.

Lemma sh_minus_one t : sh (tsn_minus_one t) = tsn_minus_one (sh t).
Proof. unfold SctpShiftP.sh, tsn_minus_one, SCTP_TSN_MODULO. rewrite Zplus_mod_idemp_l, Zminus_mod_idemp_l. f_equal. ring. Qed.

Lemma shs_init t rw : shs (init t rw) = init (sh t) rw.
Proof. unfold shs, init. cbn [last_sacked adv_ack]. now rewrite sh_minus_one. Qed.
End TxShift.

(* The sender started at TSN t and fed inputs is behaves exactly like the sender started at
   t + d (mod 2^32) and fed the inputs shifted by d: same congestion state, same flags, same
   decisions; every TSN in state and outputs is shifted by d. *)
Theorem sender_shift_invariant d t rw is :
  SctpShiftP.r32 t -> Forall (wf_shift) is ->
  run (init (SctpShiftP.sh d t) rw) (map (shi d) is) =
  (shs d (fst (run (init t rw) is)), map (map (shout d)) (snd (run (init t rw) is))).
Proof.
  intros Ht W. rewrite <- shs_init. apply sh_run; [|exact W].
  apply rok_init. apply Z.mod_pos_bound. reflexivity.
Qed.
