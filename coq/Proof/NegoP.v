(* Lemmas about the pure negotiation helpers of Model/Nego.v (layer 1 of C03). *)
From Coq Require Import ZArith List Bool Lia.
From AV Require Import Model.Nego.
Import ListNotations.
Local Open Scope Z_scope.

Lemma str_eqb_eq : forall a b, str_eqb a b = true <-> a = b.
Proof.
  induction a as [|x a IH]; destruct b as [|y b]; cbn [str_eqb]; split; intro H; try congruence; try reflexivity.
  - apply andb_true_iff in H. destruct H as [H1 H2]. apply Z.eqb_eq in H1. apply IH in H2. congruence.
  - injection H as -> ->. apply andb_true_iff. split; [apply Z.eqb_refl | apply IH; reflexivity].
Qed.

Lemma str_eqb_refl : forall a, str_eqb a a = true.
Proof. intro a. apply str_eqb_eq. reflexivity. Qed.

Lemma str_eqb_sym : forall a b, str_eqb a b = str_eqb b a.
Proof. intros a b. apply eq_true_iff_eq. rewrite !str_eqb_eq. split; auto. Qed.

Lemma opt_eqb_eq : forall T (f : T -> T -> bool), (forall a b, f a b = true <-> a = b) ->
  forall a b, opt_eqb f a b = true <-> a = b.
Proof. intros T f Hf [a|] [b|]; cbn [opt_eqb]; rewrite ?Hf; split; congruence. Qed.

Lemma fb_eqb_eq : forall a b, fb_eqb a b = true <-> a = b.
Proof.
  intros [a1 a2] [b1 b2]. unfold fb_eqb. cbn [fst snd]. rewrite andb_true_iff, str_eqb_eq, (opt_eqb_eq _ _ str_eqb_eq).
  split; [intros [-> ->]; reflexivity | intro H; injection H; auto].
Qed.

Lemma existsb_eqb_In : forall T (eqb : T -> T -> bool), (forall a b, eqb a b = true <-> a = b) ->
  forall x l, existsb (eqb x) l = true <-> In x l.
Proof.
  intros T eqb Heq x l. rewrite existsb_exists. split.
  - intros [y [Hy E]]. apply Heq in E. subst. exact Hy.
  - intro H. exists x. split; [exact H | apply Heq; reflexivity].
Qed.

Lemma existsb_fb_In : forall x l, existsb (fb_eqb x) l = true <-> In x l.
Proof. exact (existsb_eqb_In fb fb_eqb fb_eqb_eq). Qed.

Lemma existsb_Z_In : forall x l, existsb (Z.eqb x) l = true <-> In x l.
Proof. exact (existsb_eqb_In Z Z.eqb Z.eqb_eq). Qed.

Inductive sublist {T} : list T -> list T -> Prop :=
| sub_nil : forall l, sublist [] l
| sub_skip : forall x l1 l2, sublist l1 l2 -> sublist l1 (x :: l2)
| sub_take : forall x l1 l2, sublist l1 l2 -> sublist (x :: l1) (x :: l2).

Lemma sublist_In : forall T (l1 l2 : list T), sublist l1 l2 -> forall x, In x l1 -> In x l2.
Proof.
  induction 1 as [l|x l1 l2 H IH|x l1 l2 H IH]; intros y Hy.
  - destruct Hy.
  - right. apply IH. exact Hy.
  - destruct Hy as [->|Hy]; [left; reflexivity | right; apply IH; exact Hy].
Qed.

Lemma sublist_refl : forall T (l : list T), sublist l l.
Proof. induction l; constructor; assumption. Qed.

Lemma reverse_involution : forall d, reverse_direction (reverse_direction d) = d.
Proof. intros []; reflexivity. Qed.

Lemma and_direction_total : forall a b, exists d, and_direction (Some a) (Some b) = Ok d.
Proof. intros [] []; eexists; reflexivity. Qed.

Lemma or_direction_total : forall a b, exists d, or_direction (Some a) (Some b) = Ok d.
Proof. intros [] []; eexists; reflexivity. Qed.

Lemma and_direction_none : forall a, and_direction a None = ValueErr.
Proof. intros [a|]; reflexivity. Qed.

Lemma and_direction_comm : forall a b, and_direction a b = and_direction b a.
Proof. intros [a|] [b|]; try reflexivity. unfold and_direction, dir_op. rewrite Z.land_comm. reflexivity. Qed.

Definition sends (d : dir) : bool := match d with SendOnly | SendRecv => true | _ => false end.
Definition recvs (d : dir) : bool := match d with RecvOnly | SendRecv => true | _ => false end.

Lemma and_direction_spec : forall a b d, and_direction (Some a) (Some b) = Ok d ->
  sends d = sends a && sends b /\ recvs d = recvs a && recvs b.
Proof. intros [] [] d H; injection H as <-; split; reflexivity. Qed.

Lemma or_direction_spec : forall a b d, or_direction (Some a) (Some b) = Ok d ->
  sends d = sends a || sends b /\ recvs d = recvs a || recvs b.
Proof. intros [] [] d H; injection H as <-; split; reflexivity. Qed.

Lemma reverse_direction_spec : forall d, sends (reverse_direction d) = recvs d /\ recvs (reverse_direction d) = sends d.
Proof. intros []; split; reflexivity. Qed.

Lemma reverse_and : forall a b d, and_direction (Some a) (Some b) = Ok d ->
  and_direction (Some (reverse_direction a)) (Some (reverse_direction b)) = Ok (reverse_direction d).
Proof. intros [] [] d H; injection H as <-; reflexivity. Qed.

(* the complementary-direction law. Offerer direction a, answerer direction b: the answerer ends with
   and(b, reverse a), the offerer with the reverse of that, which is and(a, reverse b) *)
Lemma complementary_directions : forall a b d,
  and_direction (Some b) (Some (reverse_direction a)) = Ok d ->
  and_direction (Some a) (Some (reverse_direction b)) = Ok (reverse_direction d).
Proof. intros a b d H. apply reverse_and in H. rewrite reverse_involution, and_direction_comm in H. exact H. Qed.

Lemma alloc_from_spec : forall fuel i mids m, alloc_from fuel i mids = Ok m ->
  ~ In m mids /\ i <= m /\ forall j, i <= j < m -> In j mids.
Proof.
  induction fuel as [|f IH]; intros i mids m H; cbn [alloc_from] in H; [discriminate|].
  destruct (existsb (Z.eqb i) mids) eqn:E.
  - apply IH in H. destruct H as [H1 [H2 H3]]. split; [exact H1|]. split; [lia|].
    intros j Hj. destruct (Z.eq_dec j i) as [->|Hne]; [apply existsb_Z_In; exact E | apply H3; lia].
  - injection H as <-. split.
    + intro Hin. apply existsb_Z_In in Hin. congruence.
    + split; [lia | intros j Hj; lia].
Qed.

(* pigeon-hole: the loop `while True` of allocate_mid ends within len(mids)+1 rounds. l holds the mids
   the loop has not passed yet; every round that does not end the loop takes one out *)
Lemma alloc_from_fuel : forall fuel i mids l, (forall x, In x mids -> i <= x -> In x l) -> (length l < fuel)%nat ->
  exists m, alloc_from fuel i mids = Ok m.
Proof.
  induction fuel as [|f IH]; intros i mids l Hl Hlen; [lia|].
  cbn [alloc_from]. destruct (existsb (Z.eqb i) mids) eqn:E; [|eexists; reflexivity].
  apply existsb_Z_In in E. apply (IH (i + 1) mids (remove Z.eq_dec i l)).
  - intros x Hx Hle. apply in_in_remove; [lia | apply Hl; [exact Hx | lia]].
  - pose proof (remove_length_lt Z.eq_dec l i (Hl i E (Z.le_refl i))). lia.
Qed.

Lemma allocate_mid_total : forall mids, exists m, allocate_mid mids = Ok m.
Proof. intro mids. apply (alloc_from_fuel _ 0 mids mids); [auto | lia]. Qed.

Lemma allocate_mid_fresh : forall mids m, allocate_mid mids = Ok m -> ~ In m mids /\ 0 <= m.
Proof. intros mids m H. apply alloc_from_spec in H. tauto. Qed.

Lemma catch_value_true : forall r, catch_value r = Ok true -> r = Ok true.
Proof. intros [b| | |] H; cbn in H; congruence. Qed.

Lemma compatible_same_mime : forall a b, is_codec_compatible a b = Ok true ->
  lower (c_kind a) = lower (c_kind b) /\ lower (c_name a) = lower (c_name b) /\ c_clock a = c_clock b.
Proof.
  intros a b H. unfold is_codec_compatible in H.
  destruct (negb (mime_eqb (c_kind a) (c_name a) (c_kind b) (c_name b)) || negb (c_clock a =? c_clock b)) eqn:E; [discriminate|].
  apply orb_false_iff in E. destruct E as [E1 E2].
  apply negb_false_iff in E1. apply negb_false_iff in E2.
  unfold mime_eqb in E1. apply andb_true_iff in E1. destruct E1 as [E1 E3].
  apply str_eqb_eq in E1. apply str_eqb_eq in E3. apply Z.eqb_eq in E2. auto.
Qed.

Lemma compatible_same_rtx : forall a b, is_codec_compatible a b = Ok true -> is_rtx a = is_rtx b.
Proof. intros a b H. apply compatible_same_mime in H. destruct H as [_ [H _]]. unfold is_rtx. rewrite H. reflexivity. Qed.

Lemma first_compat_some : forall local c l, first_compat local c = Ok (Some l) ->
  In l local /\ is_codec_compatible l c = Ok true.
Proof.
  induction local as [|x local IH]; intros c l H; cbn [first_compat] in H; [discriminate|].
  destruct (is_codec_compatible x c) as [b| | |] eqn:E; cbn [bind] in H; try discriminate.
  destruct b.
  - injection H as <-. split; [left; reflexivity | exact E].
  - apply IH in H. destruct H as [H1 H2]. split; [right; exact H1 | exact H2].
Qed.

(* how an accepted codec r relates to the offered codec c it was accepted for *)
Definition accepted (local : list codec) (r c : codec) : Prop :=
  (is_rtx c = true /\ r = c) \/
  (is_rtx c = false /\ exists l, In l local /\ is_codec_compatible l c = Ok true /\ r = adapt l c).

(* one round of the loop: the offered codec c is dropped; or it is an RTX entry whose apt names an accepted base
   codec of equal clock rate, and is kept as it is; or it is a real codec, answered by the first compatible
   local codec adapted to it, which becomes a base for the RTX entries that follow *)
Lemma fcc_loop_cons : forall local c rs base res, fcc_loop local (c :: rs) base = Ok res ->
  fcc_loop local rs base = Ok res \/
  (exists rest apt b, fcc_loop local rs base = Ok rest /\ res = c :: rest /\ is_rtx c = true /\
     pget (c_params c) key_apt = Some (PInt apt) /\ base_get base apt = Some b /\ c_clock c = c_clock b) \/
  (exists rest l, fcc_loop local rs ((c_pt (adapt l c), adapt l c) :: base) = Ok rest /\ res = adapt l c :: rest /\
     is_rtx c = false /\ In l local /\ is_codec_compatible l c = Ok true).
Proof.
  intros local c rs base res H. cbn [fcc_loop] in H. destruct (is_rtx c).
  - destruct (pget (c_params c) key_apt) as [[apt|s|]|]; try (left; exact H).
    destruct (base_get base apt) as [b|] eqn:Eb; [|left; exact H].
    destruct (fcc_loop local rs base) as [rest| | |] eqn:Erest; try discriminate. cbn [bind] in H.
    destruct (c_clock c =? c_clock b) eqn:Eclk; [|left; exact H].
    right. left. exists rest, apt, b. apply Z.eqb_eq in Eclk. injection H as <-. auto 7.
  - destruct (first_compat local c) as [[l|]| | |] eqn:Efc; try discriminate; cbn [bind] in H; [|left; exact H].
    destruct (fcc_loop local rs ((c_pt (adapt l c), adapt l c) :: base)) as [rest| | |] eqn:Erest; try discriminate.
    right. right. exists rest, l. apply first_compat_some in Efc. destruct Efc. injection H as <-. auto 6.
Qed.

Lemma fcc_loop_sublist : forall local remote base res,
  fcc_loop local remote base = Ok res ->
  exists sel, sublist sel remote /\ Forall2 (accepted local) res sel.
Proof.
  induction remote as [|c rs IH]; intros base res H.
  - injection H as <-. exists []. split; constructor.
  - destruct (fcc_loop_cons _ _ _ _ _ H) as [H1|[[rest [apt [b [H1 [-> [Hr _]]]]]]|[rest [l [H1 [-> [Hr [Hl Hc]]]]]]]];
      destruct (IH _ _ H1) as [sel [S1 S2]].
    + exists sel. split; [apply sub_skip; exact S1 | exact S2].
    + exists (c :: sel). split; [apply sub_take; exact S1|]. constructor; [left; auto | exact S2].
    + exists (c :: sel). split; [apply sub_take; exact S1|]. constructor; [right; eauto 6 | exact S2].
Qed.

Lemma find_common_codecs_sublist : forall local remote res,
  find_common_codecs local remote = Ok res ->
  exists sel, sublist sel remote /\ Forall2 (accepted local) res sel.
Proof. intros local remote res H. exact (fcc_loop_sublist local remote [] res H). Qed.

Lemma accepted_facts : forall local r c, accepted local r c ->
  lower (c_kind r) = lower (c_kind c) /\ lower (c_name r) = lower (c_name c) /\ c_clock r = c_clock c /\
  is_rtx r = is_rtx c /\
  (dynamic_pt (c_pt c) = true -> c_pt r = c_pt c) /\
  (forall f, In f (c_fb r) -> In f (c_fb c)).
Proof.
  intros local r c [[H1 ->]|[H1 [l [Hin [Hc ->]]]]].
  - repeat split; auto.
  - pose proof (compatible_same_mime _ _ Hc) as [Hk [Hn Hcl]].
    split; [exact Hk|]. split; [exact Hn|]. split; [exact Hcl|].
    split; [unfold is_rtx; cbn [adapt c_name]; rewrite Hn; reflexivity|].
    split.
    + intro Hd. cbn [adapt c_pt]. rewrite Hd. reflexivity.
    + intros f Hf. cbn [adapt c_fb] in Hf. apply filter_In in Hf. destruct Hf as [_ Hf]. apply existsb_fb_In in Hf. exact Hf.
Qed.

Lemma accepted_not_rtx_local : forall local r c, accepted local r c -> is_rtx c = false ->
  exists l, In l local /\ c_kind r = c_kind l /\ c_name r = c_name l /\ c_clock r = c_clock l /\
            c_channels r = c_channels l /\ c_params r = c_params l /\
            c_pt r = (if dynamic_pt (c_pt c) then c_pt c else c_pt l) /\
            (forall f, In f (c_fb r) -> In f (c_fb l)).
Proof.
  intros local r c [[H1 _]|[_ [l [Hin [Hc ->]]]]] Hn; [congruence|].
  exists l. cbn [adapt c_kind c_name c_clock c_pt c_fb c_channels c_params]. repeat split; auto.
  intros f Hf. apply filter_In in Hf. tauto.
Qed.

(* RTX is kept only behind an accepted base codec it names, with equal clock rate *)
Definition rtx_based (pre : list codec) (r : codec) : Prop :=
  exists apt b, pget (c_params r) key_apt = Some (PInt apt) /\ In b pre /\ is_rtx b = false /\
                c_pt b = apt /\ c_clock b = c_clock r.

(* every RTX entry of res rests, in the sense of B, on the codecs of pre and the earlier ones of res *)
Fixpoint rtx_after (B : list codec -> codec -> Prop) (pre res : list codec) : Prop :=
  match res with
  | [] => True
  | x :: rest => (is_rtx x = true -> B pre x) /\ rtx_after B (pre ++ [x]) rest
  end.

Lemma rtx_after_split : forall B p1 pre r p2, rtx_after B pre (p1 ++ r :: p2) -> is_rtx r = true -> B (pre ++ p1) r.
Proof.
  intro B. induction p1 as [|x p1 IH]; intros pre r p2 [H1 H2] Hr.
  - rewrite app_nil_r. exact (H1 Hr).
  - specialize (IH _ _ _ H2 Hr). rewrite <- app_assoc in IH. exact IH.
Qed.

(* the base map holds real codecs accepted so far, under their payload types *)
Definition base_in (base : list (Z * codec)) (pre : list codec) : Prop :=
  forall apt b, base_get base apt = Some b -> In b pre /\ is_rtx b = false /\ c_pt b = apt.

Lemma base_in_snoc : forall base pre x, base_in base pre -> base_in base (pre ++ [x]).
Proof. intros base pre x H apt b Hb. destruct (H apt b Hb) as [Q1 Q2]. split; [apply in_or_app; left; exact Q1 | exact Q2]. Qed.

Lemma fcc_loop_rtx : forall local remote base res, fcc_loop local remote base = Ok res ->
  forall pre, base_in base pre -> rtx_after rtx_based pre res.
Proof.
  induction remote as [|c rs IH]; intros base res H pre Hbase.
  - injection H as <-. exact I.
  - destruct (fcc_loop_cons _ _ _ _ _ H) as [H1|[[rest [apt [b [H1 [-> [Hc [Hapt [Hb Hclk]]]]]]]]|[rest [l [H1 [-> [Hc [_ Hcomp]]]]]]]].
    + exact (IH _ _ H1 pre Hbase).
    + split; [|exact (IH _ _ H1 _ (base_in_snoc _ _ c Hbase))].
      intros _. exists apt, b. destruct (Hbase apt b Hb) as [Hin [Hnr Hpt]]. auto.
    + assert (Hx : is_rtx (adapt l c) = false) by (rewrite <- Hc; exact (compatible_same_rtx _ _ Hcomp)).
      split; [intro; congruence|]. apply (IH _ _ H1). intros a0 b0 Hb0. cbn [base_get] in Hb0.
      destruct (a0 =? c_pt (adapt l c)) eqn:Ea; [|exact (base_in_snoc _ _ _ Hbase a0 b0 Hb0)].
      injection Hb0 as <-. apply Z.eqb_eq in Ea. split; [apply in_or_app; right; left; reflexivity | auto].
Qed.

Lemma find_common_codecs_rtx : forall local remote res,
  find_common_codecs local remote = Ok res ->
  forall p1 r p2, res = p1 ++ r :: p2 -> is_rtx r = true ->
  exists apt b, pget (c_params r) key_apt = Some (PInt apt) /\ In b p1 /\ is_rtx b = false /\
                c_pt b = apt /\ c_clock b = c_clock r.
Proof.
  intros local remote res H p1 r p2 -> Hr. apply (rtx_after_split rtx_based p1 [] r p2); [|exact Hr].
  apply (fcc_loop_rtx _ _ _ _ H). intros apt b Hb. discriminate.
Qed.

Lemma common_ext_in : forall local remote x, In x (find_common_header_extensions local remote) ->
  In x remote /\ exists l, In l local /\ x_uri l = x_uri x.
Proof.
  intros local remote x H. unfold find_common_header_extensions in H.
  apply in_flat_map in H. destruct H as [rx [Hrx H]]. apply in_map_iff in H. destruct H as [lx [E H]]. subst x.
  apply filter_In in H. destruct H as [Hl Hu]. apply str_eqb_eq in Hu. split; [exact Hrx | exists lx; auto].
Qed.

Lemma common_ext_complete : forall local remote x l, In x remote -> In l local -> x_uri l = x_uri x ->
  In x (find_common_header_extensions local remote).
Proof.
  intros local remote x l Hx Hl Hu. unfold find_common_header_extensions. apply in_flat_map.
  exists x. split; [exact Hx|]. apply in_map_iff. exists l. split; [reflexivity|].
  apply filter_In. split; [exact Hl | apply str_eqb_eq; exact Hu].
Qed.

Lemma filter_uri_absent : forall local u, ~ In u (map x_uri local) -> filter (fun lx => str_eqb (x_uri lx) u) local = [].
Proof.
  induction local as [|l local IH]; intros u Hn; cbn [filter]; [reflexivity|]. cbn [map In] in Hn.
  destruct (str_eqb (x_uri l) u) eqn:E; [apply str_eqb_eq in E; tauto | apply IH; tauto].
Qed.

Lemma filter_uri_at_most_one : forall local u,
  NoDup (map x_uri local) -> (length (filter (fun lx => str_eqb (x_uri lx) u) local) <= 1)%nat.
Proof.
  induction local as [|l local IH]; intros u Hnd; cbn [filter length]; [lia|].
  inversion Hnd as [|? ? Hnin Hnd']; subst.
  destruct (str_eqb (x_uri l) u) eqn:E; [|apply IH; exact Hnd'].
  apply str_eqb_eq in E. subst u. rewrite (filter_uri_absent _ _ Hnin). cbn [length]. lia.
Qed.

Lemma common_ext_sublist : forall local remote, NoDup (map x_uri local) ->
  sublist (find_common_header_extensions local remote) remote.
Proof.
  intros local remote Hnd. induction remote as [|rx remote IH]; [constructor|].
  unfold find_common_header_extensions in *. cbn [flat_map].
  pose proof (filter_uri_at_most_one local (x_uri rx) Hnd) as Hlen.
  destruct (filter (fun lx => str_eqb (x_uri lx) (x_uri rx)) local) as [|y [|z ys]]; cbn [map app length] in *.
  - apply sub_skip. exact IH.
  - apply sub_take. exact IH.
  - lia.
Qed.

Lemma find_pref_some : forall codecs p c, find_pref codecs p = Some c -> In c codecs /\ cap_matches c p = true.
Proof.
  induction codecs as [|x codecs IH]; intros p c H; cbn [find_pref] in H; [discriminate|].
  destruct (cap_matches x p) eqn:E.
  - injection H as <-. split; [left; reflexivity | exact E].
  - apply IH in H. destruct H. split; [right; assumption | assumption].
Qed.

Lemma find_rtx_some : forall rtxs pt r, find_rtx rtxs pt = Ok (Some r) ->
  In r rtxs /\ pget (c_params r) key_apt = Some (PInt pt).
Proof.
  induction rtxs as [|x rtxs IH]; intros pt r H; cbn [find_rtx] in H; [discriminate|].
  destruct (pget (c_params x) key_apt) as [v|] eqn:E; [|discriminate].
  destruct (pval_eqb v (PInt pt)) eqn:Ev.
  - injection H as <-. split; [left; reflexivity|]. rewrite E. f_equal.
    destruct v as [z|s|]; cbn [pval_eqb] in Ev; try discriminate. apply Z.eqb_eq in Ev. subst. reflexivity.
  - apply IH in H. destruct H. split; [right; assumption | assumption].
Qed.

(* the shape of the result: one block per satisfiable real preference, in preference order; a block is
   the matching codec, optionally followed by the RTX codec whose apt is that codec's payload type *)
Inductive pref_blocks (codecs : list codec) : list cap -> list codec -> Prop :=
| pb_nil : pref_blocks codecs [] []
| pb_skip : forall p ps res, pref_blocks codecs ps res -> pref_blocks codecs (p :: ps) res
| pb_one : forall p ps c res, cap_is_rtx p = false -> In c codecs -> cap_matches c p = true ->
                              pref_blocks codecs ps res -> pref_blocks codecs (p :: ps) (c :: res)
| pb_two : forall p ps c r res, cap_is_rtx p = false -> In c codecs -> cap_matches c p = true ->
                                In r codecs -> is_rtx r = true -> pget (c_params r) key_apt = Some (PInt (c_pt c)) ->
                                pref_blocks codecs ps res -> pref_blocks codecs (p :: ps) (c :: r :: res).

Lemma fpc_loop_blocks : forall codecs en prefs res,
  fpc_loop codecs (filter is_rtx codecs) en prefs = Ok res -> pref_blocks codecs prefs res.
Proof.
  intros codecs en. induction prefs as [|p ps IH]; intros res H; cbn [fpc_loop] in H.
  - injection H as <-. constructor.
  - destruct (cap_is_rtx p) eqn:Ep; [apply pb_skip; apply IH; exact H|].
    destruct (find_pref codecs p) as [c|] eqn:Ef; [|apply pb_skip; apply IH; exact H].
    apply find_pref_some in Ef. destruct Ef as [Hin Hm].
    destruct (if en then find_rtx (filter is_rtx codecs) (c_pt c) else Ok None) as [o| | |] eqn:Er; cbn [bind] in H; try discriminate.
    destruct (fpc_loop codecs (filter is_rtx codecs) en ps) as [rest| | |] eqn:Erest; cbn [bind] in H; try discriminate.
    injection H as <-. specialize (IH rest eq_refl).
    destruct o as [r|]; cbn [opt_list app].
    + destruct en; [|discriminate]. apply find_rtx_some in Er. destruct Er as [Hr Hapt].
      apply filter_In in Hr. destruct Hr as [Hr1 Hr2]. apply pb_two; auto.
    + apply pb_one; auto.
Qed.

Lemma filter_preferred_empty : forall codecs, filter_preferred_codecs codecs [] = Ok codecs.
Proof. reflexivity. Qed.

Lemma filter_preferred_blocks : forall codecs prefs res, prefs <> [] ->
  filter_preferred_codecs codecs prefs = Ok res -> pref_blocks codecs prefs res.
Proof.
  intros codecs prefs res Hne H. destruct prefs as [|p ps]; [congruence|].
  unfold filter_preferred_codecs in H. eapply fpc_loop_blocks. exact H.
Qed.

Lemma pref_blocks_incl : forall codecs prefs res, pref_blocks codecs prefs res -> incl res codecs.
Proof.
  induction 1; intros x Hx.
  - destruct Hx.
  - auto.
  - destruct Hx as [->|Hx]; auto.
  - destruct Hx as [->|[->|Hx]]; auto.
Qed.

Lemma filter_preferred_incl : forall codecs prefs res, filter_preferred_codecs codecs prefs = Ok res -> incl res codecs.
Proof.
  intros codecs prefs res H. destruct prefs as [|p ps].
  - injection H as <-. apply incl_refl.
  - apply (pref_blocks_incl codecs (p :: ps)). apply filter_preferred_blocks; [discriminate | exact H].
Qed.

Lemma cap_matches_not_rtx : forall c p, cap_matches c p = true -> cap_is_rtx p = false -> is_rtx c = false.
Proof.
  intros c p H Hp. unfold cap_matches, mime_eqb in H. apply andb_true_iff in H. destruct H as [H _].
  apply andb_true_iff in H. destruct H as [_ H]. apply str_eqb_eq in H. unfold is_rtx, cap_is_rtx in *. rewrite H. exact Hp.
Qed.

Definition rtx_named (pre : list codec) (r : codec) : Prop :=
  exists b, In b pre /\ is_rtx b = false /\ pget (c_params r) key_apt = Some (PInt (c_pt b)).

Lemma pref_blocks_rtx : forall codecs prefs res, pref_blocks codecs prefs res -> forall pre, rtx_after rtx_named pre res.
Proof.
  induction 1 as [|p ps res Hb IH|p ps c res Hp Hin Hm Hb IH|p ps c r res Hp Hin Hm Hr Hrtx Hapt Hb IH]; intro pre.
  - exact I.
  - apply IH.
  - pose proof (cap_matches_not_rtx _ _ Hm Hp) as Hc. split; [congruence | apply IH].
  - pose proof (cap_matches_not_rtx _ _ Hm Hp) as Hc. split; [congruence|]. split; [|apply IH].
    intros _. exists c. split; [apply in_or_app; right; left; reflexivity | auto].
Qed.
