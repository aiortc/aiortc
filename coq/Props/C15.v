(* C15 -- receive-side bandwidth estimation never fails and stays within its
   safety bounds.  Property theorems only; proofs live in Proof/RateCounterP.v,
   Proof/AimdP.v, Proof/RbeP.v, Proof/RbeRembP.v, Proof/RbeEncP.v,
   Proof/RbeMeasP.v and Proof/RbeAnyClockP.v.

   PARTIAL with respect to the property text: the floating-point delay filter
   (InterArrival burst test, OveruseEstimator, OveruseDetector) is not
   modelled.  Its verdict is an input of every call (a_verdict) and all
   theorems hold for EVERY verdict sequence; that the filter itself never
   raises is not proved (exercised by the oracle only).  The float-rounded
   quantities of AimdRateControl are inputs (a_fl) constrained by fl_admissible
   (|2 c15 - 3 T| <= 2, |100 d85 - 85 T| <= 51, increments >= 0); every check run
   records the actual values from the implementation and asserts these ranges.
   C15_never_raises therefore covers the integer skeleton only. *)
From Coq Require Import ZArith List Bool Lia.
From AV Require Import Lib.Bytes Model.RateCounter Model.Aimd Model.Rbe
  Proof.RateCounterP Proof.AimdP Proof.RbeP Proof.RbeRembP Proof.RbeEncP Proof.RbeMeasP Proof.RbeAnyClockP.
Import ListNotations.
Local Open Scope Z_scope.

(* RateCounter (any window size W > 0, any scale): after ANY history of add /
   rate / reset calls whose clock never goes back, nothing raises (no IndexError,
   no fuel shortage of the erase loop), and a rate(now) call leaves in _total
   exactly (count, sum) of the samples with now - W < t <= now added since the
   last reset, and returns None or round(scale * sum / active_window) where the
   active window starts at max(first sample, now - W + 1)   (rate_spec). *)
Theorem C15_window_exact : forall w sc ops now,
  0 < w -> nondecreasing (times ops ++ [now]) ->
  exists s outs s',
    RateCounter.run (init w sc) ops = (s, outs, 0) /\
    rate s now = Ok (s', rate_spec w sc (samples_after [] ops) now) /\
    (samples_after [] ops <> [] ->
     total s' = (cnt (in_window w now) (samples_after [] ops), vsum (in_window w now) (samples_after [] ops))).
Proof. exact window_exact. Qed.
Print Assumptions C15_window_exact.

(* AimdRateControl.update never raises: for ALL call histories -- any verdicts,
   any throughputs (also None, negative), any clock, any float-rounded inputs.
   (On the unrepaired tree packets_per_frame is 0 at current_bitrate = 0 and
   the model would return Crash; see C15_example_zero_bitrate_additive.) *)
Theorem C15_aimd_never_raises : forall cs, exists s outs, Aimd.run aimd_init cs = (s, outs, 0).
Proof. exact aimd_never_raises. Qed.
Print Assumptions C15_aimd_never_raises.

(* RemoteBitrateEstimator.add (integer skeleton: SSRC dictionary, RateCounter,
   update cadence, AimdRateControl.update) never raises: for ALL arrival
   histories with non-decreasing arrival times -- any send-time stamps, any
   payload sizes, any SSRCs, any detector verdicts, any float-rounded inputs.
   NOT covered: exceptions inside the float code of InterArrival /
   OveruseEstimator / OveruseDetector (the property is partial there). *)
Theorem C15_never_raises : forall l,
  nondecreasing (map a_time l) -> exists s outs, Rbe.run rbe_init l = (s, outs, 0).
Proof. intros l _. exact (rbe_never_raises_any_clock l). Qed.
Print Assumptions C15_never_raises.

(* Every estimate e returned along ANY such history (payload sizes >= 0,
   admissible float inputs): e >= 0; if e exceeds the previous estimate
   (initially 30000000) then e <= int(1.5 T) + 10000 and 2 e <= 3 T + 20002; in a
   call whose verdict is OVERUSING e <= round(0.85 T) and 100 e <= 85 T + 51,
   with T the measured incoming bitrate the rate controller was given
   (latest_estimated_throughput after the call); the SSRC list returned is the
   list of (the 255 newest) distinct SSRCs passed so far in first-seen order.
   (bounds_ok is False as soon as a call raises.) *)
Theorem C15_bounds : forall l,
  nondecreasing (map a_time l) -> Forall (fun a => 0 <= a_size a) l -> fl_admissible rbe_init l ->
  bounds_ok rbe_init 30000000 [] l.
Proof. exact rbe_bounds. Qed.
Print Assumptions C15_bounds.

(* Every estimate 0 <= e < 2^81 with at most 255 SSRCs (32 bit each) is encoded
   by pack_remb_fci without raising, and unpack_remb_fci returns the same SSRCs
   and the value m * 2^k <= e < (m + 1) * 2^k (exact below 2^18). *)
Theorem C15_remb_encodable : forall e ss,
  0 <= e < 2 ^ 81 -> (length ss <= 255)%nat -> Forall (fun x => 0 <= x < 4294967296) ss ->
  exists bs m k,
    pack_remb_fci e ss = Ok bs /\ bytes_ok bs /\ length bs = (8 + 4 * length ss)%nat /\
    unpack_remb_fci bs = Ok (m * 2 ^ k, ss) /\
    0 <= m < 2 ^ 18 /\ 0 <= k <= 63 /\ m * 2 ^ k <= e < (m + 1) * 2 ^ k /\ (e < 2 ^ 18 -> m = e /\ k = 0).
Proof. exact remb_roundtrip. Qed.
Print Assumptions C15_remb_encodable.

(* ... and along ANY run (as in C15_bounds, SSRCs 32 bit, less than 2^60 payload
   bytes in total) every returned (estimate, SSRC list) satisfies these
   premises: 0 <= e < 2^81, at most 255 SSRCs, so the receiver's
   pack_remb_fci call never raises and the REMB decodes to a value <= e. *)
Theorem C15_estimates_encodable : forall l,
  nondecreasing (map a_time l) -> Forall (fun a => 0 <= a_size a) l -> fl_admissible rbe_init l ->
  Forall (fun a => 0 <= a_ssrc a < 4294967296) l -> sum_sizes l <= 2 ^ 60 ->
  exists s outs, Rbe.run rbe_init l = (s, outs, 0) /\ Forall encodable_out outs.
Proof. exact rbe_estimates_encodable. Qed.
Print Assumptions C15_estimates_encodable.

(* T+  The measurement handed to the rate controller is taken over exactly the
   packets of the last 1000 ms of the WHOLE history: the reset() calls inside
   RemoteBitrateEstimator.add never discard a packet that is still inside the
   window.  After every add() call: _total of the rate counter = (count, sum) of
   all packets with now - 1000 < t <= now, and latest_estimated_throughput is
   unchanged or round(8000 * window bytes / active) with 2 <= active <= 1000 ms.
   (measure_ok is False as soon as a call raises.) *)
Theorem C15_measurement_exact : forall l,
  nondecreasing (map a_time l) -> measure_ok rbe_init [] l.
Proof. exact rbe_measure_exact. Qed.
Print Assumptions C15_measurement_exact.

(* T+  Arrival times come from the wall clock, which can step backwards or jump:
   even then nothing raises -- no hypothesis on the history at all (any clock,
   any sizes including negative, any verdicts, any float inputs). *)
Theorem C15_never_raises_any_clock : forall l, exists s outs, Rbe.run rbe_init l = (s, outs, 0).
Proof. exact rbe_never_raises_any_clock. Qed.
Print Assumptions C15_never_raises_any_clock.

Theorem C15_counter_never_raises_any_clock : forall w sc ops,
  0 < w -> exists s outs, RateCounter.run (init w sc) ops = (s, outs, 0).
Proof. exact counter_never_raises. Qed.
Print Assumptions C15_counter_never_raises_any_clock.

(* ---- non-vacuity ------------------------------------------------------------- *)
(* A concrete history satisfying the hypotheses of C15_bounds in which estimates
   are produced: an OVERUSING verdict on the first packet cuts the initial
   30000000 to round(0.85 * 30000000); after 3.1 s of measurements the
   controller is initialised from the measured 19200 bit/s; 600 ms later a
   NORMAL verdict raises the estimate additively to 21600 <= 1.5 * 19200 + 10000. *)
Definition example_history : list arrival :=
  [mkArrival 0 0 100 7 Overusing (mkFl 45000000 25500000 0 0 false);
   mkArrival 600 157286 1200 9 Normal (mkFl 0 0 0 0 false);
   mkArrival 1500 393216 1200 9 Normal (mkFl 0 0 0 0 false);
   mkArrival 2400 629146 1200 9 Normal (mkFl 0 0 0 0 false);
   mkArrival 3300 865075 1200 9 Normal (mkFl 0 0 0 0 false);
   mkArrival 3700 969933 1200 7 Normal (mkFl 28800 16320 0 0 false);
   mkArrival 4300 1127219 1200 7 Normal (mkFl 28800 16320 0 2400 false)].

Example C15_example_bounds :
  nondecreasing (map a_time example_history) /\
  Forall (fun a => 0 <= a_size a) example_history /\
  fl_admissible rbe_init example_history /\
  map fst (snd (fst (Rbe.run rbe_init example_history))) =
    [Some (25500000, [7]); None; None; None; None; Some (19200, [7; 9]); Some (21600, [7; 9])].
Proof.
  (* read off the run over the samples; the run of the model itself walks the
     1000 buckets at every call *)
  destruct (run_view example_history rbe_init view_init views_init VInv_init) as [Eo Hf]; [cbn; lia|].
  remember (view_run view_init example_history) as tr eqn:Et. vm_compute in Et. subst tr.
  split; [cbn; lia|]. split; [repeat constructor; cbn; lia|]. split; [apply Hf|rewrite Eo; reflexivity].
  repeat first [apply Forall2_cons | apply Forall2_nil].
  1, 6, 7: intros _; unfold fl_in_range; cbn; lia.
  all: intros H; now elim H.
Qed.

(* The repaired line of _near_max_rate_increase is load-bearing: the state
   current_bitrate = 0 with near_max set is reachable (over-use while nothing
   is received), the next NORMAL verdict takes the additive branch, and without
   the `max(1, ..)` packets_per_frame would be ceil(0 / 288000) = 0, the divisor
   of the next statement (ZeroDivisionError on the unrepaired tree). *)
Example C15_example_zero_bitrate_additive :
  let cs := [mkCall Overusing (Some 1000) 0 (mkFl 1500 850 0 0 false);
             mkCall Overusing (Some 0) 3001 (mkFl 0 0 0 0 false)] in
  let s := fst (fst (Aimd.run aimd_init cs)) in
  cb s = 0 /\ near_max s = true /\ ceil_div (cb s) 288000 = 0 /\ packets_per_frame (cb s) = 1 /\
  exists s', update s Normal (Some 0) 3100 (mkFl 0 0 1000 0 false) = Ok (s', Some 0) /\ near_max s' = true.
Proof. vm_compute. repeat split. eexists. split; reflexivity. Qed.
