(* C18 -- RTCP receiver reports carry correct loss / jitter figures that always fit the wire.
   Property theorems only; proofs live in Proof/Stats*.v.  The model (Model/Stats.v) is the
   REPAIRED code (extended highest sequence number in the report; 32-bit modular transit
   difference in StreamStatistics.add).

   Vocabulary (Proof/StatsRunP.v, Proof/StatsMainP.v):
     evs            any history of events of one receiver: RTP packets of the stream (sequence
                    number, RTP timestamp, arrival clock -- all arbitrary integers, the sequence
                    number a 16-bit wire value), sender reports, report instants, probes
     pkts evs       its RTP packets in arrival order;  count = how many
     fwd h          sum of the forward serial steps ((seq - highest) mod 2^16, each in 1..32767)
                    taken by the highest sequence number; first_seq h + fwd h is the extended
                    highest sequence number
     inorder h      the packets that advanced the highest sequence number
     jitter_ref h   RFC 3550 A.8 recurrence (scaled by 16) over successive packets of inorder h
     upto_last_report evs   the prefix of evs ending with its last report instant
     report_after S rs pre now   the output of a report instant that follows history `pre` *)
From Coq Require Import ZArith List Bool Lia.
From AV Require Import Lib.Bytes Gen.Utils Gen.RtpConst Model.Stats
  Proof.StatsP Proof.StatsRunP Proof.StatsMainP Proof.StatsShiftP Proof.StatsOldP.
Import ListNotations.
Local Open Scope Z_scope.

(* report_after really is what `run` emits at that position of any longer history *)
Theorem C18_report_position : forall S rs pre now post,
  nth_error (snd (run S rs recv0 (pre ++ Report now :: post))) (length pre) =
  Some (report_after S rs pre now).
Proof.
  intros S rs pre now post. rewrite run_app_snd, run_cons_snd.
  rewrite nth_error_app2 by (rewrite run_length; lia).
  rewrite run_length, Nat.sub_diag. reflexivity.
Qed.
Print Assumptions C18_report_position.

(* ---- counts ---------------------------------------------------------------------- *)
(* After ANY history with at least one packet: packets_received counts the adds exactly;
   cycles / max_seq are the high / low part of (first + forward steps); packets_expected
   and packets_lost are as in RFC 3550 A.3. *)
Theorem C18_counts : forall S rs evs,
  Forall ev_ok evs -> pkts evs <> [] ->
  let h := pkts evs in
  exists s,
    stream (fst (run S rs recv0 evs)) = Some s /\
    packets_received s = count h /\
    base_seq s = Some (first_seq h) /\
    max_seq s = Some ((first_seq h + fwd h) mod 65536) /\
    cycles s = ((first_seq h + fwd h) / 65536) * 65536 /\
    packets_expected s = Ok (fwd h + 1) /\
    packets_lost s = Ok (rtp_clamp_packets_lost (fwd h + 1 - count h)) /\
    0 <= fwd h.
Proof. exact counts_main. Qed.
Print Assumptions C18_counts.

(* What "forward steps" means: if the wire numbers are the low 16 bits of the sender's true
   (unbounded) numbers n0 :: ns, and every arrival lies within half the sequence space of
   the highest true number so far (any loss, duplication, reordering, any number of wraps),
   then fwd = highest true number - first true number. *)
Theorem C18_counts_unwrapped : forall h n0 ns,
  map p_seq h = map (fun n => n mod 65536) (n0 :: ns) -> within_window n0 ns ->
  fwd h = max_from n0 ns - n0 /\
  first_seq h = n0 mod 65536 /\
  first_seq h + fwd h = n0 mod 65536 + (max_from n0 ns - n0).
Proof.
  intros h n0 ns Hmap Hw. destruct h as [|p l]; [discriminate|].
  injection Hmap as Hp Hmap. cbn [fwd first_seq]. rewrite Hp.
  destruct (fwd_inorder_unwrapped ns l n0 Hmap Hw) as [H _]. rewrite H. repeat split; ring.
Qed.
Print Assumptions C18_counts_unwrapped.

(* ... and under the same hypothesis the "in-order" packets (those the jitter recurrence
   runs over) are exactly the packets whose true number exceeds every earlier one. *)
Theorem C18_inorder_unwrapped : forall h n0 ns,
  map p_seq h = map (fun n => n mod 65536) (n0 :: ns) -> within_window n0 ns ->
  inorder h = match h with [] => [] | p :: l => p :: newmax_from n0 ns l end.
Proof.
  intros h n0 ns Hmap Hw. destruct h as [|p l]; [reflexivity|].
  injection Hmap as Hp Hmap. cbn [inorder]. rewrite Hp.
  destruct (fwd_inorder_unwrapped ns l n0 Hmap Hw) as [_ H]. rewrite H. reflexivity.
Qed.
Print Assumptions C18_inorder_unwrapped.

(* ---- the whole report --------------------------------------------------------------- *)
(* Every report generated after a history `pre` carries exactly the reference figures:
   fraction lost of the interval since the previous report (RFC 3550 A.3), clamped
   cumulative loss, extended highest sequence number (mod 2^32), jitter, LSR = middle 32
   bits of the NTP time of the last SR from that source, DLSR = delay since it in 1/65536 s
   (0 outside (0, 65536 s)); and the bytes are the packing of exactly these fields. *)
Theorem C18_report : forall S rs pre now,
  Forall ev_ok pre -> pkts pre <> [] ->
  report_after S rs pre now =
  OReport (report_ref S pre now) (rr_bytes rs (report_ref S pre now)).
Proof. exact report_main. Qed.
Print Assumptions C18_report.

(* no packet yet: nothing is sent and nothing changes *)
Theorem C18_report_none : forall S rs pre now,
  pkts pre = [] -> Forall ev_ok pre ->
  step S rs (fst (run S rs recv0 pre)) (Report now) = (fst (run S rs recv0 pre), ONoReport).
Proof. exact report_none. Qed.
Print Assumptions C18_report_none.

(* ---- fraction lost ------------------------------------------------------------------ *)
Theorem C18_fraction : forall S rs pre now,
  Forall ev_ok pre -> pkts pre <> [] ->
  let h := pkts pre in
  let hp := pkts (upto_last_report pre) in
  exists i b,
    report_after S rs pre now = OReport i b /\
    ri_fraction i = rfc_fraction (expected_ref h - expected_ref hp) (count h - count hp) /\
    0 <= ri_fraction i <= 255 /\
    (exists post, pre = upto_last_report pre ++ post /\ has_report post = false).
Proof.
  intros S rs pre now Hok Hne. cbv zeta.
  exists (report_ref S pre now), (rr_bytes rs (report_ref S pre now)).
  split; [exact (report_main S rs pre now Hok Hne)|]. split; [reflexivity|].
  split; [|exact (upto_prefix pre)].
  exact (fraction_ref_range S pre now Hok Hne).
Qed.
Print Assumptions C18_fraction.

(* ---- jitter --------------------------------------------------------------------------- *)
(* _jitter_q4 follows J += |D| - ((J + 8) >> 4) over successive in-order packets that begin
   a new timestamp (jitter_ref / jit / new_jit), |D| = dist32 D being the distance of
   (arrival difference - timestamp difference) to the nearest multiple of 2^32. *)
Theorem C18_jitter_recurrence : forall S rs evs,
  Forall ev_ok evs -> pkts evs <> [] ->
  exists s, stream (fst (run S rs recv0 evs)) = Some s /\
            jitter_q4 s = jitter_ref (pkts evs) /\ jitter s = jitter_ref (pkts evs) / 16 /\
            0 <= jitter_q4 s <= 34359738368.
Proof.
  intros S rs evs Hok Hne.
  destruct (state_main S rs evs Hok Hne) as (s & Hs & la & lt & He & _ & _ & HJ & _).
  exists s. split; [exact Hs|]. split; [exact HJ|]. split; [|exact (e_J He)].
  unfold jitter. rewrite shiftr_4, HJ. reflexivity.
Qed.
Print Assumptions C18_jitter_recurrence.

(* the code's `& 0xFFFFFFFF` / fold at 2^31 is that distance; it ignores timestamp and clock
   wrap-around (any multiple of 2^32) and equals |D| whenever |D| <= 2^31 *)
Theorem C18_transit_diff : forall x,
  transit_diff x = dist32 x /\
  (forall k, transit_diff (x + k * 4294967296) = transit_diff x) /\
  (Z.abs x <= 2147483648 -> transit_diff x = Z.abs x) /\
  0 <= transit_diff x <= 2147483648.
Proof.
  intros x. split; [apply transit_diff_dist|]. split; [intros k; apply transit_diff_periodic|].
  split; [apply transit_diff_small|apply transit_diff_range].
Qed.
Print Assumptions C18_transit_diff.

(* ---- every field fits, nothing raises --------------------------------------------------- *)
(* For ALL histories: no event raises (no ORtpCrash / OReportCrash / probe crash), every
   report's fields are within their wire ranges and its serialisation succeeds with 32
   well-formed bytes.  S and rs are 32-bit SSRCs. *)
Theorem C18_fits : forall S rs evs,
  0 <= S < 4294967296 -> 0 <= rs < 4294967296 -> Forall ev_ok evs ->
  Forall out_fits (snd (run S rs recv0 evs)) /\
  length (snd (run S rs recv0 evs)) = length evs.
Proof.
  intros S rs evs HS Hrs Hok. split; [exact (proj2 (run_good S rs evs recv0 HS Hrs good_recv0 Hok))|apply run_length].
Qed.
Print Assumptions C18_fits.

(* ---- T+: the figures never run backwards ----------------------------------------------- *)
(* As the history grows, the extended highest sequence number (before its reduction mod
   2^32), hence packets_expected, and the packet count never decrease: consecutive reports
   cannot show the highest sequence number jumping back (what the unrepaired code did at
   every wrap). *)
Theorem C18_monotone : forall pre more,
  pkts pre <> [] ->
  first_seq (pkts (pre ++ more)) = first_seq (pkts pre) /\
  fwd (pkts pre) <= fwd (pkts (pre ++ more)) /\
  count (pkts pre) <= count (pkts (pre ++ more)).
Proof.
  intros pre more Hne. rewrite pkts_app. destruct (pkts pre) as [|p l]; [contradiction|].
  cbn [app first_seq fwd]. split; [reflexivity|]. rewrite fwd_from_app.
  pose proof (fwd_from_nonneg (pkts more) (top_from (p_seq p) l)).
  unfold count. cbn [length]. rewrite app_length. lia.
Qed.
Print Assumptions C18_monotone.

(* ---- the unrepaired code violated the statement (witnesses replayed on the implementation,
   corpus/C18.jsonl) ------------------------------------------------------------------------ *)
Theorem C18_highest_refuted_before_fix :
  exists evs i b,
    Forall ev_ok evs /\
    last (snd (run_old 1234 1 recv0 (evs ++ [Report 0]))) ONone = OReport i b /\
    ri_highest i = 1 /\ (first_seq (pkts evs) + fwd (pkts evs)) mod 4294967296 = 65537.
Proof.
  exists [Rtp 65534 0 0; Rtp 65535 160 160; Rtp 0 320 320; Rtp 1 480 480].
  eexists. eexists. split; [apply ev_okb_ok; reflexivity|].
  split; [vm_compute; reflexivity|]. split; reflexivity.
Qed.
Print Assumptions C18_highest_refuted_before_fix.

Theorem C18_jitter_refuted_before_fix :
  exists evs s,
    Forall ev_ok evs /\ stream (fst (run_old 1234 1 recv0 evs)) = Some s /\
    jitter s = 268435456 /\ jitter_ref (pkts evs) / 16 = 0.
Proof.
  exists [Rtp 0 (4294967296 - 160) 0; Rtp 1 0 160]. eexists.
  split; [apply ev_okb_ok; reflexivity|]. split; [vm_compute; reflexivity|]. split; reflexivity.
Qed.
Print Assumptions C18_jitter_refuted_before_fix.

Theorem C18_fits_refuted_before_fix :
  exists evs i,
    Forall ev_ok evs /\
    last (snd (run_old 1234 1 recv0 (evs ++ [Report 0]))) ONone = OReport i Crash /\
    4294967296 <= ri_jitter i.
Proof.
  exists (jumpy 40 0). eexists.
  split; [apply ev_okb_ok; vm_compute; reflexivity|].
  split; [vm_compute; reflexivity|]. vm_compute. discriminate.
Qed.
Print Assumptions C18_fits_refuted_before_fix.

(* ---- C17: independence of the sequence-number and timestamp origins ---------------------- *)
(* Add any d16 (mod 2^16) to every sequence number and any d32 (mod 2^32) to every RTP
   timestamp of a history: every probe and every report is unchanged -- packets_received,
   packets_expected, packets_lost, fraction_lost, jitter, lsr, dlsr -- except that the
   extended highest sequence number moves with the first sequence number:
   highest' = (highest + (first' - first)) mod 2^32, first' = uint16_add first d16. *)
Theorem stats_shift_invariant : forall S rs d16 d32 evs,
  Forall ev_ok2 evs ->
  Forall2 (out_shifted (shift_of d16 (pkts evs)))
          (snd (run S rs recv0 evs))
          (snd (run S rs recv0 (map (shift_ev d16 d32) evs))).
Proof. exact shift_main. Qed.
Print Assumptions stats_shift_invariant.

(* ... where that move is d16 mod 2^16, or that minus 2^16 when the first number wraps *)
Theorem stats_shift_amount : forall d16 h,
  Forall (fun p => 0 <= p_seq p < 65536) h -> h <> [] ->
  shift_of d16 h = d16 mod 65536 \/ shift_of d16 h = d16 mod 65536 - 65536.
Proof. exact shift_of_values. Qed.
Print Assumptions stats_shift_amount.

(* ---- non-vacuity ---------------------------------------------------------------------- *)
(* sequence wrap (65533, 65534, [65535 and 0 lost], 1, 2, duplicate 1), timestamp wrap,
   a report in between (so the fraction is that of the second interval: 1 lost of 4
   expected = 64/256), an SR 32 * 2^-20 s before the report *)
Example C18_example :
  let pre := [Rtp 65533 4294967136 1000; Rtp 65534 0 1180; Report 5; Rtp 1 480 1640;
              SrEv 7 (12345 * 65536) 1048576; Rtp 2 640 1800; Rtp 1 480 1801] in
  Forall ev_ok pre /\ pkts pre <> [] /\
  report_after 7 9 pre (1048576 + 32) =
  OReport (mkInfo 7 64 1 65538 2 12345 2)
          (Ok [129; 201; 0; 7; 0; 0; 0; 9; 0; 0; 0; 7; 64; 0; 0; 1; 0; 1; 0; 2; 0; 0; 0; 2;
               0; 0; 48; 57; 0; 0; 0; 2]).
Proof.
  cbv zeta. split; [repeat constructor; cbn; auto with zarith|]. split; [discriminate|].
  vm_compute. reflexivity.
Qed.

(* the window hypothesis of C18_counts_unwrapped is satisfiable across a wrap *)
Example C18_example_window :
  within_window 65533 [65534; 65537; 65538; 65537] /\
  map p_seq [(65533, 0, 0); (65534, 0, 0); (1, 0, 0); (2, 0, 0); (1, 0, 0)] =
  map (fun n => n mod 65536) [65533; 65534; 65537; 65538; 65537].
Proof. split; [cbn; lia|reflexivity]. Qed.
