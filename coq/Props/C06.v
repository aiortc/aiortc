(* C06 -- partially reliable channels drop only whole messages and never disturb others.
   Property theorems only; proofs in Proof/SctpC01P.v, SctpSendP.v, SctpPrP.v, SctpTxP.v, SctpFwdFrameP.v. *)
From Coq Require Import ZArith List Bool.
From AV Require Import Lib.Bytes Gen.Utils Gen.SctpConst Model.SctpRecv Model.SctpSend Model.SctpTx
  Proof.SctpRecvP Proof.SctpC01P Proof.SctpSendP Proof.SctpTxP Proof.SctpPrP Proof.SctpFwdFrameP.
From AV Require Proof.SctpDupP Proof.SctpOrderP Proof.SctpOnceFwdP Proof.SctpRestartP.
Import ListNotations.
Local Open Scope Z_scope.

(* 1. Safety under abandonment.  For ANY mix of messages on any streams (reliable or
   partially reliable, ordered or not), ANY initial TSN, and ANY receiver event list
   made of DATA chunks the sender produced (any loss / duplication / reordering) AND
   arbitrary FORWARD-TSN chunks (any cumulative TSN, any stream list -- including
   stale, duplicated and reordered ones): whatever is delivered is (stream, ppid, data)
   of a sent message -- never a splice, a fragment or a message of another stream. *)
Theorem C06_safety : forall t0 msgs base es,
  in32 t0 ->
  Forall (fun m => o_data m <> []) msgs ->
  Z.of_nat (total_frags msgs) <= SCTP_TSN_MODULO ->
  Forall (ev_ok (concat (send_msgs (mkS t0 []) msgs))) es ->
  Forall (fun o => Forall (fun d => exists m, In m msgs /\ d = (o_sid m, o_ppid m, o_data m)) (out_msgs o))
         (snd (rrun (rinit base) es)).
Proof. exact sent_delivered. Qed.
Print Assumptions C06_safety.

(* 2. Only whole messages are dropped.  When _maybe_abandon decides to abandon a chunk
   it marks every fragment of that message: backwards to the fragment carrying B,
   forwards to the fragment carrying E, and -- when the message is larger than the
   window and its tail has not been sent yet -- the unsent fragments as well (all of
   them are moved behind the sent queue as abandoned, so FORWARD-TSN covers them). *)
Theorem C06_whole_message_abandoned : forall fl pre cur post oq now,
  c_abandoned cur = false -> should_abandon cur now = true ->
  let '(ab, _, pre', cur', post', oq') := maybe_abandon fl pre cur post oq now in
  ab = true /\ c_abandoned cur' = true /\ c_retx cur' = false /\
  (c_first cur = false -> abandoned_until c_first pre') /\
  (c_last cur = false ->
     abandoned_until c_last post' /\
     (has c_last post = false -> Forall (fun c => c_abandoned c = true) post')).
Proof. exact maybe_abandon_whole_message. Qed.
Print Assumptions C06_whole_message_abandoned.

(* 3. In every reachable sender state _transmit hands only chunks that are not
   abandoned to the network: an abandoned message is never (re)sent, so it cannot
   reappear at the receiver as an orphan fragment. *)
Theorem C06_abandoned_never_sent : forall tsn rwnd ins, Forall wf_input ins ->
  let s := fst (run (init tsn rwnd) ins) in
  forall o t n, In o (snd (transmit s)) -> o = OData t n ->
  exists c, In c (sentq s ++ outq s) /\ c_tsn c = t /\ c_abandoned c = false.
Proof.
  intros tsn rwnd ins H s. apply transmit_never_sends_abandoned.
  exact (run_inv ins (init tsn rwnd) (inv_init tsn rwnd) H).
Qed.
Print Assumptions C06_abandoned_never_sent.

(* 4. Abandonment keeps the sender's no-deadlock invariant (C02): the flight size stays
   exact when sibling fragments leave the flight, and T3 stays armed while anything is
   outstanding -- the sender side of "never blocks other channels". *)
Theorem C06_sender_not_blocked : forall s i, inv s -> wf_input i -> inv (fst (step s i)).
Proof. exact step_inv. Qed.
Print Assumptions C06_sender_not_blocked.

(* 5. Non-interference at the receiver.  Processing ANY FORWARD-TSN (any cumulative TSN, any
   stream list) in ANY receiver state leaves every stream it does not name alone except for
   pruning: the expected stream sequence number is unchanged, nothing of that stream is
   delivered, and its reassembly queue afterwards is either identical or the old queue minus a
   prefix of chunks whose TSNs are at or below the FORWARD-TSN's own cumulative TSN -- chunks
   the sender has declared abandoned or knows to be acknowledged.  A queue whose chunks all
   lie beyond that TSN is untouched.  (The defect repaired in /repo -- pruning up to the
   consolidated cumulative TSN -- is exactly a violation of the last clause.) *)
Theorem C06_forward_tsn_other_streams : forall s cum strs id, ~ named strs id ->
  let s' := fst (receive_forward_tsn s cum strs) in
  let st := get_stream (streams s) id in
  let st' := get_stream (streams s') id in
  sseq_expected st' = sseq_expected st /\
  (reasm st' = reasm st \/ reasm st' = fst (prune_chunks (reasm st) cum)) /\
  (forall x, In x (reasm st) -> ~ In x (reasm st') -> uint32_gte cum (tsn x) = true).
Proof. exact forward_tsn_other_streams. Qed.
Print Assumptions C06_forward_tsn_other_streams.

(* 6. Duplicate-free under abandonment.  Same event lists as theorem 1 (sent DATA chunks in any
   order with repetitions and omissions, ARBITRARY FORWARD-TSN chunks in between), TSNs inside the
   window: the deliveries are the messages of pairwise different chunk runs, each the fragment
   list of one sent message -- whatever is delivered on a partially reliable channel is an
   exact copy of a sent message and no sent message is delivered twice. *)
Theorem C06_duplicate_free : forall base N t0 msgs es,
  SctpDupP.r32 base -> 0 <= N < 2147483648 -> in32 t0 ->
  Forall (fun m => o_data m <> []) msgs -> Z.of_nat (total_frags msgs) <= SCTP_TSN_MODULO ->
  Forall (SctpOnceFwdP.ev_in base N) es ->
  (forall c, In (EvData c) es -> In c (concat (send_msgs (mkS t0 []) msgs))) ->
  exists Ds : list (list (list chunk)),
    map out_msgs (snd (rrun (rinit base) es)) = map (map SctpOrderP.msgf) Ds /\
    NoDup (concat Ds) /\ Forall (fun f => In f (send_msgs (mkS t0 []) msgs)) (concat Ds).
Proof. intros base N t0 msgs es Hb HN. exact (SctpOnceFwdP.at_most_once_all base N Hb HN t0 msgs es). Qed.
Print Assumptions C06_duplicate_free.

(* 7. In order under abandonment.  M = the fragment lists of the messages sent on one ORDERED
   stream, in sending order (hypothesis wfM: the sender's numbering, discharged for the sender model
   by C01's sender lemma).  For every list of events on that stream that are admissible at the
   delivery point they meet -- a chunk of a message at or beyond it, not yet queued; or a
   FORWARD-TSN naming the stream as the sender builds it: the sequence number of a message near the
   delivery point, a cumulative TSN at or above every chunk of every message up to that one --
   the delivered messages are the messages of a STRICTLY INCREASING list of message indices: what
   a partially reliable ordered channel delivers comes out in sending order, nothing twice, with
   gaps exactly where messages were abandoned.  Covers stale complete messages that FORWARD-TSN
   lets through, queues blocked by orphan fragments until pruned, and the re-poll after pruning. *)
Module OP := AV.Proof.SctpOrderP.
Theorem C06_in_order_with_forward_tsn : forall base N, SctpDupP.r32 base -> 0 <= N < 2147483648 ->
  forall (M : list (list chunk)) (o : nat -> Z) (s0 : Z),
  (forall j f, nth_error M j = Some f ->
     f <> [] /\ o j + Z.of_nat (length f) <= o (S j) /\ forall i c, nth_error f i = Some c -> OP.chunk_ok base N o s0 j i f c) ->
  forall evs k Q, OP.qinv base M k Q -> OP.sokF base N M s0 k Q evs ->
  exists J, OP.srunF Q (OP.ssn s0 k) evs = Some (OP.msgs_of M J) /\ OP.incr_from k J.
Proof. exact OP.fwd_ordered. Qed.
Print Assumptions C06_in_order_with_forward_tsn.

(* PARTIAL.  Non-interference ("abandoning on channel A never loses / reorders / blocks
   channel B") and recovery ("messages sent after the network heals are delivered")
   are end-to-end statements over two endpoints and a network; they are NOT theorems.
   They are checked on the real code by the two-endpoint simulator (mixed channel
   kinds, faults, healing, a probe message on every channel).  Six stall / loss
   mechanisms found that way were genuine defects and are repaired in /repo (prune
   bound, FORWARD-TSN retransmission, unsent sibling fragments, sequence number moved
   backwards, delivery blocked by pruned fragments, flight-size drift). *)

(* 8. A gap does not hide the next message on an unordered channel.  When the reassembly scan
   (pop_messages) meets a TSN gap inside a run of unordered fragments - fragments of a message the
   sender has abandoned, say - it gives that run up and looks at the very chunk at which the gap
   showed again: if that chunk is a complete unordered message it is delivered in the same pass,
   whatever was collected before it, whatever follows.  (Before the repair in /repo the chunk was
   skipped: such a message stayed in the queue, and after the FORWARD-TSN had pruned the fragments
   nothing looked at the queue again - `messages sent afterwards are delivered again` failed.) *)
Theorem C06_message_after_gap_delivered : forall kept r e c rest seq,
  (tsn c =? e) = false -> unordered c = true -> first c = true -> last c = true ->
  exists l s ms,
    pop_loop kept (Some (r, e, false)) (c :: rest) seq = (l, s, (sid c, ppid c, join_data [c]) :: ms).
Proof. exact AV.Proof.SctpRestartP.message_after_gap_delivered. Qed.
Print Assumptions C06_message_after_gap_delivered.

Example C06_example :
  let c t f l := mkSc t 1 0 false f l 1200 false false false 0 1 (Some 0) None in
  let '(ab, _, pre', cur', post', oq') :=
      maybe_abandon 3600 [c 10 true false] (c 11 false false) [c 12 false false]
                    [mkSc 13 1 0 false false true 500 false false false 0 0 (Some 0) None] 0 in
  ab = true /\ map c_abandoned pre' = [true] /\ c_abandoned cur' = true /\
  map c_abandoned post' = [true; true] /\ map c_tsn post' = [12; 13] /\ oq' = [].
Proof. vm_compute. repeat split. Qed.
