(* C19 -- close() always completes, is idempotent and leaves nothing running.
   Property theorems only; proofs live in Proof/CloseP.v, CloseInvP.v, CloseThmP.v, CloseRefP.v.

   The theorems are about Model/Close.v, an interleaving model of the close()/stop() handshake
   LOGIC (see the header of that file).  `step true` is the repaired code, `step false` the code
   before the C19 repairs.  A schedule is any list of events; `run` fails on an event that is not
   enabled, so "for all evs with run ... = Some c'" quantifies over ALL scheduler choice sequences,
   external events, extra close() calls and failing background tasks, for any number of
   transceivers and transports.  What the model does not contain (asyncio itself, threads, the
   native libraries) is only observed on the real objects by the harness: the property is PARTIAL. *)
From Coq Require Import ZArith List Bool Arith Lia.
From AV Require Import Lib.Sx Model.Close Proof.CloseP Proof.CloseInvP Proof.CloseThmP Proof.CloseQuiesceP
  Proof.CloseRefP.
Import ListNotations.

(* ---- termination.  `helps c e` = e is a step of the close() coroutine or of the task / library
   call it is currently blocked on.  Every such step strictly decreases `measure`, no other step
   increases it ... *)
Theorem C19_measure_decreases : forall c e c',
  reachable c -> c_closed c <> FNone -> step true c e = Some c' ->
  measure c' <= measure c /\ (helps c e = true -> measure c' < measure c).
Proof.
  intros c e c' HR Hn HS. apply step_measure; [exact HS|exact Hn|].
  exact (inv_wfA _ (proj1 (reachable_Inv _ HR))).
Qed.
Print Assumptions C19_measure_decreases.

(* ... while close() has not returned one of them is always enabled (no deadlock; no hypothesis
   that background tasks do not fail) ... *)
Theorem C19_progress : forall c,
  reachable c -> c_main c <> None -> exists e c', helps c e = true /\ step true c e = Some c'.
Proof. intros c HR. apply progress. exact (reachable_Inv _ HR). Qed.
Print Assumptions C19_progress.

(* ... hence under EVERY schedule close() has returned once the parties it waits for have taken
   `measure c` steps (the only fairness needed: a runnable party eventually runs) ... *)
Theorem C19_terminates : forall c evs c',
  reachable c -> c_closed c <> FNone -> run true c evs = Some c' ->
  measure c <= helped true c evs -> c_closed c' = FDone.
Proof. intros c evs c' HR. apply terminates. exact (reachable_Inv _ HR). Qed.
Print Assumptions C19_terminates.

(* ... and that number is linear in the number of transceivers. *)
Theorem C19_measure_bound : forall c id c',
  c_closed c = FNone -> step true c (ECloseCall id) = Some c' ->
  measure c' <= 20 * length (c_trx c) + 10.
Proof.
  intros c id c' Hc HS. cbn [step] in HS. rewrite Hc in HS. injection HS as <-. apply measure_close_call.
Qed.
Print Assumptions C19_measure_bound.

(* ---- idempotence: a close() issued during or after another one changes nothing but the list of
   callers waiting for the same future, and once that future is done it returns at once, giving
   back the very same configuration. *)
Theorem C19_idempotent : forall c id,
  c_closed c <> FNone ->
  let c1 := mkCfg (c_trx c) (c_tps c) (c_sctp c) (c_closed c) (c_main c) (id :: c_waiters c) (c_sig_closed c) in
  step true c (ECloseCall id) = Some c1 /\
  (reachable c -> c_closed c = FDone -> ~ In id (c_waiters c) -> step true c1 (ECloseRet id) = Some c).
Proof.
  intros c id Hn. split; [apply second_close_call; exact Hn|].
  intros HR Hd Hni. apply second_close_ret; auto. apply done_main; [exact (proj1 (reachable_Inv _ HR))|exact Hd].
Qed.
Print Assumptions C19_idempotent.

(* ---- once close() has returned: signalling state closed (the ICE / connection states are
   computed from __isClosed), every sender and receiver task is none or exited, no decoder thread,
   every receiver's track has been told to end, the SCTP transport is closed with all channels
   closed and no timer armed, every ICE transport is closed with its monitor finished and aioice's
   consent task gone ... *)
Theorem C19_nothing_running : forall c,
  reachable c -> c_closed c = FDone ->
  c_sig_closed c = true /\
  (forall i x, nth_error (c_trx c) i = Some x ->
     squiet (t_s x) /\ rquiet (t_r x) /\
     forall tp, nth_error (c_tps c) (t_tp x) = Some tp -> iquiet tp) /\
  (forall sc, c_sctp c = Some sc ->
     scquiet sc /\ forall tp, nth_error (c_tps c) (sc_tp sc) = Some tp -> iquiet tp).
Proof. intros c HR. apply closed_quiet. exact (reachable_Inv _ HR). Qed.
Print Assumptions C19_nothing_running.

(* ... and it stays so under every later schedule. *)
Theorem C19_stays_closed : forall c evs c',
  reachable c -> c_closed c = FDone -> run true c evs = Some c' ->
  c_closed c' = FDone /\ reachable c'.
Proof.
  intros c evs c' HR Hd Hrun. split; [eapply run_closed_done; eauto|].
  destruct HR as (tps & ntp & sc & evs0 & Hw & H0). exists tps, ntp, sc, (evs0 ++ evs). split; [exact Hw|].
  exact (run_app _ _ _ _ _ _ H0 Hrun).
Qed.
Print Assumptions C19_stays_closed.

(* ---- what close() does not wait for: the DTLS pump it has cancelled, a DTLS handshake or an ICE
   start() that was in flight.  On a transport whose ICE side is shut down (C19_nothing_running:
   every transport of the connection once close() has returned) no step of anybody increases
   `tresid`, every step of those parties strictly decreases it, whatever is still live has an
   enabled step, and tresid = 0 means nothing is live: they wind down within tresid <= 5 steps
   ("the loop has run the already-cancelled tasks once"). *)
Theorem C19_transports_wind_down : forall c t tp,
  nth_error (c_tps c) t = Some tp -> iquiet tp ->
  (forall e c', step true c e = Some c' ->
     exists tp', nth_error (c_tps c') t = Some tp' /\ iquiet tp' /\ tresid tp' <= tresid tp /\
                 (tp_event t e = true -> tresid tp' < tresid tp)) /\
  (tp_live tp -> exists e c' tp', step true c e = Some c' /\ nth_error (c_tps c') t = Some tp' /\
                                  tresid tp' < tresid tp) /\
  (tresid tp = 0 -> ~ tp_live tp /\ d_state tp <> DNew) /\ tresid tp <= 5.
Proof.
  intros c t tp Ht Hq. split; [|split; [|split]].
  - intros e c' HS. exact (tresid_step _ _ _ _ _ HS Ht Hq).
  - apply tresid_enabled; auto.
  - apply tresid_zero.
  - unfold tresid. destruct (d_state tp), (d_pump tp), (i_starting tp); cbn; lia.
Qed.
Print Assumptions C19_transports_wind_down.

(* ---- the code before the repairs violates the property (witnesses evaluated in the model; each is
   replayed on the implementation by the harness when run against the unrepaired tree). *)

(* design item 19: _run_rtcp leaving its loop through an unexpected exception does not set the
   exited event; stop(), hence close(), waits for ever, under every continuation *)
Theorem C19_failed_task_hangs_refuted :
  exists c, run false c0 hang_prefix = Some c /\ (c_main c <> None) /\
            forall evs c', run false c evs = Some c' -> c_closed c' <> FDone.
Proof. exact failed_task_hangs. Qed.
Print Assumptions C19_failed_task_hangs_refuted.

(* __connect starting sender / receiver after close() has gone past them: tasks and the decoder
   thread are left running after close() returned *)
Theorem C19_connect_race_refuted :
  exists c x, run false c0 race_trace = Some c /\ c_closed c = FDone /\
              nth_error (c_trx c) 0 = Some x /\
              s_rtcp (t_s x) = TRunning /\ r_rtcp (t_r x) = TRunning /\ r_dec (t_r x) = true.
Proof. exact connect_race_leaks. Qed.
Print Assumptions C19_connect_race_refuted.

(* a negotiation call overtaken by close() sets the signalling state again *)
Theorem C19_nego_race_refuted :
  exists c, run false c0 (close_all ++ [ENegoSig]) = Some c /\ c_closed c = FDone /\ c_sig_closed c = false.
Proof. exact nego_race_reopens. Qed.
Print Assumptions C19_nego_race_refuted.

(* the track of a receiver that never started is not ended *)
Theorem C19_unstarted_track_refuted :
  exists c x, run false c0 close_all = Some c /\ c_closed c = FDone /\
              nth_error (c_trx c) 0 = Some x /\ r_eos (t_r x) = false.
Proof. exact unstarted_track_not_ended. Qed.
Print Assumptions C19_unstarted_track_refuted.

(* RTCIceTransport.start() finishing after stop(): state leaves "closed", consent task keeps running;
   and a start() still expecting remote candidates can never return *)
Theorem C19_ice_start_race_refuted :
  (exists c tp, run false c0 (ice_race ++ [EIceStartRet 0 true]) = Some c /\ c_closed c = FDone /\
                nth_error (c_tps c) 0 = Some tp /\ i_consent tp = true /\ i_state tp = ICompleted) /\
  (exists c tp, run false c0 ice_race = Some c /\ c_closed c = FDone /\
                nth_error (c_tps c) 0 = Some tp /\ i_starting tp = true /\
                step false c (EIceStartRet 0 false) = None).
Proof. split; [exact ice_start_race_leaks|exact ice_start_never_returns]. Qed.
Print Assumptions C19_ice_start_race_refuted.

(* the repaired model rejects each of these histories at the offending step *)
Theorem C19_repaired_rejects :
  run true c0 hang_prefix = None /\ run true c0 race_trace = None /\
  run true c0 (close_all ++ [ENegoSig]) = None.
Proof. split; [exact hang_prefix_rejected|split; [exact connect_race_rejected|exact nego_race_rejected]]. Qed.
Print Assumptions C19_repaired_rejects.

(* ---- non-vacuity: a connected transceiver whose RTCP task failed, closed to the end; the
   hypotheses of the theorems above hold along the way *)
Example C19_example_full_close :
  exists c, run true c0 hang_prefix_fixed = Some c /\ c_closed c = FDone /\ reachable c /\
            measure c = 0.
Proof.
  destruct failed_task_fixed as (c & HR & Hd). exists c. split; [exact HR|]. split; [exact Hd|]. split.
  - exists [0], 1, None, hang_prefix_fixed. split; [|exact HR]. split; [repeat constructor|exact I].
  - revert HR. vm_compute. intros H; injection H as <-. reflexivity.
Qed.

Example C19_example_closing_state :
  exists c c', run true c0 (firstn 10 hang_prefix_fixed) = Some c /\ c_closed c = FPending /\
            (c_main c <> None) /\ measure c = 17 /\
            helps c (EStopRet (ORecvStop 0)) = true /\
            step true c (EStopRet (ORecvStop 0)) = Some c' /\ measure c' = 16.
Proof. do 2 eexists. split; [vm_compute; reflexivity|]. cbn. repeat split; try reflexivity. discriminate. Qed.
