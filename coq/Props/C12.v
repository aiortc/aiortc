(* C12 -- bundled RTP/RTCP is routed to exactly the right receivers and senders.
   Property theorems only; proofs live in Proof/RouterP.v. *)
From Coq Require Import ZArith List Bool.
From AV Require Import Lib.Bytes Model.Router Proof.RouterP.
Import ListNotations.
Local Open Scope Z_scope.

(* Every state reachable from the empty router by ANY operation list satisfies
   the representation invariant (sets are duplicate free), so `len(set) == 1`
   in the code means "exactly one receiver accepts". *)
Theorem C12_reachable_inv : forall ops, inv (fst (run empty ops)).
Proof. intros ops. exact (inv_run ops empty inv_empty). Qed.
Print Assumptions C12_reachable_inv.

(* RTP: a packet is handed to at most one receiver (option type), namely the
   one registered for the SSRC if it accepts the payload type, or -- for an
   unknown SSRC -- the unique receiver accepting the payload type, in which case
   the SSRC is latched and nothing else changes; otherwise it is dropped and the
   state is unchanged. *)
Theorem C12_route_rtp_spec : forall s ssrc pt,
  inv s ->
  let '(res, s') := route_rtp s ssrc pt in
  match res with
  | Some r =>
      accepts s r pt /\
      ((ssrc_of s ssrc = Some r /\ s' = s) \/
       (ssrc_of s ssrc = None /\ (forall r', accepts s r' pt -> r' = r) /\ s' = latch s ssrc r))
  | None =>
      s' = s /\
      match ssrc_of s ssrc with
      | Some r => ~ accepts s r pt
      | None => (forall r, ~ accepts s r pt) \/
                (exists r1 r2, r1 <> r2 /\ accepts s r1 pt /\ accepts s r2 pt)
      end
  end.
Proof. exact route_rtp_spec. Qed.
Print Assumptions C12_route_rtp_spec.

Theorem C12_route_rtp_complete : forall s ssrc pt r,
  inv s -> accepts s r pt ->
  (ssrc_of s ssrc = Some r \/ (ssrc_of s ssrc = None /\ forall r', accepts s r' pt -> r' = r)) ->
  fst (route_rtp s ssrc pt) = Some r.
Proof. exact route_rtp_complete. Qed.
Print Assumptions C12_route_rtp_complete.

(* RTCP: recipients are exactly the receivers / senders whose SSRCs the packet
   reports on, including the SSRC list inside a REMB. *)
Theorem C12_route_rtcp_spec : forall s p,
  unpack_remb_ssrcs match p with Psfb _ _ fci => fci | _ => [] end <> RembCrash ->
  let '(rs, ss, raised) := route_rtcp s p in
  raised = false /\
  (forall r, In r rs <-> exists ssrc, In ssrc (rtcp_recv_ssrcs p) /\ lookup (ssrc_table s) ssrc = Some r) /\
  (forall h, In h ss <-> exists ssrc, In ssrc (rtcp_send_ssrcs p) /\ lookup (senders s) ssrc = Some h).
Proof. exact route_rtcp_spec. Qed.
Print Assumptions C12_route_rtcp_spec.

(* ... and the premise holds for every byte string: the REMB parser returns a
   value or ValueError, never another exception. *)
Theorem C12_remb_never_crashes : forall data, bytes_ok data -> unpack_remb_ssrcs data <> RembCrash.
Proof. exact unpack_remb_never_crashes. Qed.
Print Assumptions C12_remb_never_crashes.

(* Once unregistered, nothing is routed to a receiver / sender again, for ANY
   later interleaving of operations that does not register it again. *)
Theorem C12_unregistered_receiver_never_routed : forall s r ops,
  Forall (fun o => ~ registers_recv o r) ops ->
  Forall (fun x => ~ out_mentions_recv x r) (snd (run (unregister_receiver s r) ops)).
Proof.
  intros s r ops H.
  exact (proj2 (run_invariant (fun s => rabsent s r) _ _
                  (fun s o Ha Ho => conj (rabsent_step s o r Ha Ho) (rabsent_out s o r Ha))
                  ops _ (unregister_receiver_rabsent s r) H)).
Qed.
Print Assumptions C12_unregistered_receiver_never_routed.

Theorem C12_unregistered_sender_never_routed : forall s h ops,
  Forall (fun o => ~ registers_send o h) ops ->
  Forall (fun x => ~ out_mentions_send x h) (snd (run (unregister_sender s h) ops)).
Proof.
  intros s h ops H.
  exact (proj2 (run_invariant (fun s => sabsent s h) _ _
                  (fun s o Ha Ho => conj (sabsent_step s o h Ha Ho) (sabsent_out s o h Ha))
                  ops _ (unregister_sender_sabsent s h) H)).
Qed.
Print Assumptions C12_unregistered_sender_never_routed.

(* A latched SSRC sticks: while the receiver stays registered and the SSRC is
   not re-registered for another receiver, packets keep going to it. *)
Theorem C12_latched_sticks : forall ops s ssrc pt r,
  latched s ssrc pt r -> Forall (fun o => ~ disturbs o ssrc r) ops ->
  fst (route_rtp (fst (run s ops)) ssrc pt) = Some r.
Proof. exact latched_sticks. Qed.
Print Assumptions C12_latched_sticks.

(* non-vacuity: a concrete history in which an unknown SSRC is latched *)
Example C12_example_latch :
  let s := fst (run empty [RegRecv 1 [100] [96; 97] None; RegRecv 2 [200] [98] (Some 7)]) in
  inv s /\ route_rtp s 555 98 = (Some 2, latch s 555 2) /\ latched (latch s 555 2) 555 98 2.
Proof. split; [exact (C12_reachable_inv _)|]. split; [reflexivity|]. split; [reflexivity|]. cbn. auto. Qed.
