(* C02 -- data channel traffic always drains: the no-deadlock invariants of the sender.
   Property theorems only; proofs in Proof/SctpTxP.v, Proof/SctpTxLiveP.v and Proof/SctpLoopP.v.

   The sender model (Model/SctpTx.v) takes ANY list of inputs: messages handed to
   _send (fragments with non-negative sizes), SACK chunks with ANY cumulative TSN and
   ANY gap blocks (duplicated, reordered, stale, nonsensical ones included -- that is
   what loss / duplication / reordering of acknowledgement packets produces), T3
   expiries at any moment it is armed, and the deferred _transmit task at any moment.
   Lost DATA packets need no input of their own: the chunk simply stays outstanding. *)
From Coq Require Import ZArith List Bool.
From AV Require Proof.SctpDupP Model.SctpRecv Proof.SctpLoopP Model.Rto Proof.RtoP Proof.SctpClosedLoopP.
From AV Require Import Gen.SctpConst Model.SctpTx Proof.SctpTxP Proof.SctpTxLiveP.
Import ListNotations.
Local Open Scope Z_scope.

(* 1. Flight-size accounting never drifts upward: in every reachable state the flight
   size is between 0 and the bytes of the chunks that really are in flight (sent, not
   gap-acked, not marked for retransmission, not abandoned); in particular it is 0
   whenever nothing is outstanding, and the congestion window never drops below one
   MTU -- so the window test of _transmit cannot stay shut with nothing outstanding. *)
Theorem C02_flight_size : forall tsn rwnd ins, Forall wf_input ins ->
  let s := fst (run (init tsn rwnd) ins) in
  MTU <= cwnd s /\ 0 <= flight s <= fsum (sentq s) /\ (sentq s = [] -> flight s = 0).
Proof.
  intros tsn rwnd ins H s. pose proof (inv_reachable tsn rwnd ins H) as I.
  split; [exact (i_cw s I)|]. split; [exact (i_fl s I)|].
  intros E. pose proof (i_fl s I) as F. rewrite E in F. cbn in F. apply Z.le_antisymm; tauto.
Qed.
Print Assumptions C02_flight_size.

(* 2. No deadlock: in every reachable state, if anything is still outstanding or
   queued then the retransmission timer is armed or a transmit task is scheduled; and
   queued data never waits behind an empty sent queue. *)
Theorem C02_no_deadlock : forall tsn rwnd ins, Forall wf_input ins ->
  let s := fst (run (init tsn rwnd) ins) in
  (sentq s <> [] -> t3 s = true \/ pending_tx s = true) /\
  (outq s <> [] -> sentq s <> [] \/ pending_tx s = true) /\
  (sentq s <> [] \/ outq s <> [] -> t3 s = true \/ pending_tx s = true).
Proof.
  intros tsn rwnd ins H s. pose proof (inv_reachable tsn rwnd ins H) as I.
  assert (A : sentq s <> [] -> t3 s = true \/ pending_tx s = true).
  { intros Hne. destruct (i_t3 s I Hne) as [X|[X _]]; auto. }
  split; [exact A|]. split; [exact (i_oq s I)|].
  intros [X|X]; [now apply A|]. destruct (i_oq s I X) as [Y|Y]; [now apply A|now right].
Qed.
Print Assumptions C02_no_deadlock.

(* 3. The invariant is inductive for single steps from ANY state satisfying it (not
   only from the initial one) -- this is what lets a fault history of any length be
   followed by a fault-free suffix. *)
Theorem C02_step_invariant : forall s i, inv s -> wf_input i -> inv (fst (step s i)).
Proof. exact step_inv. Qed.
Print Assumptions C02_step_invariant.

(* 4. No reachable sender state is wedged.  After ANY history -- messages handed to _send
   with the next TSNs (wf_ord: inside a window of N < 2^31 TSNs after `base`), SACKs with any
   32-bit cumulative TSN and any gap blocks (every loss / duplication / reordering of
   acknowledgements, stale and nonsensical ones), T3 expiries, transmit runs -- the
   fault-free continuation `drain` (the peer acknowledges the last TSN sent; the pending
   transmit task runs) reaches quiescence within 2 * (outstanding + queued) inputs: sent
   queue and outbound queue empty, flight size 0.  So no finite fault history can leave the
   sender permanently unable to make progress.  (The proof is an order invariant: the TSNs of
   sent queue ++ outbound queue are the consecutive run after max(last SACKed, advanced ack
   point); an acceptable SACK never acknowledges beyond what was sent -- the guard repaired
   in /repo -- so it pops a prefix and the measure strictly decreases.) *)
Theorem C02_never_wedged : forall base N t rw ins,
  SctpDupP.r32 base -> 0 <= N < 2147483648 -> SctpDupP.inw base N (tsn_minus_one t) ->
  Forall wf_input ins -> wf_ord_run base N (init t rw) ins ->
  let s := fst (run (init t rw) ins) in
  let cont := drain (2 * length (sentq s ++ outq s)) s in
  let s' := fst (run s cont) in
  Forall wf_input cont /\ sentq s' = [] /\ outq s' = [] /\ flight s' = 0.
Proof. exact never_wedged. Qed.
Print Assumptions C02_never_wedged.

(* 5. The order invariant itself, for every reachable state. *)
Theorem C02_tsn_order : forall base N t rw ins,
  SctpDupP.r32 base -> 0 <= N < 2147483648 -> SctpDupP.inw base N (tsn_minus_one t) ->
  wf_ord_run base N (init t rw) ins -> ord base N (fst (run (init t rw) ins)).
Proof. intros base N t rw ins Hb HN. apply ord_reachable; assumption. Qed.
Print Assumptions C02_tsn_order.

(* 6. The acknowledgement assumed in theorem 4 is the one the RECEIVER MODEL sends.  Let the
   chunks outstanding at the sender (any reachable sender state, order invariant of theorem 5)
   arrive in order, none lost, at a receiver (Model/SctpRecv.v, the model tied to
   _receive_data_chunk / _send_sack) that has received everything before them: its last SACK
   carries the highest TSN sent and no gap blocks -- exactly the ISack input of `drain`. *)
Module R := AV.Model.SctpRecv.
Theorem C02_ideal_sack_is_the_receivers : forall base N (stx : tx) (cs : list R.chunk) (r : R.rstate),
  SctpDupP.r32 base -> 0 <= N < 2147483648 -> ord base N stx -> sentq stx <> [] ->
  map R.tsn cs = tsns (sentq stx) -> R.last_rx r = floor stx -> R.misordered r = [] ->
  Forall (fun o => o <> R.OutAssert) (snd (R.rrun r (map R.EvData cs))) ->
  exists ms rw dups,
    List.last (snd (R.rrun r (map R.EvData cs))) R.OutAssert =
    R.OutOk ms (Some (R.mkSack (highest_assigned stx) rw [] dups)).
Proof. exact AV.Proof.SctpLoopP.ideal_sack_is_the_receivers. Qed.
Print Assumptions C02_ideal_sack_is_the_receivers.

(* 7. Bounded time: the delay every SCTP timer (T1, T2, T3) is armed with.  _update_rto is
   modelled bit-exactly with primitive IEEE-754 floats (Model/Rto.v).  After ANY history of
   round-trip measurements - any floats: negative (the wall clock stepping back), zero, huge,
   infinite, NaN - the retransmission timeout is exactly SCTP_RTO_MIN = 1, exactly SCTP_RTO_MAX =
   60, or a number r with 1 < r and not 60 < r; before the first measurement it is 3.  So a
   retransmission or handshake timer fires between 1 and 60 seconds after it is armed, never
   immediately in a busy loop and never "never".  (Print Assumptions lists the kernel's
   primitive float operations; they are not axioms.) *)
Module RT := AV.Model.Rto. Module RP := AV.Proof.RtoP.
Theorem C02_rto_bounded : forall rs s, Forall (fun s' => RP.rto_ok (RT.rto s')) (RT.rto_run s rs).
Proof. exact RP.rto_always_bounded. Qed.
Print Assumptions C02_rto_bounded.

(* 8. THE CLOSED LOOP of sender and receiver once the network has stopped losing and reordering
   datagrams.  s: ANY reachable sender state (after any history of sends, SACKs with any
   cumulative TSN and gap blocks, T3 expiries, transmit runs).  r: a receiver in sync with it - it
   has received everything before the sender's outstanding chunks (cumulative TSN = the sender's
   floor, nothing out of order).  `loop`: as long as anything is outstanding, all outstanding
   chunks arrive in order (as ANY wire images carrying their TSNs), the RECEIVER MODEL processes
   them, its own last SACK goes back, the SENDER MODEL processes it (at any clock value) and
   transmits what its window allows; when nothing is outstanding but something is queued the
   pending transmit task runs.  Within 2 * (outstanding + queued) rounds: nothing outstanding,
   nothing queued, flight size 0; the receiver is again in sync and its cumulative TSN is the
   last TSN that was outstanding or queued - it has received everything.  (With C01_complete_delivery
   everything that arrived has been delivered.)  This is "once the network stops losing datagrams,
   everything sent is delivered and both ends return to quiescence" for one direction of data
   under in-order delivery; loss and reordering before that point are the arbitrary history. *)
Module CL := AV.Proof.SctpClosedLoopP.
Theorem C02_closed_loop : forall base N t rw ins (wire : sc -> R.chunk) now r,
  SctpDupP.r32 base -> 0 <= N < 2147483648 -> SctpDupP.inw base N (tsn_minus_one t) ->
  Forall wf_input ins -> wf_ord_run base N (init t rw) ins ->
  (forall c, R.tsn (wire c) = c_tsn c) ->
  let s := fst (run (init t rw) ins) in
  CL.sync base N s r ->
  let fin := CL.loop wire now (2 * length (sentq s ++ outq s)) s r in
  sentq (fst fin) = [] /\ outq (fst fin) = [] /\ flight (fst fin) = 0 /\
  CL.sync base N (fst fin) (snd fin) /\ SctpDupP.off base (R.last_rx (snd fin)) = top base s.
Proof. exact CL.closed_loop_reachable. Qed.
Print Assumptions C02_closed_loop.

(* PARTIAL.  Proved: no deadlock state (1-3); from every reachable state, drainage by the
   fault-free continuation with an ideal peer (4); the ideal peer's answer is the receiver
   model's answer under in-order loss-free delivery (6); the closed loop of sender model and
   receiver model for one direction under in-order delivery (8).  NOT proved: delayed SACKs (the
   model receiver answers every arrival), reordering inside the fault-free suffix, both directions
   and DCEP / RE-CONFIG traffic at once, partially reliable chunks abandoned during the suffix (a
   FORWARD-TSN would have to travel too); these are observed by the
   two-endpoint simulator (fault prefix, then fault-free delivery and timer firings until
   quiescence) on every run.  Of real time only the range of the timer delays is a theorem (7);
   when the timers actually fire is the event loop's business. *)

(* non-vacuity: 5 chunks, SACKs with a gap report three times -> fast retransmit,
   then T3, then everything acknowledged: the invariant's hypotheses are met and the
   run ends quiescent *)
Example C02_example :
  let c t := mkSc t 1 0 false true true 1200 false false false 0 0 None None in
  let ins := [ISendMsg [c 10; c 11; c 12]; ISendMsg [c 13; c 14];
              ISack 10 [(2, 2)] 0; ISack 10 [(2, 3)] 0; ISack 10 [(2, 4)] 0;
              IT3 5; IRunTransmit; ISack 14 [] 9] in
  Forall wf_input ins /\
  let s := fst (run (init 10 1048576) ins) in
  sentq s = [] /\ outq s = [] /\ flight s = 0 /\ t3 s = false.
Proof.
  cbv zeta. split.
  - repeat constructor; unfold bok; cbn; try reflexivity; discriminate.
  - vm_compute. repeat split.
Qed.

(* non-vacuity of theorem 8 (Proof/SctpClosedLoopP.v): five chunks sent, the first acknowledged with a
   gap report, T3 expired: four chunks outstanding, the receiver has the first; the loop ends with
   empty queues, flight size 0 and the receiver's cumulative TSN at 14 *)
Example C02_closed_loop_example : CL.closed_loop_example_statement.
Proof. exact CL.closed_loop_example. Qed.

(* non-vacuity of theorem 7 (Proof/RtoP.v): measurements 0.25 s, 3 s, 1000 s, -5 s give the timeouts
   1, 3.71875, 60, 60: the three cases of the bound *)
Example C02_rto_example : RP.rto_example_statement.
Proof. exact RP.rto_example. Qed.

(* non-vacuity of theorem 4: after sends, a gap report and a T3 expiry, three inputs of the
   continuation empty the queues *)
Example C02_drain_example :
  let c t := mkSc t 1 0 false true true 1200 false false false 0 0 None None in
  let ins := [ISendMsg [c 10; c 11; c 12]; ISendMsg [c 13; c 14; c 15; c 16; c 17]; ISack 10 [(2, 2)] 0; IT3 5] in
  wf_ord_run 9 100 (init 10 1048576) ins /\
  let s := fst (run (init 10 1048576) ins) in
  (length (sentq s), length (outq s)) = (5, 2)%nat /\
  length (drain (2 * length (sentq s ++ outq s)) s) = 3%nat.
Proof. cbv zeta. split; [|vm_compute; split; reflexivity]. vm_compute. intuition (try discriminate). Qed.

