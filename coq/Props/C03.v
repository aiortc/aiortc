(* C03 -- offer/answer yields a consistent, connectable session for every configuration.
   Property theorems only; proofs live in Proof/NegoP.v (layer 1: the pure helper functions)
   and Proof/NegoExP.v (layer 2: the offer/answer skeleton).  The model is Model/Nego.v. *)
From Coq Require Import ZArith List Bool.
From AV Require Import Model.Nego Proof.NegoP Proof.NegoExP Proof.NegoWfP Proof.NegoCodecP Proof.NegoOkP Proof.NegoDirP.
Import ListNotations.
Local Open Scope Z_scope.

(* ======================= layer 1: helper laws, for ALL codec lists ======================= *)

(* find_common_codecs: the result is drawn, in order, from a sub-list of the remote list; an RTX entry is
   the remote entry itself, any other entry is a compatible local codec carrying the remote payload
   type when that is dynamic and only feedback that the remote side offered. *)
Theorem C03_common_codecs_sublist : forall local remote res,
  find_common_codecs local remote = Ok res ->
  exists sel, sublist sel remote /\ Forall2 (accepted local) res sel.
Proof. exact find_common_codecs_sublist. Qed.
Print Assumptions C03_common_codecs_sublist.

Theorem C03_accepted_codec_facts : forall local r c, accepted local r c ->
  lower (c_kind r) = lower (c_kind c) /\ lower (c_name r) = lower (c_name c) /\ c_clock r = c_clock c /\
  is_rtx r = is_rtx c /\
  (dynamic_pt (c_pt c) = true -> c_pt r = c_pt c) /\
  (forall f, In f (c_fb r) -> In f (c_fb c)).
Proof. exact accepted_facts. Qed.
Print Assumptions C03_accepted_codec_facts.

(* RTX is accepted only if the codec its apt names was accepted earlier in the list, with equal clock rate *)
Theorem C03_rtx_only_after_base : forall local remote res,
  find_common_codecs local remote = Ok res ->
  forall p1 r p2, res = p1 ++ r :: p2 -> is_rtx r = true ->
  exists apt b, pget (c_params r) key_apt = Some (PInt apt) /\ In b p1 /\ is_rtx b = false /\
                c_pt b = apt /\ c_clock b = c_clock r.
Proof. exact find_common_codecs_rtx. Qed.
Print Assumptions C03_rtx_only_after_base.

(* filter_preferred_codecs: no preferences = identity; otherwise one block per satisfiable real
   preference, in preference order, each block the matching codec optionally followed by its RTX *)
Theorem C03_preferred_codecs : forall codecs prefs res,
  filter_preferred_codecs codecs prefs = Ok res ->
  (prefs = [] -> res = codecs) /\
  (prefs <> [] -> pref_blocks codecs prefs res) /\
  incl res codecs.
Proof.
  intros codecs prefs res H. split; [|split].
  - intros ->. rewrite filter_preferred_empty in H. congruence.
  - intro Hne. exact (filter_preferred_blocks codecs prefs res Hne H).
  - exact (filter_preferred_incl codecs prefs res H).
Qed.
Print Assumptions C03_preferred_codecs.

(* header extensions: a subset of the remote list with the remote ids (the remote records themselves),
   restricted to locally supported uris; in remote order when local uris are distinct *)
Theorem C03_common_header_extensions : forall local remote,
  (forall x, In x (find_common_header_extensions local remote) <->
             In x remote /\ exists l, In l local /\ x_uri l = x_uri x) /\
  (NoDup (map x_uri local) -> sublist (find_common_header_extensions local remote) remote).
Proof.
  intros local remote. split.
  - intro x. split; [apply common_ext_in|]. intros [Hx [l [Hl Hu]]]. exact (common_ext_complete local remote x l Hx Hl Hu).
  - exact (common_ext_sublist local remote).
Qed.
Print Assumptions C03_common_header_extensions.

(* directions: and / or are total and mean what they say; reverse is an involution; the complementary-
   direction law: if the answerer (direction b) answers an offer of direction a with and(b, reverse a),
   the offerer's reverse of that answer is and(a, reverse b) *)
Theorem C03_direction_laws :
  (forall d, reverse_direction (reverse_direction d) = d) /\
  (forall d, sends (reverse_direction d) = recvs d /\ recvs (reverse_direction d) = sends d) /\
  (forall a b, exists d, and_direction (Some a) (Some b) = Ok d /\
                         sends d = sends a && sends b /\ recvs d = recvs a && recvs b) /\
  (forall a b, exists d, or_direction (Some a) (Some b) = Ok d /\
                         sends d = sends a || sends b /\ recvs d = recvs a || recvs b) /\
  (forall a b d, and_direction (Some b) (Some (reverse_direction a)) = Ok d ->
                 and_direction (Some a) (Some (reverse_direction b)) = Ok (reverse_direction d)).
Proof.
  split; [exact reverse_involution|]. split; [exact reverse_direction_spec|]. split; [|split].
  - intros a b. destruct (and_direction_total a b) as [d H]. exists d. split; [exact H | exact (and_direction_spec a b d H)].
  - intros a b. destruct (or_direction_total a b) as [d H]. exists d. split; [exact H | exact (or_direction_spec a b d H)].
  - exact complementary_directions.
Qed.
Print Assumptions C03_direction_laws.

(* allocate_mid terminates within len(mids)+1 rounds and returns the least unused mid *)
Theorem C03_allocate_mid : forall mids,
  exists m, allocate_mid mids = Ok m /\ ~ In m mids /\ 0 <= m /\ forall j, 0 <= j < m -> In j mids.
Proof.
  intro mids. destruct (allocate_mid_total mids) as [m H]. exists m. split; [exact H|].
  apply alloc_from_spec in H. tauto.
Qed.
Print Assumptions C03_allocate_mid.

(* ======================= layer 2: the offer/answer exchange ======================= *)

(* At ANY point of ANY session (any bundle policies, any interleaving of addTrack / addTransceiver /
   createDataChannel / setCodecPreferences / direction changes on both sides with complete exchanges in
   either direction), whenever a further exchange in either direction returns Ok:
     both sides end `stable`; the answer has the offer's m-sections (count, order, kind, mid) and BUNDLE
     list; every answer section has a definite DTLS role; and every audio/video section of the answer is
     `section_ok`: its codecs are filter_preferred(find_common(CODECS, offered codecs)) and non-empty,
     its header extensions the common ones, its direction and(own direction, reverse(offered)). *)
Theorem C03_answer_mirrors_offer : forall T pol_a pol_b steps a b,
  run_session true T (init_pc pol_a) (init_pc pol_b) steps = Ok (a, b) ->
  forall x, (exchange true T a b = Ok x \/ exchange true T b a = Ok x) -> mirrors T x.
Proof.
  intros T pol_a pol_b steps a b H x Hx.
  destruct (run_session_wf true T steps _ _ _ _ H (wf_init T pol_a) (wf_init T pol_b) eq_refl) as [Wa [Wb Hs]].
  destruct Hx as [Hx|Hx].
  - exact (exchange_mirrors true T a b x Hx Wa Wb Hs).
  - exact (exchange_mirrors true T b a x Hx Wb Wa (eq_sym Hs)).
Qed.
Print Assumptions C03_answer_mirrors_offer.

(* what `section_ok` gives per audio/video section: answered codecs are drawn from the offered ones
   (`accepted`: same codec, the offerer's payload type when dynamic, feedback only as offered), RTX only
   behind an accepted base codec whose payload type it names, header extensions are offered records
   (the offerer's ids), and the answer never sends what the offer does not receive nor vice versa *)
Theorem C03_answered_section : forall T mo ma, section_ok T mo ma -> is_av (m_kind mo) = true ->
  m_codecs ma <> [] /\
  (forall c, In c (m_codecs ma) -> exists c', In c' (m_codecs mo) /\ accepted (CODECS T (m_kind mo)) c c') /\
  (forall x, In x (m_exts ma) -> In x (m_exts mo)) /\
  (forall p1 r p2, m_codecs ma = p1 ++ r :: p2 -> is_rtx r = true ->
     exists apt b, pget (c_params r) key_apt = Some (PInt apt) /\ In b p1 /\ is_rtx b = false /\ c_pt b = apt) /\
  (exists d_o d_a, m_dir mo = Some d_o /\ m_dir ma = Some d_a /\
                   (sends d_a = true -> recvs d_o = true) /\ (recvs d_a = true -> sends d_o = true)).
Proof. exact section_ok_codecs. Qed.
Print Assumptions C03_answered_section.

(* complementary current directions: after an exchange at any point of any session, for every audio/video
   section of the answer there is exactly one transceiver per side carrying its mid; the answerer's has
   currentDirection = the answered direction, the offerer's has the reverse of it (so one side sends exactly
   when the other receives, cf. C03_direction_laws) *)
Theorem C03_current_directions_complementary : forall T pol_a pol_b steps a b,
  run_session true T (init_pc pol_a) (init_pc pol_b) steps = Ok (a, b) ->
  forall x, (exchange true T a b = Ok x \/ exchange true T b a = Ok x) ->
  Forall (section_directions x) (d_media (x_answer x)).
Proof.
  intros T pol_a pol_b steps a b H x Hx.
  destruct (run_session_wf true T steps _ _ _ _ H (wf_init T pol_a) (wf_init T pol_b) eq_refl) as [Wa [Wb Hs]].
  destruct Hx as [Hx|Hx].
  - exact (exchange_directions T a b x Hx Wa Wb Hs).
  - exact (exchange_directions T b a x Hx Wb Wa (eq_sym Hs)).
Qed.
Print Assumptions C03_current_directions_complementary.

(* FULL STATEMENT.  At any point of any session the next offer/answer exchange SUCCEEDS (returns Ok, hence by
   C03_answer_mirrors_offer leaves both sides stable with mirrored sections ...), in either direction, i.e. also
   for every follow-up negotiation that adds media or swaps the offering side - provided
     - the capability tables pass the executable sanity check `tables_ok` (evaluated on the real
       CODECS / HEADER_EXTENSIONS by every run of this check),
     - codec preferences are capability records of the transceiver's kind (`drawn`), each non-empty
       preference list names at least one real (non-RTX) codec (`has_real`), and
     - same-kind transceivers on opposite sides share a preferred real codec unless one of them has no
       preferences (`compatible`) - otherwise "no codec in common" is the specified outcome.
   Proved on the model of the REPAIRED code (fixed = true); the code as found violates it, see the two
   `_refuted_unrepaired` theorems below. *)
Theorem C03_exchange_succeeds : forall T pol_a pol_b steps a b,
  tables_ok T = true ->
  run_session true T (init_pc pol_a) (init_pc pol_b) steps = Ok (a, b) ->
  prefs_drawn T a -> prefs_drawn T b ->
  (prefs_compat a b -> exists x, exchange true T a b = Ok x) /\
  (prefs_compat b a -> exists x, exchange true T b a = Ok x).
Proof.
  intros T pol_a pol_b steps a b HT H Da Db.
  destruct (run_session_wf true T steps _ _ _ _ H (wf_init T pol_a) (wf_init T pol_b) eq_refl) as [Wa [Wb Hs]].
  split; intro Hc.
  - exact (exchange_ok T a b HT Wa Wb Hs Da Db Hc).
  - exact (exchange_ok T b a HT Wb Wa (eq_sym Hs) Db Da Hc).
Qed.
Print Assumptions C03_exchange_succeeds.

(* the invariant behind it: along every session both connections stay well-formed (transceivers, mids, m-line
   indices, sctp, transports aligned with the current m-sections) and keep the same m-section list *)
Theorem C03_session_invariant : forall T pol_a pol_b steps a b,
  run_session true T (init_pc pol_a) (init_pc pol_b) steps = Ok (a, b) -> wf T a /\ wf T b /\ S a = S b.
Proof.
  intros T pol_a pol_b steps a b H.
  exact (run_session_wf true T steps _ _ _ _ H (wf_init T pol_a) (wf_init T pol_b) eq_refl).
Qed.
Print Assumptions C03_session_invariant.

(* ======================= non-vacuity ======================= *)
Definition ex_opus : codec := mkCodec [97;117;100;105;111] [111;112;117;115] 48000 (Some 2) 96 [] [].
Definition ex_pcmu : codec := mkCodec [97;117;100;105;111] [80;67;77;85] 8000 (Some 1) 0 [] [].
Definition ex_vp8 : codec := mkCodec [118;105;100;101;111] [86;80;56] 90000 None 97
                                     [([110;97;99;107], None)] [].
Definition ex_rtx : codec := mkCodec [118;105;100;101;111] [114;116;120] 90000 None 98 [] [(key_apt, PInt 97)].
Definition ex_tables : tables :=
  mkTables [ex_opus; ex_pcmu] [ex_vp8; ex_rtx]
           [mkExt 1 [109;105;100]] [mkExt 1 [109;105;100]; mkExt 3 [97;98;115]].

Example C03_example_tables_ok : tables_ok ex_tables = true.
Proof. vm_compute. reflexivity. Qed.

(* a remote list with remapped payload types: the model accepts VP8 under the remote type and keeps the RTX *)
Example C03_example_common :
  find_common_codecs [ex_vp8; ex_rtx]
     [mkCodec [118;105;100;101;111] [86;80;56] 90000 None 120 [([110;97;99;107], None); ([120], None)] [];
      mkCodec [118;105;100;101;111] [114;116;120] 90000 None 121 [] [(key_apt, PInt 120)]]
  = Ok [mkCodec [118;105;100;101;111] [86;80;56] 90000 None 120 [([110;97;99;107], None)] [];
        mkCodec [118;105;100;101;111] [114;116;120] 90000 None 121 [] [(key_apt, PInt 120)]].
Proof. vm_compute. reflexivity. Qed.

(* a session reaching a second exchange with the roles swapped: the hypotheses of
   C03_answer_mirrors_offer are satisfiable and the exchange returns Ok *)
Definition ex_session_check : bool :=
  match run_session true ex_tables (init_pc 0) (init_pc 2)
          [StepA (OpAddTrack 0); StepA (OpAddTransceiver 1 SendOnly true); StepA OpDataChannel;
           StepB (OpAddTrack 1); NegotiateAB; StepB (OpAddTransceiver 0 RecvOnly false)] with
  | Ok (a, b) =>
      match exchange true ex_tables b a with
      | Ok x => Nat.eqb (length (d_media (x_offer x))) 4
      | _ => false
      end
  | _ => false
  end.
Example C03_example_session : ex_session_check = true.
Proof. vm_compute. reflexivity. Qed.

(* the preference hypotheses of C03_exchange_succeeds are satisfiable with non-empty preference lists *)
Example C03_example_prefs :
  let pa := [mkCap [118;105;100;101;111] [86;80;56] 90000 None []] in
  drawn (CODECS ex_tables 1) pa /\ has_real pa /\ compatible pa pa /\ compatible pa [].
Proof.
  cbn. split; [|split; [|split]].
  - intros p [<-|[]]. cbn. left. reflexivity.
  - intros _. eexists. split; [left; reflexivity | reflexivity].
  - right. right. eexists. split; [left; reflexivity|]. split; [left; reflexivity | reflexivity].
  - right. left. reflexivity.
Qed.

(* ======================= the code as found (fixed = false) violates the full statement ======================= *)
(* Design section 7 item 15: the answerer owns a transceiver whose kind the offer does not contain;
   setLocalDescription(answer) raises ValueError (replayed on the implementation: corpus/C03.jsonl,
   first case; repaired by the first fix commit). *)
Definition witness_direction : res exchanged :=
  match run_session false ex_tables (init_pc 0) (init_pc 0) [StepA (OpAddTrack 0); StepB (OpAddTransceiver 1 SendRecv false)] with
  | Ok (a, b) => exchange false ex_tables a b
  | _ => Crash
  end.
Theorem C03_exchange_succeeds_refuted_unrepaired : witness_direction = ValueErr.
Proof. vm_compute. reflexivity. Qed.
Print Assumptions C03_exchange_succeeds_refuted_unrepaired.

(* Found by this check: a max-bundle answerer that created its video transceiver beforehand and receives
   the offer [audio, video]: the exchange returns Ok but setRemoteDescription stopped and discarded the
   only transport the answerer has (second fix commit). *)
Definition witness_bundle : bool :=
  match run_session false ex_tables (init_pc 0) (init_pc 2) [StepA (OpAddTrack 0); StepA (OpAddTrack 1); StepB (OpAddTrack 1)] with
  | Ok (a, b) =>
      match exchange false ex_tables a b with
      | Ok x => forallb (fun t => negb (tr_live t)) (p_transports (x_b x)) && negb (Nat.eqb (length (p_trs (x_b x))) 0)
      | _ => false
      end
  | _ => false
  end.
Theorem C03_bundle_keeps_transport_refuted_unrepaired : witness_bundle = true.
Proof. vm_compute. reflexivity. Qed.
Print Assumptions C03_bundle_keeps_transport_refuted_unrepaired.

(* the same two witnesses on the repaired code *)
Example C03_witnesses_repaired :
  (match run_session true ex_tables (init_pc 0) (init_pc 0) [StepA (OpAddTrack 0); StepB (OpAddTransceiver 1 SendRecv false)] with
   | Ok (a, b) => match exchange true ex_tables a b with Ok _ => true | _ => false end
   | _ => false end) = true /\
  (match run_session true ex_tables (init_pc 0) (init_pc 2) [StepA (OpAddTrack 0); StepA (OpAddTrack 1); StepB (OpAddTrack 1)] with
   | Ok (a, b) => match exchange true ex_tables a b with
                  | Ok x => forallb tr_live (p_transports (x_b x))
                  | _ => false end
   | _ => false end) = true.
Proof. split; vm_compute; reflexivity. Qed.
