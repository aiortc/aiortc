(* C05 -- no received datagram can crash, hang or wedge the receive path.
   Property theorems only: totality (value or ValueError, never another exception,
   never out of fuel -- i.e. no unbounded loop) of EVERY wire parser on EVERY byte
   string, and crash-freedom of the message-level receive handlers that are modelled.
   Proofs live with the codec models (C07, C08, C16, C12, C13, C01). *)
From Coq Require Import ZArith List Bool.
From AV Require Import Lib.Bytes.
From AV Require Lib.RtpX Lib.CodecX Model.SctpWire Model.Rtp Model.Rtcp Model.H264 Model.Vp8 Model.Router Model.Chan
  Model.SctpRecv Model.Dtls.
From AV Require Proof.DtlsP Proof.SctpWireTotalP Proof.RtpTotalP Proof.RtcpTotalP Proof.RtcpP Proof.H264PBase Proof.Vp8P
  Proof.RouterP Proof.ChanTotalP Proof.SctpDupP Proof.SctpC01P Proof.SctpOnceFwdP.
Import ListNotations.
Local Open Scope Z_scope.

Module W := AV.Model.SctpWire. Module WT := AV.Proof.SctpWireTotalP.

(* SCTP: parse_packet (checksum, chunk framing, every chunk constructor reached from
   it), decode_params and the three RE-CONFIG parameter parsers return a value or
   ValueError for every byte string, within fuel length + 1 (no endless loop). *)
Theorem C05_sctp_parse_packet_total : forall b, bytes_ok b -> WT.total (W.parse_packet b).
Proof. exact WT.parse_packet_total. Qed.
Print Assumptions C05_sctp_parse_packet_total.

Theorem C05_sctp_decode_params_total : forall b, WT.total (W.decode_params b).
Proof. exact WT.decode_params_total. Qed.
Print Assumptions C05_sctp_decode_params_total.

Theorem C05_sctp_reconfig_params_total : forall ty b,
  match W.reconfig_param_parse ty b with Some r => WT.total r | None => True end.
Proof. exact WT.reconfig_param_parse_total. Qed.
Print Assumptions C05_sctp_reconfig_params_total.

(* RTP / RTCP: RtpPacket.parse, RtcpPacket.parse (compound), unpack_header_extensions,
   HeaderExtensionsMap.get and unpack_remb_fci, for every id map and every byte string *)
Module R := AV.Model.Rtp. Module RC := AV.Model.Rtcp. Module RX := AV.Lib.RtpX.
Theorem C05_rtp_rtcp_parsers_total : forall m b,
  bytes_ok b ->
  RX.benign (R.rtp_parse m b) /\ RX.benign (RC.rtcp_parse b) /\ RX.benign (RC.unpack_remb_fci b) /\
  (forall profile, RX.benign (R.unpack_header_extensions profile b) /\ RX.benign (R.hext_get m profile b)).
Proof.
  intros m b H. split; [now apply AV.Proof.RtpTotalP.rtp_parse_total|].
  split; [now apply AV.Proof.RtcpTotalP.rtcp_parse_total|].
  split; [now apply AV.Proof.RtcpP.unpack_remb_fci_total|]. intros profile.
  split; [now apply AV.Proof.RtpTotalP.unpack_header_extensions_total|now apply AV.Proof.RtpTotalP.hdrext_get_total].
Qed.
Print Assumptions C05_rtp_rtcp_parsers_total.

(* codec payload descriptors *)
Theorem C05_h264_descriptor_total : forall b, bytes_ok b ->
  (exists v, AV.Model.H264.parse b = AV.Lib.CodecX.Ok v) \/ AV.Model.H264.parse b = AV.Lib.CodecX.ValueErr.
Proof. exact AV.Proof.H264PBase.h264_descriptor_parse_total. Qed.
Print Assumptions C05_h264_descriptor_total.

Theorem C05_vpx_descriptor_total : forall b, bytes_ok b ->
  (exists v, AV.Model.Vp8.parse b = AV.Lib.CodecX.Ok v) \/ AV.Model.Vp8.parse b = AV.Lib.CodecX.ValueErr.
Proof. exact AV.Proof.Vp8P.vpx_descriptor_parse_total. Qed.
Print Assumptions C05_vpx_descriptor_total.

(* RTCP routing: the REMB branch of RtpRouter.route_rtcp cannot raise *)
Theorem C05_route_rtcp_remb_total : forall data, bytes_ok data ->
  AV.Model.Router.unpack_remb_ssrcs data <> AV.Model.Router.RembCrash.
Proof. exact AV.Proof.RouterP.unpack_remb_never_crashes. Qed.
Print Assumptions C05_route_rtcp_remb_total.

(* data-channel layer: a received DCEP message (any bytes, any stream, any state of
   the layer) never makes _data_channel_receive fail while decoding it *)
Theorem C05_dcep_receive_total : forall s sidv data ok oracle,
  ~ In (AV.Model.Chan.EvRaise 4) (snd (AV.Model.Chan.recv_dcep s sidv data ok oracle)).
Proof. exact AV.Proof.ChanTotalP.recv_dcep_never_crashes. Qed.
Print Assumptions C05_dcep_receive_total.

(* SCTP reassembly: the only assertion on the DATA receive path is unreachable, for
   every event list -- DATA chunks and FORWARD-TSN chunks in any order, whatever the
   duplication / reordering -- whose TSNs stay within a window of < 2^31 after the
   initial cumulative TSN *)
Theorem C05_reassembly_assertion_unreachable : forall base N es,
  AV.Proof.SctpDupP.r32 base -> 0 <= N < 2147483648 -> Forall (AV.Proof.SctpOnceFwdP.ev_in base N) es ->
  Forall (fun o => o <> AV.Model.SctpRecv.OutAssert)
         (snd (AV.Model.SctpRecv.rrun (AV.Model.SctpRecv.rinit base) es)).
Proof.
  intros base N es Hb HN Hes.
  exact (AV.Proof.SctpDupP.no_assert_all base N Hb HN es _ (AV.Proof.SctpDupP.inv_rinit base N Hb HN) Hes).
Qed.
Print Assumptions C05_reassembly_assertion_unreachable.

(* the first thing every datagram meets, RTCDtlsTransport._recv_next: for EVERY datagram -- the
   empty one included, which used to raise IndexError and close the transport (repaired in /repo) --
   and every outcome of the SSL object / SRTP session, demultiplexing ends normally or with the
   ConnectionError the receive loop handles, never with another exception.  The handlers it
   hands the payload to are the subject of the other theorems / the oracle.  Model.Dtls is tied
   to the code by C04's correspondence (scripted SSL / SRTP / ICE around the real method, empty
   datagrams included) and, for this statement, by this check's own `dtls._recv_next` probe. *)
Theorem C05_dtls_demux_total : forall guard t g,
  AV.Model.Dtls.recv_next guard t g <> AV.Model.Dtls.RxCrash.
Proof. exact AV.Proof.DtlsP.recv_next_never_crashes. Qed.
Print Assumptions C05_dtls_demux_total.

(* PARTIAL.  Proved: every byte-level parser is total and linear-fuelled; the modelled
   message-level handlers named above cannot raise.  NOT proved: dispatch totality of
   the whole RTCSctpTransport / RTCRtpReceiver / RTCRtpSender state machines on
   well-typed but nonsensical chunk sequences, and the time / memory bound per
   datagram.  Those are covered by the implementation oracle of this check: malformed
   and nonsensical datagrams (valid checksum and verification tag) are injected into
   two live endpoints in every protocol phase; no exception may escape, each datagram
   must be handled within a time bound, and a valid exchange must still complete
   afterwards.  Seventeen receive-path crashes / hangs found that way or while
   modelling are repaired in /repo. *)
