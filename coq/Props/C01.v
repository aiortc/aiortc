(* C01 -- reliable data channels deliver every message exactly once, intact, in order.
   Property theorems only; proofs in Proof/SctpRecvP.v, SctpC01P.v, SctpSendP.v, SctpDupP.v,
   SctpOrderP.v (stream automaton), SctpOrderSP.v (sender numbering), SctpOrderTP.v
   (transport), SctpOrderEP.v (end to end), SctpOnceP.v / SctpOnceEP.v (at most once).

   Network abstraction: loss, duplication, reordering and delay of DATA packets are
   subsumed by "the receiver sees an ARBITRARY list of events each of which is one of
   the chunks the sender produced"; faults on the SACK path cannot influence what the
   receiver delivers.  "Every observation instant" = every prefix of that list, and
   a prefix of such a list is such a list. *)
From Coq Require Import ZArith List Bool.
From AV Require Import Lib.Bytes Gen.Utils Gen.SctpConst Model.SctpRecv Model.SctpSend
  Proof.SctpRecvP Proof.SctpC01P Proof.SctpSendP Proof.SctpDupP Proof.SctpOrderP Proof.SctpOrderSP
  Proof.SctpOrderTP Proof.SctpOrderEP Proof.SctpOnceP Proof.SctpOnceEP Proof.SctpOnceFwdP Proof.SctpCompleteEP.
Import ListNotations.
Local Open Scope Z_scope.

(* 1. Fragmentation (_send) is lossless: the user data of the fragments concatenate to
   the message, first/last fragment carry B/E, all fragments carry the message's
   stream, ppid and ordering flag, none exceeds USERDATA_MAX_LENGTH (the GENERATED
   constant), and their TSNs are consecutive from _local_tsn. *)
Theorem C01_fragment_reassemble : forall s m, o_data m <> [] ->
  let cs := snd (send_msg s m) in
  join_data cs = o_data m /\
  cs <> [] /\
  first (hd (mkChunk 0 0 0 false false false 0 []) cs) = true /\
  last (List.last cs (mkChunk 0 0 0 false false false 0 [])) = true /\
  Forall (fun c => sid c = o_sid m /\ ppid c = o_ppid m /\ unordered c = negb (o_ordered m) /\
                   (len (udata c) <= USERDATA_MAX_LENGTH)) cs /\
  map tsn cs = tsn_seq (length cs) (local_tsn s).
Proof. exact send_msg_fragments. Qed.
Print Assumptions C01_fragment_reassemble.

(* 2. Integrity and channel identity.  For ANY list of messages (any sizes, streams,
   ordered or not, any ppid), ANY initial TSN (wrap-around included), fewer than 2^32
   chunks in total, and ANY event list made of DATA chunks drawn from what the sender
   produced (in any order, with any repetitions and omissions) interleaved with ANY
   FORWARD-TSN chunks: every message the receiver hands to the application is
   (stream, ppid, data) of one of the sent messages. *)
Theorem C01_delivered_is_sent : forall t0 msgs base es,
  in32 t0 ->
  Forall (fun m => o_data m <> []) msgs ->
  Z.of_nat (total_frags msgs) <= SCTP_TSN_MODULO ->
  Forall (ev_ok (concat (send_msgs (mkS t0 []) msgs))) es ->
  Forall (fun o => Forall (fun d => exists m, In m msgs /\ d = (o_sid m, o_ppid m, o_data m)) (out_msgs o))
         (snd (rrun (rinit base) es)).
Proof. exact sent_delivered. Qed.
Print Assumptions C01_delivered_is_sent.

(* 3. No duplicate acceptance.  For any initial cumulative TSN `base` anywhere in the
   32-bit space and any list of DATA chunks whose TSNs lie within a window of N < 2^31
   TSNs after it, a TSN enters a reassembly queue at most once however often it
   arrives, and InboundStream.add_chunk's "duplicate chunk" assertion is unreachable. *)
Theorem C01_no_duplicate_accept : forall base N es,
  r32 base -> 0 <= N < 2147483648 -> Forall (data_ev base N) es ->
  NoDup (accepted (rinit base) es) /\ Forall (fun o => o <> OutAssert) (snd (rrun (rinit base) es)).
Proof.
  intros base N es Hb HN Hes. split.
  - exact (accepted_nodup base N Hb HN es (rinit base) (inv_rinit base N Hb HN) Hes).
  - exact (no_assert base N Hb HN es (rinit base) (inv_rinit base N Hb HN) Hes).
Qed.
Print Assumptions C01_no_duplicate_accept.

(* 4. Values and types survive: str/bytes, empty or not, map to four distinct PPIDs
   (distinct from DCEP) and back; the user data handed to SCTP is never empty. *)
Theorem C01_app_roundtrip : forall v,
  (let '(pp, d) := encode_app v in decode_app pp d = Some v) /\ snd (encode_app v) <> [] /\
  NoDup [WEBRTC_DCEP; WEBRTC_STRING; WEBRTC_BINARY; WEBRTC_STRING_EMPTY; WEBRTC_BINARY_EMPTY].
Proof. intros v. exact (conj (app_roundtrip v) (conj (app_encode_nonempty v) ppids_distinct)). Qed.
Print Assumptions C01_app_roundtrip.

(* 5. Ordered, exactly-once delivery.  The application sends ANY list of messages (any
   sizes, streams, ordered or not, any ppid) from ANY initial TSN (wrap included); the
   network hands the receiver ANY list of DATA chunks inside the TSN window in which the
   chunks of stream st are chunks of st's ordered messages -- every order, loss and
   duplication pattern.  Then the messages delivered on stream st are EXACTLY the first n
   ordered messages sent on st (stream, ppid, data), in sending order, each once.
   `swin` is the 16-bit stream-sequence window: every chunk arrives while fewer than
   2^15 messages of its stream separate it from the delivery point; theorem 6 shows it
   holds outright for a stream that carries fewer than 2^15 ordered messages.  (Beyond
   that window SCTP's 16-bit SSN comparison is inherently ambiguous, RFC 4960 6.5.) *)
Theorem C01_ordered_exactly_once : forall base N t0 msgs st es,
  r32 base -> 0 <= N < 2147483648 -> r32 t0 ->
  off base t0 + Z.of_nat (total_frags msgs) <= N ->
  Forall (fun m => o_data m <> []) msgs ->
  let M := sel st (mkS t0 []) msgs in
  Forall (data_ev base N) es ->
  (forall c, In (EvData c) es -> sid c = st -> In c (concat M)) ->
  swin M [] 0 0 (filter (on_stream st) (accepted_chunks (rinit base) es)) ->
  exists n, msgs_on st (rinit base) es = firstn n (map triple (filter (selected st) msgs)).
Proof. exact ordered_exactly_once. Qed.
Print Assumptions C01_ordered_exactly_once.

(* 6. The stream-sequence window condition of theorem 5 is met by every arrival list when
   the stream carries at most 2^15 ordered messages. *)
Theorem C01_window_small : forall base N t0 msgs st,
  r32 base -> 0 <= N < 2147483648 -> r32 t0 ->
  off base t0 + Z.of_nat (total_frags msgs) <= N ->
  Forall (fun m => o_data m <> []) msgs ->
  let M := sel st (mkS t0 []) msgs in
  Z.of_nat (length M) <= 32768 ->
  forall cs Q seq k, swin M Q seq k cs.
Proof. exact window_small. Qed.
Print Assumptions C01_window_small.

(* 7. At most once, ordered AND unordered channels.  For ANY message list, ANY initial TSN and
   ANY list of DATA arrivals inside the TSN window in which the chunks of stream st are sent
   chunks (every order, loss and duplication pattern), the messages delivered on st are the
   messages of a DUPLICATE-FREE list D of sent fragment lists: every delivery is one sent
   message, reassembled from exactly its fragments (msgf), and no sent message is delivered
   twice (distinct sends have distinct fragment lists).  For unordered channels this is the
   property's "duplicate-free sub-multiset of the sends"; for ordered ones theorem 5 adds
   the order.  (Proof: every chunk entering a reassembly queue is afterwards retained or
   consumed by exactly one delivered run -- a counting invariant of pop_messages in every
   mode -- and the transport admits a TSN at most once, theorem 3.) *)
Theorem C01_at_most_once : forall base N t0 msgs st es,
  r32 base -> 0 <= N < 2147483648 -> in32 t0 ->
  Forall (fun m => o_data m <> []) msgs -> Z.of_nat (total_frags msgs) <= SCTP_TSN_MODULO ->
  Forall (data_ev base N) es ->
  (forall c, In (EvData c) es -> sid c = st -> In c (concat (send_msgs (mkS t0 []) msgs))) ->
  exists D, msgs_on st (rinit base) es = map msgf D /\ NoDup D /\
            Forall (fun f => In f (send_msgs (mkS t0 []) msgs)) D.
Proof. exact at_most_once. Qed.
Print Assumptions C01_at_most_once.

(* 8. At most once, all streams at once, FORWARD-TSN included.  For ANY message list and ANY event
   list inside the TSN window -- DATA chunks drawn from the sent ones in any order with any
   repetitions and omissions, interleaved with ARBITRARY FORWARD-TSN chunks -- the messages
   delivered step by step are the messages of chunk runs Ds such that no run occurs twice in the
   whole session and every run is the fragment list of a sent message: every delivery, on every
   stream, is one sent message and no sent message is delivered twice.  (Chunk accounting of the
   whole receiver: an accepted chunk is afterwards queued, pruned, or in exactly one delivery;
   a TSN is accepted at most once also across FORWARD-TSN.) *)
Theorem C01_at_most_once_all : forall base N t0 msgs es,
  r32 base -> 0 <= N < 2147483648 -> in32 t0 ->
  Forall (fun m => o_data m <> []) msgs -> Z.of_nat (total_frags msgs) <= SCTP_TSN_MODULO ->
  Forall (ev_in base N) es ->
  (forall c, In (EvData c) es -> In c (concat (send_msgs (mkS t0 []) msgs))) ->
  exists Ds : list (list (list chunk)),
    map out_msgs (snd (rrun (rinit base) es)) = map (map msgf) Ds /\
    NoDup (concat Ds) /\ Forall (fun f => In f (send_msgs (mkS t0 []) msgs)) (concat Ds).
Proof. intros base N t0 msgs es Hb HN. exact (at_most_once_all base N Hb HN t0 msgs es). Qed.
Print Assumptions C01_at_most_once_all.

(* 9. COMPLETE delivery: nothing that has arrived stays behind.  Same setting as theorem 5 (any
   messages, any initial TSN, any arrival list with every order, loss, duplication and
   retransmission pattern).  If every chunk of the ordered messages of stream st is among the
   chunks the receiver ACCEPTED (it arrived at least once while inside the receive window), then
   the messages delivered on st are exactly ALL ordered messages sent on st - in sending order,
   each once.  (The pop loop stops only where the next expected message is incomplete, and every
   chunk that entered the reassembly queue is either still there or part of a delivered message.)
   With C02_never_wedged - the sender keeps (re)transmitting until everything is acknowledged -
   this is the receiver's half of "once the network heals, everything sent is delivered". *)
Theorem C01_complete_delivery : forall base N t0 msgs st es,
  r32 base -> 0 <= N < 2147483648 -> r32 t0 ->
  off base t0 + Z.of_nat (total_frags msgs) <= N ->
  Forall (fun m => o_data m <> []) msgs ->
  let M := sel st (mkS t0 []) msgs in
  Forall (data_ev base N) es ->
  (forall c, In (EvData c) es -> sid c = st -> In c (concat M)) ->
  swin M [] 0 0 (filter (on_stream st) (accepted_chunks (rinit base) es)) ->
  (forall c, In c (concat M) -> In c (accepted_chunks (rinit base) es)) ->
  msgs_on st (rinit base) es = map triple (filter (selected st) msgs).
Proof. exact ordered_complete_delivery. Qed.
Print Assumptions C01_complete_delivery.

(* Still PARTIAL: the two-endpoint statement "every message IS eventually delivered once the
   network heals" composes theorem 9 with the sender's liveness (C02_never_wedged: no reachable
   sender state is wedged; the ideal peer's SACK is the receiver model's) and with the network
   actually delivering the retransmissions; that composition over two endpoints and real timers
   is observed by the scenario oracle, not mechanised. *)

(* non-vacuity: a 3-fragment message near the TSN wrap, delivered from a shuffled,
   duplicated arrival list *)
Example C01_example :
  let m := mkOut 1 true 53 (repeat 7 2500) in
  let cs := snd (send_msg (mkS 4294967295 []) m) in
  map tsn cs = [4294967295; 0; 1] /\
  exists c0 c1 c2, cs = [c0; c1; c2] /\
  flat_map out_msgs (snd (rrun (rinit 4294967294) (map EvData [c2; c0; c2; c1; c0]))) = [(1, 53, repeat 7 2500)].
Proof.
  cbv zeta. split; [reflexivity|].
  exists (mkChunk 4294967295 1 0 false true false 53 (repeat 7 frag_size)), (mkChunk 0 1 0 false false false 53 (repeat 7 frag_size)),
         (mkChunk 1 1 0 false false true 53 (repeat 7 100)).
  split; reflexivity.
Qed.

(* non-vacuity of theorem 5: three ordered messages on stream 1 (the second has two
   fragments) interleaved with a message on stream 2, TSNs wrapping; the chunks arrive
   reversed with duplicates: all three are delivered in sending order; when the first
   fragment of the second message is lost, exactly the prefix [first message] comes out *)
Example C01_ordered_example :
  let msgs := [mkOut 1 true 53 [1; 2]; mkOut 2 true 53 [7]; mkOut 1 true 53 (repeat 7 1201); mkOut 1 true 51 [9]] in
  let cs := concat (send_msgs (mkS 4294967295 []) msgs) in
  map tsn cs = [4294967295; 0; 1; 2; 3] /\
  msgs_on 1 (rinit 4294967294) (map EvData (rev cs ++ cs)) = [(1, 53, [1; 2]); (1, 53, repeat 7 1201); (1, 51, [9])] /\
  msgs_on 1 (rinit 4294967294) (map EvData (rev (skipn 3 cs) ++ firstn 2 cs)) = [(1, 53, [1; 2])].
Proof. vm_compute. repeat split; reflexivity. Qed.

(* non-vacuity of theorem 9 (same messages as above): every chunk arrives - the last ones first, some
   twice - and all three ordered messages of stream 1 come out; the accepted chunks are all five *)
Example C01_complete_example :
  let msgs := [mkOut 1 true 53 [1; 2]; mkOut 2 true 53 [7]; mkOut 1 true 53 (repeat 7 1201); mkOut 1 true 51 [9]] in
  let cs := concat (send_msgs (mkS 4294967295 []) msgs) in
  let es := map EvData (rev cs ++ skipn 2 cs) in
  map tsn (accepted_chunks (rinit 4294967294) es) = [3; 2; 1; 0; 4294967295] /\
  msgs_on 1 (rinit 4294967294) es = map triple (filter (selected 1) msgs).
Proof. vm_compute. split; reflexivity. Qed.

(* non-vacuity of theorem 7: an unordered two-fragment message and an unordered one-fragment
   message, each arriving twice and out of order, are delivered once each *)
Example C01_unordered_example :
  let msgs := [mkOut 3 false 53 (repeat 7 1201); mkOut 3 false 51 [9]] in
  let cs := concat (send_msgs (mkS 5 []) msgs) in
  msgs_on 3 (rinit 4) (map EvData (rev cs ++ cs ++ rev cs)) = [(3, 51, [9]); (3, 53, repeat 7 1201)].
Proof. vm_compute. reflexivity. Qed.

