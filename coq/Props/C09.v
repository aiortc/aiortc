(* C09 -- session descriptions survive parse/serialise round trips.
   Property theorems only; proofs live in Proof/SdpP1-4,6.v.  The theorems are about
   Model/Sdp.v, which works on structured lines; the character level (lexer/printer in
   harness/props/c09.py) is validated by the correspondence run, not proved: the property
   is PARTIAL at character level.  `absorb` = SessionDescription.parse, `render` = str(). *)
From Coq Require Import ZArith List Bool.
From AV Require Import Model.Sdp Proof.SdpP1 Proof.SdpP3 Proof.SdpP4 Proof.SdpP6.
Import ListNotations.
Local Open Scope Z_scope.

(* Every description of the shape RTCPeerConnection generates (wf_generated_b, written out in
   Model/Sdp.v and evaluated on the real objects every run) can be serialised, and parsing the
   result gives back the description itself: every field -- kinds, ports, mids, directions,
   codecs with parameters and feedback, header extensions, SSRCs and groups, ICE credentials,
   candidates and options, DTLS fingerprints and role, SCTP port / max-message-size, bundle and
   msid groups -- is recovered, and the text is a fixed point of parse-then-serialise. *)
Theorem C09_generated_fixpoint : forall d, wf_generated_b d = true ->
  exists ls, render d = Ok ls /\ absorb ls = Ok d /\ bind (absorb ls) render = Ok ls.
Proof.
  intros d H. destruct (generated_fixpoint d H) as (ls & Hr & Ha).
  exists ls. split; [exact Hr|]. split; [exact Ha|]. rewrite Ha. exact Hr.
Qed.
Print Assumptions C09_generated_fixpoint.

(* For EVERY line list the parser accepts and whose description can be printed, one round of
   parse-and-serialise is idempotent: parsing the printed lines succeeds and printing again
   gives the same lines. *)
Theorem C09_idempotent : forall t d ls, absorb t = Ok d -> render d = Ok ls ->
  exists d', absorb ls = Ok d' /\ render d' = Ok ls.
Proof. exact idempotent. Qed.
Print Assumptions C09_idempotent.

(* ... and what exactly a round trip does to an arbitrary accepted description: it is replaced
   by its normal form `norm_desc` (Proof/SdpP3.v `norm_media`, `full`): origin None -> "None",
   empty msid / mid and empty feedback parameter dropped, a=rtcp address without port dropped,
   SSRC entries without a known attribute dropped, channels of audio codecs reduced to 1 / 2,
   codec name cut at the first "/", an fmtp dictionary that prints as "" emptied.  Everything
   else -- in particular rtcp_mux, which the unrepaired code lost -- is unchanged. *)
Theorem C09_roundtrip_normal_form : forall t d ls, absorb t = Ok d -> render d = Ok ls ->
  exists lite, any_lite (d_media d) = Ok lite /\ absorb ls = Ok (norm_desc lite d) /\
               map m_rtcp_mux (d_media (norm_desc lite d)) = map m_rtcp_mux (d_media d).
Proof.
  intros t d ls Ha Hr. destruct (render_any_lite d ls Hr) as (lite & Hl). exists lite.
  split; [exact Hl|]. split; [exact (absorb_render d ls lite (absorb_wfp t d Ha) Hr Hl)|].
  unfold norm_desc. cbn [d_media]. rewrite map_map. reflexivity.
Qed.
Print Assumptions C09_roundtrip_normal_form.

(* Known finding (not repaired): the printability premise of C09_idempotent can fail.  A host
   name in c= (address whose ipaddress version is 0 = "not an IP literal") is accepted by the
   parser, and str() of the result raises ValueError. *)
Theorem C09_render_total_refuted : exists t d, absorb t = Ok d /\ render d = ValueErr.
Proof.
  exists [Lm s_audio 9 [82;84;80] [FI 0]; Lc ([104;111;115;116], 0)].
  eexists. split; [vm_compute; reflexivity|vm_compute; reflexivity].
Qed.
Print Assumptions C09_render_total_refuted.

(* ICE candidates: object -> tokens -> object is the identity for every candidate (with or
   without raddr / rport / tcptype), and tokens in canonical order -> object -> tokens is too. *)
Theorem C09_candidate_roundtrip :
  (forall c, cand_of_tokens (cand_to_tokens c) = Ok c) /\
  (forall ts, canonical_tokens ts -> exists c, cand_of_tokens ts = Ok c /\ cand_to_tokens c = ts).
Proof. exact (conj cand_roundtrip cand_roundtrip_tokens). Qed.
Print Assumptions C09_candidate_roundtrip.

(* non-vacuity: a bundle audio + video + application description (taken from a real
   RTCPeerConnection offer, shortened) is of the generated shape, prints, and comes back *)
Definition example_bundle : description :=
  mkDesc 0 (Some [45;32;51;57;57;57;49;49;57;56;54;54;32;51;57;57;57;49;49;57;56;54;54;32;73;78;32;73;80;52;32;48;46;48;46;48;46;48]) [45] [48;32;48] None
    [([66;85;78;68;76;69], [[48]; [49]; [50]])]
    [([87;77;83], [[42]])]
    [mkMedia [97;117;100;105;111] 37387 (Some ([49;57;50;46;48;46;50;46;50], 4)) [85;68;80;47;84;76;83;47;82;84;80;47;83;65;86;80;70] (Some [115;101;110;100;114;101;99;118]) (Some [115;49;32;116;49])
      (Some 9) (Some ([48;46;48;46;48;46;48], 4)) true
      [mkSsrc 4245155309 (Some [99;110]) None None None] []
      [FI 96; FI 0]
      [mkCodec [97;117;100;105;111;47;111;112;117;115] 48000 (Some 2) 96 [] []; mkCodec [97;117;100;105;111;47;80;67;77;85] 8000 (Some 1) 0 [] []]
      [(1, [117;114;110;58;105;101;116;102;58;112;97;114;97;109;115;58;114;116;112;45;104;100;114;101;120;116;58;115;100;101;115;58;109;105;100])] (Some [48])
      None [] None
      (Some ([([115;104;97;45;50;53;54], [56;65;58;66;66;58;50;49])], (Some [97;117;116;111])))
      (Some (mkIce (Some [115;56;113;120]) (Some [80;73;87;84;51;48;76;105;51;98;53;89;102;51;77;82;107;85;54;120;106;52]) false))
      [mkCand [102;57] 1 [117;100;112] 2130706431 [49;57;50;46;48;46;50;46;50] 37387 [104;111;115;116] None None None; mkCand [100;48] 1 [117;100;112] 1694498815 [49;57;56;46;53;49;46;49;48;48;46;55] 39559 [115;114;102;108;120] (Some [49;57;50;46;48;46;50;46;50]) (Some 37387) None] true None;
     mkMedia [118;105;100;101;111] 37387 (Some ([49;57;50;46;48;46;50;46;50], 4)) [85;68;80;47;84;76;83;47;82;84;80;47;83;65;86;80;70] (Some [114;101;99;118;111;110;108;121]) (Some [115;49;32;116;50])
      (Some 9) (Some ([48;46;48;46;48;46;48], 4)) true
      [mkSsrc 643416004 (Some [99;110]) None None None; mkSsrc 3790226503 (Some [99;110]) None None None] [([70;73;68], [643416004;3790226503])]
      [FI 97; FI 98]
      [mkCodec [118;105;100;101;111;47;86;80;56] 90000 None 97 [([110;97;99;107], None); ([110;97;99;107], (Some [112;108;105])); ([103;111;111;103;45;114;101;109;98], None)] []; mkCodec [118;105;100;101;111;47;114;116;120] 90000 None 98 [] [([97;112;116], (PInt 97))]]
      [(1, [117;114;110;58;105;101;116;102;58;112;97;114;97;109;115;58;114;116;112;45;104;100;114;101;120;116;58;115;100;101;115;58;109;105;100])] (Some [49])
      None [] None
      (Some ([([115;104;97;45;50;53;54], [56;65;58;66;66;58;50;49])], (Some [97;117;116;111])))
      (Some (mkIce (Some [115;56;113;120]) (Some [80;73;87;84;51;48;76;105;51;98;53;89;102;51;77;82;107;85;54;120;106;52]) false))
      [mkCand [102;57] 1 [117;100;112] 2130706431 [49;57;50;46;48;46;50;46;50] 37387 [104;111;115;116] None None None] true None;
     mkMedia [97;112;112;108;105;99;97;116;105;111;110] 37387 (Some ([49;57;50;46;48;46;50;46;50], 4)) [85;68;80;47;68;84;76;83;47;83;67;84;80] None None
      None None false
      [] []
      [FS [119;101;98;114;116;99;45;100;97;116;97;99;104;97;110;110;101;108]]
      []
      [] (Some [50])
      (Some 65536) [] (Some 5000)
      (Some ([([115;104;97;45;50;53;54], [56;65;58;66;66;58;50;49])], (Some [97;117;116;111])))
      (Some (mkIce (Some [115;56;113;120]) (Some [80;73;87;84;51;48;76;105;51;98;53;89;102;51;77;82;107;85;54;120;106;52]) false))
      [mkCand [102;57] 1 [117;100;112] 2130706431 [49;57;50;46;48;46;50;46;50] 37387 [104;111;115;116] None None None] true None].

Example C09_example_generated : wf_generated_b example_bundle = true.
Proof. vm_compute. reflexivity. Qed.

Example C09_example_roundtrip :
  exists ls, render example_bundle = Ok ls /\ absorb ls = Ok example_bundle /\ length ls = 58%nat.
Proof.
  destruct (generated_fixpoint example_bundle C09_example_generated) as (ls & Hr & Ha).
  exists ls. split; [exact Hr|]. split; [exact Ha|]. vm_compute in Hr. now injection Hr as <-.
Qed.

(* non-vacuity of C09_idempotent outside the generated shape: no a=rtcp, rtcp-mux, duplicate
   rtpmap, an SSRC with an unknown attribute, session-level credentials *)
Example C09_example_idempotent :
  let t := [Lv 0; Lice_ufrag (Some [117]); Lsetup (Some s_active);
            Lm s_video 9 [82;84;80] [FI 96]; Lrtcp_mux; Lrtpmap 96 [86] 90000 None; Lrtpmap 96 [87] 1 None;
            Lrtcp_fb FbAll (Some ([110], Some [])); Lssrc 5 [120] [121]; Lmsid (Some [])] in
  exists d ls, absorb t = Ok d /\ render d = Ok ls /\ ls <> t /\ bind (absorb ls) render = Ok ls.
Proof. eexists. eexists. split; [vm_compute; reflexivity|]. split; [vm_compute; reflexivity|]. split; [discriminate|vm_compute; reflexivity]. Qed.

(* contrib/signaling.py: the object <-> message mapping is a bijection between
   {description with type offer/answer, candidate (with sdpMid / sdpMLineIndex), bye} and the
   messages object_to_string writes (json itself is trusted): reading back what was written gives
   the object, distinct objects give distinct messages, and re-writing what was read from such a
   message gives the message. *)
Theorem C09_signaling_roundtrip :
  (forall o, sobj_ok o -> obj_of_msg (msg_of_obj o) = Ok o) /\
  (forall o1 o2, msg_of_obj o1 = msg_of_obj o2 -> o1 = o2) /\
  (forall m o, obj_of_msg m = Ok o -> (exists o', sobj_ok o' /\ m = msg_of_obj o') -> msg_of_obj o = m).
Proof. exact (conj signaling_roundtrip (conj msg_of_obj_inj signaling_msg_roundtrip)). Qed.
Print Assumptions C09_signaling_roundtrip.

Example C09_example_signaling :
  sobj_ok (SDesc [118] s_offer) /\ sobj_ok (SCand (mkCand [49] 1 [117] 5 [58;58] 9 [104] None (Some 7) None) (Some [48]) None).
Proof. cbn. auto. Qed.
