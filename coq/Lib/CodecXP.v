(* Lemmas about Lib/CodecX.v: Python slices with non-negative indices,
   result/bind inversion; bit-mask and bit-field arithmetic on Z. *)
From Coq Require Import ZArith List Bool Lia.
From AV Require Import Lib.Bytes Lib.BytesP Lib.CodecX.
Import ListNotations.
Local Open Scope Z_scope.

Definition total {T : Type} (r : result T) : Prop := (exists v, r = Ok v) \/ r = ValueErr.

Lemma bind_ok {T U : Type} (r : result T) (f : T -> result U) v :
  bind r f = Ok v -> exists a, r = Ok a /\ f a = Ok v.
Proof. destruct r; cbn [bind]; intros H; try discriminate. eauto. Qed.

Lemma total_bind {T U : Type} (r : result T) (f : T -> result U) :
  total r -> (forall a, r = Ok a -> total (f a)) -> total (bind r f).
Proof.
  intros [[v ->] | ->] H; cbn [bind]; [apply H; reflexivity | right; reflexivity].
Qed.
Lemma total_ok {T : Type} (v : T) : total (Ok v).
Proof. left. eauto. Qed.
Lemma total_valueerr {T : Type} : total (@ValueErr T).
Proof. right. reflexivity. Qed.

Lemma len_firstn l n : (n <= length l)%nat -> len (firstn n l) = Z.of_nat n.
Proof. intros H. unfold len. rewrite firstn_length. lia. Qed.
Lemma len_skipn l n : len (skipn n l) = len l - Z.of_nat (Nat.min n (length l)).
Proof. unfold len. rewrite skipn_length. lia. Qed.
Lemma len_length l : len l = Z.of_nat (length l).
Proof. reflexivity. Qed.

Lemma norm_idx_nonneg n i : 0 <= i -> norm_idx n i = Z.min i n.
Proof. intros H. unfold norm_idx. destruct (i <? 0) eqn:E; [lia | reflexivity]. Qed.

Lemma skipn_skipn {T : Type} (x y : nat) (l : list T) : skipn x (skipn y l) = skipn (x + y) l.
Proof.
  revert l. induction y as [|y IH]; intros l.
  - now rewrite Nat.add_0_r.
  - destruct l as [|a l]; [now rewrite !skipn_nil|].
    rewrite Nat.add_succ_r. cbn [skipn]. apply IH.
Qed.

Lemma pyslice_nonneg l a b :
  0 <= a -> 0 <= b ->
  pyslice l a b = firstn (Z.to_nat b - Z.to_nat a) (skipn (Z.to_nat a) l).
Proof.
  intros Ha Hb. unfold pyslice, slice. rewrite !norm_idx_nonneg by assumption.
  assert (Hl : len l = Z.of_nat (length l)) by reflexivity.
  destruct (Z_le_gt_dec (len l) a) as [Hge | Hlt].
  - (* a beyond the end: both sides empty *)
    rewrite (skipn_all2 l (n := Z.to_nat (Z.min a (len l)))) by lia.
    rewrite (skipn_all2 l (n := Z.to_nat a)) by lia.
    now rewrite !firstn_nil.
  - replace (Z.to_nat (Z.min a (len l))) with (Z.to_nat a) by lia.
    destruct (Z_le_gt_dec b (len l)) as [Hb2 | Hb2].
    + replace (Z.to_nat (Z.min b (len l))) with (Z.to_nat b) by lia. reflexivity.
    + rewrite !firstn_all2; [reflexivity | |]; rewrite skipn_length; lia.
Qed.

Lemma pyfrom_nonneg l a : 0 <= a -> pyfrom l a = skipn (Z.to_nat a) l.
Proof.
  intros Ha. unfold pyfrom. rewrite norm_idx_nonneg by assumption.
  destruct (Z_le_gt_dec (len l) a) as [Hge | Hlt].
  - assert (Hl : len l = Z.of_nat (length l)) by reflexivity.
    rewrite (skipn_all2 l (n := Z.to_nat (Z.min a (len l)))) by lia.
    rewrite (skipn_all2 l (n := Z.to_nat a)) by lia. reflexivity.
  - f_equal. lia.
Qed.

Lemma pyidx_nonneg l i : 0 <= i -> pyidx l i = u8 l (Z.to_nat i).
Proof. intros H. unfold pyidx. destruct (i <? 0) eqn:E; [lia | reflexivity]. Qed.

Lemma pyslice_app_mid pre mid post :
  pyslice (pre ++ mid ++ post) (len pre) (len pre + len mid) = mid.
Proof.
  rewrite pyslice_nonneg by (unfold len; lia).
  unfold len. rewrite <- Nat2Z.inj_add, !Nat2Z.id.
  replace (length pre + length mid - length pre)%nat with (length mid) by lia.
  rewrite skipn_app, skipn_all, Nat.sub_diag. cbn [skipn app].
  rewrite firstn_app, firstn_all, Nat.sub_diag. cbn [firstn]. now rewrite app_nil_r.
Qed.

(* the same with the position of mid given by equations, so that data and the
   indices can stay as the caller has them *)
Lemma pyslice_mid data pre mid post a b :
  data = pre ++ mid ++ post -> a = len pre -> b = a + len mid -> pyslice data a b = mid.
Proof. intros -> -> ->. apply pyslice_app_mid. Qed.

(* one step of a loop that cuts data into consecutive slices *)
Lemma pyslice_chunk data pos sz :
  0 <= pos -> 0 <= sz -> pos + sz <= len data ->
  len (pyslice data pos (pos + sz)) = sz /\
  pyslice data pos (pos + sz) ++ skipn (Z.to_nat (pos + sz)) data = skipn (Z.to_nat pos) data.
Proof.
  intros H0 H1 H2. rewrite pyslice_nonneg by lia.
  replace (Z.to_nat (pos + sz) - Z.to_nat pos)%nat with (Z.to_nat sz) by lia.
  replace (Z.to_nat (pos + sz)) with (Z.to_nat sz + Z.to_nat pos)%nat by lia.
  rewrite <- skipn_skipn. split; [|apply firstn_skipn].
  rewrite len_firstn; [lia|]. rewrite skipn_length. unfold len in H2. lia.
Qed.

Lemma skipn_len (data : bytes) : skipn (Z.to_nat (len data)) data = [].
Proof. apply skipn_all2. unfold len. lia. Qed.

Lemma u8_mid pre x post : u8 (pre ++ x :: post) (length pre) = Some x.
Proof. rewrite <- (Nat.add_0_r (length pre)), u8_app_r. reflexivity. Qed.

Lemma pyidx_in data pre x post i :
  data = pre ++ x :: post -> i = len pre -> pyidx data i = Some x.
Proof.
  intros -> ->. rewrite pyidx_nonneg by apply len_nonneg.
  replace (Z.to_nat (len pre)) with (length pre) by (unfold len; lia). apply u8_mid.
Qed.

Lemma u16_in data pre v post :
  data = pre ++ be16 v ++ post -> 0 <= v < 65536 -> u16 data (length pre) = Some v.
Proof. intros ->. apply u16_at. Qed.

Lemma Forall2_map_r {T U : Type} (R : T -> U -> Prop) (f : T -> U) l :
  (forall x, R x (f x)) -> Forall2 R l (map f l).
Proof. intros H. induction l as [|x l IH]; cbn [map]; constructor; [apply H | exact IH]. Qed.

(* Bit masks and bit fields.  Two ways to reason about a byte put together with | and << and taken apart
   with & and >>: by masks (a value under mask m has nothing under a mask
   disjoint from m), and, where the masks are 2^n - 1, by turning | into +
   and the reads into / and mod. *)
Lemma fits_land_ones n x : 0 <= n -> (0 <= x < 2 ^ n <-> Z.land x (Z.ones n) = x).
Proof.
  intros Hn. rewrite Z.land_ones by exact Hn. split.
  - apply Z.mod_small.
  - intros <-. apply Z.mod_pos_bound. lia.
Qed.

Lemma land_land_disjoint b m k : Z.land m k = 0 -> Z.land (Z.land b m) k = 0.
Proof. intros H. rewrite <- Z.land_assoc, H. apply Z.land_0_r. Qed.

Lemma land_fits_disjoint n x k :
  0 <= n -> 0 <= x < 2 ^ n -> Z.land (Z.ones n) k = 0 -> Z.land x k = 0.
Proof.
  intros Hn Hx. apply (fits_land_ones n) in Hx; [|exact Hn]. rewrite <- Hx. apply land_land_disjoint.
Qed.

Lemma land_lor_other b m y k : Z.land m k = 0 -> Z.land (Z.lor (Z.land b m) y) k = Z.land y k.
Proof. intros H. rewrite Z.land_lor_distr_l, land_land_disjoint by exact H. apply Z.lor_0_l. Qed.

Lemma land_lor_own b m y : Z.land y m = 0 -> Z.land (Z.lor (Z.land b m) y) m = Z.land b m.
Proof. intros H. rewrite Z.land_lor_distr_l, H, <- Z.land_assoc, Z.land_diag. apply Z.lor_0_r. Qed.

Lemma lor_range n a b : 0 <= n -> 0 <= a < 2 ^ n -> 0 <= b < 2 ^ n -> 0 <= Z.lor a b < 2 ^ n.
Proof.
  intros Hn. rewrite !(fits_land_ones n) by exact Hn. intros Ha Hb.
  rewrite Z.land_lor_distr_l, Ha, Hb. reflexivity.
Qed.

Lemma land_range n a m : 0 <= n -> 0 <= m < 2 ^ n -> 0 <= Z.land a m < 2 ^ n.
Proof.
  intros Hn. rewrite !(fits_land_ones n) by exact Hn. intros Hm.
  rewrite <- Z.land_assoc, Hm. reflexivity.
Qed.

Lemma lor_shiftl_add hi k lo :
  0 <= k -> 0 <= lo < 2 ^ k -> Z.lor (Z.shiftl hi k) lo = hi * 2 ^ k + lo.
Proof.
  intros Hk Hlo. rewrite Z.shiftl_mul_pow2 by exact Hk.
  assert (D : Z.land (hi * 2 ^ k) lo = 0).
  { rewrite Z.land_comm. apply (land_fits_disjoint k); [exact Hk | exact Hlo |].
    rewrite Z.land_comm, Z.land_ones by exact Hk. apply Z.mod_mul. lia. }
  rewrite <- Z.lxor_lor, <- Z.add_nocarry_lxor by exact D. reflexivity.
Qed.

Lemma byte_top_bit b : 0 <= b < 256 -> (Z.land b 128 =? 0) = (b <? 128).
Proof.
  intros Hb. destruct (Z.ltb_spec b 128) as [Hlt | Hge].
  - rewrite (land_fits_disjoint 7 b 128) by (lia || reflexivity). reflexivity.
  - replace b with (Z.lor (Z.shiftl 1 7) (b - 128)) by (rewrite lor_shiftl_add; lia).
    rewrite Z.land_lor_distr_l, (land_fits_disjoint 7 (b - 128) 128) by (lia || reflexivity). reflexivity.
Qed.
