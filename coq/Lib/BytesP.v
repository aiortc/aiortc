(* Lemmas about Lib/Bytes.v: struct.pack / unpack_from round trips. *)
From Coq Require Import ZArith List Bool Lia.
From AV Require Import Lib.Bytes.
Import ListNotations.
Local Open Scope Z_scope.

Ltac Zify.zify_post_hook ::= Z.to_euclidean_division_equations.

Lemma len_app a b : len (a ++ b) = len a + len b.
Proof. unfold len. rewrite app_length. lia. Qed.
Lemma len_nonneg a : 0 <= len a.
Proof. unfold len. lia. Qed.
Lemma len_nil : len [] = 0. Proof. reflexivity. Qed.
Lemma len_cons x a : len (x :: a) = 1 + len a.
Proof. unfold len. cbn [length]. lia. Qed.

Lemma bytes_ok_app a b : bytes_ok (a ++ b) <-> bytes_ok a /\ bytes_ok b.
Proof. unfold bytes_ok. apply Forall_app. Qed.
Lemma bytes_ok_nil : bytes_ok []. Proof. constructor. Qed.
Lemma bytes_ok_cons x a : bytes_ok (x :: a) <-> byte_ok x /\ bytes_ok a.
Proof. unfold bytes_ok. split; [intros H; inversion H; auto|intros [H1 H2]; constructor; auto]. Qed.
Lemma bytes_ok_firstn n a : bytes_ok a -> bytes_ok (firstn n a).
Proof.
  unfold bytes_ok. rewrite !Forall_forall. intros H x Hin. apply H.
  rewrite <- (firstn_skipn n a). apply in_or_app. now left.
Qed.
Lemma bytes_ok_skipn n a : bytes_ok a -> bytes_ok (skipn n a).
Proof.
  unfold bytes_ok. rewrite !Forall_forall. intros H x Hin. apply H.
  rewrite <- (firstn_skipn n a). apply in_or_app. now right.
Qed.
Lemma bytes_ok_zeros n : bytes_ok (zeros n).
Proof. unfold bytes_ok, zeros. apply Forall_forall. intros x Hin. apply repeat_spec in Hin. subst. unfold byte_ok. lia. Qed.
Lemma bytes_okb_ok l : bytes_okb l = true <-> bytes_ok l.
Proof.
  unfold bytes_okb, bytes_ok. rewrite forallb_forall, Forall_forall. unfold byte_okb, byte_ok.
  split; intros H x Hin; specialize (H x Hin); lia.
Qed.

(* every pack writes residues mod 256 *)
Lemma bytes_ok_mod l : bytes_ok (map (fun x => x mod 256) l).
Proof. apply Forall_map, Forall_forall. intros x _. apply Z.mod_pos_bound. reflexivity. Qed.

Lemma be8_ok n : bytes_ok (be8 n).
Proof. exact (bytes_ok_mod [n]). Qed.
Lemma be16_ok n : bytes_ok (be16 n).
Proof. exact (bytes_ok_mod [n / 256; n]). Qed.
Lemma be24_ok n : bytes_ok (be24 n).
Proof. exact (bytes_ok_mod [n / 65536; n / 256; n]). Qed.
Lemma be32_ok n : bytes_ok (be32 n).
Proof. exact (bytes_ok_mod [n / 16777216; n / 65536; n / 256; n]). Qed.
Lemma le32_ok n : bytes_ok (le32 n).
Proof. exact (bytes_ok_mod [n; n / 256; n / 65536; n / 16777216]). Qed.
Lemma be64_ok n : bytes_ok (be64 n).
Proof. unfold be64. apply bytes_ok_app. split; apply be32_ok. Qed.

Lemma length_be8 n : length (be8 n) = 1%nat. Proof. reflexivity. Qed.
Lemma length_be16 n : length (be16 n) = 2%nat. Proof. reflexivity. Qed.
Lemma length_be24 n : length (be24 n) = 3%nat. Proof. reflexivity. Qed.
Lemma length_be32 n : length (be32 n) = 4%nat. Proof. reflexivity. Qed.
Lemma length_le32 n : length (le32 n) = 4%nat. Proof. reflexivity. Qed.
Lemma length_be64 n : length (be64 n) = 8%nat. Proof. reflexivity. Qed.

(* reading at an offset inside a concatenation *)
Lemma u8_app_r pre l i : u8 (pre ++ l) (length pre + i) = u8 l i.
Proof. unfold u8. rewrite nth_error_app2 by lia. f_equal. lia. Qed.
Lemma u8_app_l pre l i : (i < length pre)%nat -> u8 (pre ++ l) i = u8 pre i.
Proof. unfold u8. intros H. now apply nth_error_app1. Qed.
Lemma u16_app_r pre l i : u16 (pre ++ l) (length pre + i) = u16 l i.
Proof. unfold u16. rewrite plus_n_Sm, !u8_app_r. reflexivity. Qed.
Lemma u24_app_r pre l i : u24 (pre ++ l) (length pre + i) = u24 l i.
Proof. unfold u24. rewrite plus_n_Sm, u8_app_r, u16_app_r. reflexivity. Qed.
Lemma u32_app_r pre l i : u32 (pre ++ l) (length pre + i) = u32 l i.
Proof. unfold u32. rewrite !plus_n_Sm, !u16_app_r. reflexivity. Qed.
Lemma u64_app_r pre l i : u64 (pre ++ l) (length pre + i) = u64 l i.
Proof.
  unfold u64. replace (4 + (length pre + i))%nat with (length pre + (4 + i))%nat by lia.
  rewrite !u32_app_r. reflexivity.
Qed.
Lemma u32le_app_r pre l i : u32le (pre ++ l) (length pre + i) = u32le l i.
Proof.
  unfold u32le.
  replace (1 + (length pre + i))%nat with (length pre + (1 + i))%nat by lia.
  replace (2 + (length pre + i))%nat with (length pre + (2 + i))%nat by lia.
  replace (3 + (length pre + i))%nat with (length pre + (3 + i))%nat by lia.
  rewrite !u8_app_r. reflexivity.
Qed.

(* round trips at offset 0, any suffix *)
Lemma u8_be8 n post : 0 <= n < 256 -> u8 (be8 n ++ post) 0 = Some n.
Proof. intros H. cbn. f_equal. lia. Qed.
Lemma u16_be16 n post : 0 <= n < 65536 -> u16 (be16 n ++ post) 0 = Some n.
Proof. intros H. cbn. f_equal. lia. Qed.
(* the three bytes of any n, negative ones too, are those of n mod 2^24 *)
Lemma be24_value n :
  (n / 65536) mod 256 * 65536 + ((n / 256) mod 256 * 256 + n mod 256) = n mod 16777216.
Proof. lia. Qed.
Lemma u24_be24 n post : 0 <= n < 16777216 -> u24 (be24 n ++ post) 0 = Some n.
Proof. intros H. cbn. now rewrite be24_value, Z.mod_small. Qed.
Lemma u32_be32 n post : 0 <= n < 4294967296 -> u32 (be32 n ++ post) 0 = Some n.
Proof. intros H. cbn. f_equal. lia. Qed.
Lemma u32le_le32 n post : 0 <= n < 4294967296 -> u32le (le32 n ++ post) 0 = Some n.
Proof.
  intros H. cbn. f_equal.
  replace (n / 65536) with (n / 256 / 256) by (rewrite Z.div_div by lia; reflexivity).
  replace (n / 16777216) with (n / 256 / 256 / 256) by (rewrite !Z.div_div by lia; reflexivity).
  lia.
Qed.
Lemma u64_be64 n post : 0 <= n < 18446744073709551616 -> u64 (be64 n ++ post) 0 = Some n.
Proof.
  intros H. unfold u64, be64. rewrite <- app_assoc.
  rewrite u32_be32 by lia.
  change 4%nat with (length (be32 (n / 4294967296)) + 0)%nat at 1.
  rewrite u32_app_r, u32_be32 by lia. f_equal. lia.
Qed.

(* the general forms: value written after an arbitrary prefix *)
Lemma u8_at pre n post : 0 <= n < 256 -> u8 (pre ++ be8 n ++ post) (length pre) = Some n.
Proof. intros H. rewrite <- (Nat.add_0_r (length pre)), u8_app_r. now apply u8_be8. Qed.
Lemma u16_at pre n post : 0 <= n < 65536 -> u16 (pre ++ be16 n ++ post) (length pre) = Some n.
Proof. intros H. rewrite <- (Nat.add_0_r (length pre)), u16_app_r. now apply u16_be16. Qed.
Lemma u24_at pre n post : 0 <= n < 16777216 -> u24 (pre ++ be24 n ++ post) (length pre) = Some n.
Proof. intros H. rewrite <- (Nat.add_0_r (length pre)), u24_app_r. now apply u24_be24. Qed.
Lemma u32_at pre n post : 0 <= n < 4294967296 -> u32 (pre ++ be32 n ++ post) (length pre) = Some n.
Proof. intros H. rewrite <- (Nat.add_0_r (length pre)), u32_app_r. now apply u32_be32. Qed.
Lemma u32le_at pre n post : 0 <= n < 4294967296 -> u32le (pre ++ le32 n ++ post) (length pre) = Some n.
Proof. intros H. rewrite <- (Nat.add_0_r (length pre)), u32le_app_r. now apply u32le_le32. Qed.
Lemma u64_at pre n post : 0 <= n < 18446744073709551616 -> u64 (pre ++ be64 n ++ post) (length pre) = Some n.
Proof. intros H. rewrite <- (Nat.add_0_r (length pre)), u64_app_r. now apply u64_be64. Qed.

(* totality of reads inside the buffer, and ranges of the values read *)
Lemma u8_some l i : (i < length l)%nat -> exists v, u8 l i = Some v.
Proof. intros H. unfold u8. destruct (nth_error l i) eqn:E; [eauto|]. apply nth_error_None in E. lia. Qed.
Lemma u8_none l i : (length l <= i)%nat -> u8 l i = None.
Proof. intros H. unfold u8. now apply nth_error_None. Qed.
Lemma u8_range l i v : bytes_ok l -> u8 l i = Some v -> 0 <= v < 256.
Proof.
  unfold u8, bytes_ok. intros H E. apply nth_error_In in E. rewrite Forall_forall in H. apply (H v E).
Qed.
Lemma u8_lt l i v : u8 l i = Some v -> (i < length l)%nat.
Proof. unfold u8. intros E. apply nth_error_Some. congruence. Qed.
Lemma u16_some l i : (i + 2 <= length l)%nat -> exists v, u16 l i = Some v.
Proof.
  intros H. unfold u16. destruct (u8_some l i) as [a ->]; [lia|]. destruct (u8_some l (S i)) as [b ->]; [lia|]. eauto.
Qed.
Lemma u16_range l i v : bytes_ok l -> u16 l i = Some v -> 0 <= v < 65536.
Proof.
  unfold u16. intros H E. destruct (u8 l i) eqn:E1; [|discriminate]. destruct (u8 l (S i)) eqn:E2; [|discriminate].
  apply (u8_range _ _ _ H) in E1. apply (u8_range _ _ _ H) in E2. injection E as <-. lia.
Qed.
Lemma u16_lt l i v : u16 l i = Some v -> (i + 2 <= length l)%nat.
Proof.
  unfold u16. intros E. destruct (u8 l i) eqn:E1; [|discriminate]. destruct (u8 l (S i)) eqn:E2; [|discriminate].
  apply u8_lt in E2. lia.
Qed.
Lemma u24_some l i : (i + 3 <= length l)%nat -> exists v, u24 l i = Some v.
Proof.
  intros H. unfold u24. destruct (u8_some l i) as [a ->]; [lia|].
  destruct (u16_some l (S i)) as [b ->]; [lia|]. eauto.
Qed.
Lemma u32_some l i : (i + 4 <= length l)%nat -> exists v, u32 l i = Some v.
Proof.
  intros H. unfold u32. destruct (u16_some l i) as [a ->]; [lia|]. destruct (u16_some l (S (S i))) as [b ->]; [lia|]. eauto.
Qed.
Lemma u32_range l i v : bytes_ok l -> u32 l i = Some v -> 0 <= v < 4294967296.
Proof.
  unfold u32. intros H E. destruct (u16 l i) eqn:E1; [|discriminate]. destruct (u16 l (S (S i))) eqn:E2; [|discriminate].
  apply (u16_range _ _ _ H) in E1. apply (u16_range _ _ _ H) in E2. injection E as <-. lia.
Qed.
Lemma u32_lt l i v : u32 l i = Some v -> (i + 4 <= length l)%nat.
Proof.
  unfold u32. intros E. destruct (u16 l i) eqn:E1; [|discriminate]. destruct (u16 l (S (S i))) eqn:E2; [|discriminate].
  apply u16_lt in E2. lia.
Qed.

Lemma u64_some l i : (i + 8 <= length l)%nat -> exists v, u64 l i = Some v.
Proof.
  intros H. unfold u64. destruct (u32_some l i) as [a ->]; [lia|].
  destruct (u32_some l (4 + i)) as [b ->]; [lia|]. eauto.
Qed.

(* slices *)
Lemma slice_length l a b : length (slice l a b) = Nat.min (b - a) (length l - a).
Proof. unfold slice. rewrite firstn_length, skipn_length. reflexivity. Qed.
Lemma slice_app_mid pre mid post :
  slice (pre ++ mid ++ post) (length pre) (length pre + length mid) = mid.
Proof.
  unfold slice. rewrite skipn_app, skipn_all, Nat.sub_diag. cbn [skipn app].
  replace (length pre + length mid - length pre)%nat with (length mid) by lia.
  rewrite firstn_app, firstn_all, Nat.sub_diag. cbn [firstn]. now rewrite app_nil_r.
Qed.
Lemma from_app pre l : from (pre ++ l) (length pre) = l.
Proof. unfold from. rewrite skipn_app, skipn_all, Nat.sub_diag. reflexivity. Qed.
Lemma bytes_ok_slice l a b : bytes_ok l -> bytes_ok (slice l a b).
Proof. intros H. unfold slice. now apply bytes_ok_firstn, bytes_ok_skipn. Qed.

Lemma bytes_eqb_eq a b : bytes_eqb a b = true <-> a = b.
Proof.
  revert b. induction a as [|x a IH]; destruct b as [|y b]; cbn [bytes_eqb]; try (split; congruence).
  rewrite andb_true_iff, Z.eqb_eq, IH. split; [intros [-> ->]; reflexivity|intros [= -> ->]; auto].
Qed.
Lemma bytes_eqb_refl a : bytes_eqb a a = true.
Proof. now apply bytes_eqb_eq. Qed.
